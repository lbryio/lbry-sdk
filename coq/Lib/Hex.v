(* binascii.hexlify / unhexlify. Model.C02 (hex, unhex), Model.C08 and Model.C16_Attrs (hexlify, unhexlify) each
   carry this pair under names of their own; the three are the same terms, so what is proved here holds of each
   by conversion. *)
From Coq Require Import NArith List Bool Lia.
From Coq.Strings Require Import Byte.
From LV Require Import Lib.Bytes.
Import ListNotations.
Local Open Scope N_scope.

Definition hex_digit (n : N) : byte := byte_of_N (if n <? 10 then 48 + n else 87 + n).

Definition hex_val (b : byte) : option N :=
  let c := N_of_byte b in
  if (48 <=? c) && (c <=? 57) then Some (c - 48)
  else if (97 <=? c) && (c <=? 102) then Some (c - 87)
  else if (65 <=? c) && (c <=? 70) then Some (c - 55)
  else None.

Fixpoint hexlify (bs : bytes) : bytes :=
  match bs with
  | [] => []
  | b :: r => hex_digit (N_of_byte b / 16) :: hex_digit (N_of_byte b mod 16) :: hexlify r
  end.

Fixpoint unhexlify (s : bytes) : option bytes :=
  match s with
  | [] => Some []
  | [_] => None
  | h :: l :: r =>
      match hex_val h, hex_val l, unhexlify r with
      | Some a, Some b, Some t => Some (byte_of_N (16 * a + b) :: t)
      | _, _, _ => None
      end
  end.

Lemma hex_digit_code n : n < 16 -> N_of_byte (hex_digit n) = if n <? 10 then 48 + n else 87 + n.
Proof. intro H. unfold hex_digit. apply byte_of_N_small. destruct (n <? 10); lia. Qed.

Lemma hex_val_digit n : n < 16 -> hex_val (hex_digit n) = Some n.
Proof.
  intro H. unfold hex_val. rewrite (hex_digit_code n H). destruct (N.ltb_spec n 10).
  - destruct (range_spec 48 57 (48 + n)); [f_equal|]; lia.
  - destruct (range_spec 48 57 (87 + n)); [lia|]. destruct (range_spec 97 102 (87 + n)); [f_equal|]; lia.
Qed.

Lemma nibbles_lt b : N_of_byte b / 16 < 16 /\ N_of_byte b mod 16 < 16.
Proof.
  split; [apply N.div_lt_upper_bound; [discriminate | exact (N_of_byte_lt b)] | apply N.mod_lt; discriminate].
Qed.

Lemma unhexlify_hexlify bs : unhexlify (hexlify bs) = Some bs.
Proof.
  induction bs as [|b r IH]; [reflexivity|]. cbn [hexlify unhexlify].
  destruct (nibbles_lt b) as [Hh Hl]. rewrite !hex_val_digit, IH by assumption.
  rewrite <- N.div_mod', byte_of_N_of_byte. reflexivity.
Qed.

Lemma hexlify_inj a b : hexlify a = hexlify b -> a = b.
Proof. intro H. pose proof (unhexlify_hexlify a) as Ha. rewrite H, unhexlify_hexlify in Ha. congruence. Qed.

Lemma hexlify_length bs : length (hexlify bs) = (2 * length bs)%nat.
Proof. induction bs as [|b r IH]; [reflexivity|]. cbn [hexlify length]. rewrite IH. lia. Qed.

Lemma hexlify_Forall (Q : byte -> Prop) : (forall n, n < 16 -> Q (hex_digit n)) -> forall bs, Forall Q (hexlify bs).
Proof.
  intros HQ bs. induction bs as [|b r IH]; [constructor|]. destruct (nibbles_lt b) as [Hh Hl].
  cbn [hexlify]. constructor; [apply HQ, Hh|]. constructor; [apply HQ, Hl | exact IH].
Qed.
