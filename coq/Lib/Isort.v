(* Insertion sort.  Several models sort by insertion, each with an insertion function of its own (the order is a
   section variable, a key, an argument of the fixpoint), so none is an instance of one definition by conversion.
   What they share is the four equations below, which each satisfies by computation; from them: the result is a
   permutation of the input, and sorted when the order is total and transitive.  Sortedness is likewise whatever
   predicate the caller has, given by what it says of [] and of x :: l.  [lex_pair_iff] reads the order that two of
   the models sort by (one numeric key, a second to break ties) as a proposition, for [lia]. *)
From Coq Require Import NArith List Bool Permutation.
Import ListNotations.

Section Isort.
  Context {A : Type} (le : A -> A -> bool) (ins : A -> list A -> list A) (sort : list A -> list A).
  Hypothesis ins_nil : forall x, ins x [] = [x].
  Hypothesis ins_cons : forall x y r, ins x (y :: r) = if le x y then x :: y :: r else y :: ins x r.
  Hypothesis sort_nil : sort [] = [].
  Hypothesis sort_cons : forall x r, sort (x :: r) = ins x (sort r).

  Lemma ins_perm x l : Permutation (ins x l) (x :: l).
  Proof.
    induction l as [|y r IH]; [rewrite ins_nil; reflexivity|]. rewrite ins_cons.
    destruct (le x y); [reflexivity|]. rewrite IH. apply perm_swap.
  Qed.

  Lemma sort_perm l : Permutation (sort l) l.
  Proof. induction l as [|x r IH]; [rewrite sort_nil; constructor|]. rewrite sort_cons, ins_perm, IH. reflexivity. Qed.

  Variable sorted : list A -> Prop.
  Hypothesis sorted_nil : sorted [].
  Hypothesis sorted_cons : forall x l, sorted (x :: l) <-> (forall y, In y l -> le x y = true) /\ sorted l.
  Hypothesis le_total : forall a b, le a b = true \/ le b a = true.
  Hypothesis le_trans : forall a b c, le a b = true -> le b c = true -> le a c = true.

  (* below the insertion point nothing changes; at it, x goes before y and so, by transitivity, before the rest;
     above it, the head y is before x by totality and before the rest as it was, and that rest with x is the
     recursive result up to order *)
  Lemma ins_sorted x l : sorted l -> sorted (ins x l).
  Proof.
    induction l as [|y r IH]; intro S; [rewrite ins_nil; apply sorted_cons; split; [intros ? []|exact S]|].
    rewrite ins_cons. destruct (sorted_cons y r) as [[Hy Sr] _]; [exact S|]. destruct (le x y) eqn:E; apply sorted_cons.
    - split; [|exact S]. intros z [<-|Hz]; [exact E | exact (le_trans _ _ _ E (Hy z Hz))].
    - split; [|exact (IH Sr)]. intros z Hz. apply (Permutation_in _ (ins_perm x r)) in Hz as [<-|Hz]; [|exact (Hy z Hz)].
      destruct (le_total x y); congruence.
  Qed.

  Lemma sort_sorted l : sorted (sort l).
  Proof. induction l as [|x r IH]; [rewrite sort_nil; exact sorted_nil | rewrite sort_cons; exact (ins_sorted x _ IH)]. Qed.
End Isort.

Lemma lex_pair_iff x y u v p q :
  ((x <? y) || ((u =? v) && (p <=? q)) = true <-> x < y \/ (u = v /\ p <= q))%N.
Proof. rewrite orb_true_iff, andb_true_iff, N.ltb_lt, N.eqb_eq, N.leb_le. reflexivity. Qed.
