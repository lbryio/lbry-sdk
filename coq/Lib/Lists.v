(* Facts about standard-library lists that several properties use: prefixes and suffixes, duplicate-freeness,
   membership tests through a boolean equality, invariants of a left fold. *)
From Coq Require Import Arith NArith List Bool Lia.
Import ListNotations.

Lemma firstn_add {A} (a b : nat) (l : list A) : firstn (a + b) l = firstn a l ++ firstn b (skipn a l).
Proof.
  revert l. induction a as [|a IH]; intro l; [reflexivity|].
  destruct l as [|x l]; [now rewrite skipn_nil, !firstn_nil|]. cbn [Nat.add firstn skipn app]. now rewrite IH.
Qed.

Lemma skipn_skipn {A} (x y : nat) (l : list A) : skipn x (skipn y l) = skipn (x + y) l.
Proof.
  revert l. induction y as [|y IH]; intro l; [now rewrite Nat.add_0_r|].
  rewrite Nat.add_succ_r. destruct l as [|a l]; [now rewrite !skipn_nil|]. apply IH.
Qed.

Lemma In_firstn {A} n (l : list A) x : In x (firstn n l) -> In x l.
Proof. intro H. rewrite <- (firstn_skipn n l). apply in_or_app. now left. Qed.

Lemma In_skipn {A} n (l : list A) x : In x (skipn n l) -> In x l.
Proof. intro H. rewrite <- (firstn_skipn n l). apply in_or_app. now right. Qed.

Lemma nth_firstn_lt {A} (l : list A) n i d : i < n -> nth i (firstn n l) d = nth i l d.
Proof.
  revert n i. induction l as [|x l IH]; intros n i H; [now rewrite firstn_nil|].
  destruct n; [lia|]. destruct i; [reflexivity|]. apply IH. lia.
Qed.

Lemma app_inv_len {A} (a a' b b' : list A) : length a = length a' -> a ++ b = a' ++ b' -> a = a' /\ b = b'.
Proof.
  revert a'. induction a as [|x a IH]; intros [|y a'] L E; try discriminate; [now split|].
  injection L as L. injection E as -> E. destruct (IH a' L E) as [-> ->]. now split.
Qed.

Lemma app_inv_len_r {A} (a a' b b' : list A) : length b = length b' -> a ++ b = a' ++ b' -> a = a' /\ b = b'.
Proof.
  intros L E. apply app_inv_len; [|exact E]. apply (f_equal (@length A)) in E. rewrite !app_length in E. lia.
Qed.

Lemma map_repeat {A B} (f : A -> B) x k : map f (repeat x k) = repeat (f x) k.
Proof. induction k as [|k IH]; [reflexivity|]. cbn [repeat map]. now rewrite IH. Qed.

Lemma combine_map_self {A B} (f : A -> B) l : combine l (map f l) = map (fun a => (a, f a)) l.
Proof. induction l as [|x l IH]; simpl; congruence. Qed.

Lemma Forall_mid {A} (P : A -> Prop) pre b post : Forall P (pre ++ b :: post) <-> Forall P pre /\ P b /\ Forall P post.
Proof. rewrite Forall_app, Forall_cons_iff. reflexivity. Qed.

Lemma filter_length_le {A} (f : A -> bool) (l : list A) : length (filter f l) <= length l.
Proof. induction l as [|x l IH]; cbn [filter length]; [lia|]. destruct (f x); cbn [length]; lia. Qed.

Lemma fold_left_inv_In {S A} (P : S -> Prop) (f : S -> A -> S) l :
  (forall s x, In x l -> P s -> P (f s x)) -> forall s, P s -> P (fold_left f l s).
Proof.
  induction l as [|x l IH]; intros H s Hs; [exact Hs|].
  apply IH; [intros t y Hy; apply H; now right | apply H; [now left | exact Hs]].
Qed.

Lemma fold_left_inv {S A} (f : S -> A -> S) (P : S -> Prop) :
  (forall s x, P s -> P (f s x)) -> forall l s, P s -> P (fold_left f l s).
Proof. intros H l. apply fold_left_inv_In. intros s x _. apply H. Qed.

Lemma existsb_incl {A} (f : A -> bool) l l' :
  (forall x, In x l -> In x l') -> existsb f l = true -> existsb f l' = true.
Proof. rewrite !existsb_exists. intros M [x [H1 H2]]. eauto. Qed.

Lemma existsb_eqb {A} (eqb : A -> A -> bool) (e : A) l :
  (forall x y, eqb x y = true <-> x = y) -> existsb (eqb e) l = true <-> In e l.
Proof.
  intro Q. rewrite existsb_exists. split.
  - intros [x [H1 H2]]. apply Q in H2. now subst.
  - intro H. exists e. split; [exact H | now apply Q].
Qed.

Lemma existsb_eqb_false {A} (eqb : A -> A -> bool) (e : A) l :
  (forall x y, eqb x y = true <-> x = y) -> existsb (eqb e) l = false <-> ~ In e l.
Proof. intro Q. rewrite <- (existsb_eqb eqb e l Q). destruct (existsb (eqb e) l); split; congruence. Qed.

Lemma NoDup_app_inv {A} (a b : list A) : NoDup (a ++ b) -> NoDup a /\ NoDup b /\ (forall x, In x a -> ~ In x b).
Proof.
  induction a as [|x a IH]; cbn [app]; intro H; [repeat split; [constructor | exact H | intros x []]|].
  inversion H as [|? ? Hn Hd]; subst. destruct (IH Hd) as (Ha & Hb & Hab). rewrite in_app_iff in Hn.
  repeat split; [constructor; tauto | exact Hb|]. intros y [->|Hy]; [tauto | now apply Hab].
Qed.

Lemma NoDup_app_intro {A} (a b : list A) : NoDup a -> NoDup b -> (forall x, In x a -> ~ In x b) -> NoDup (a ++ b).
Proof.
  induction a as [|x a IH]; cbn [app]; intros Ha Hb Hab; [exact Hb|].
  inversion Ha as [|? ? Hn Hd]; subst. constructor.
  - rewrite in_app_iff. intros [Hi|Hi]; [contradiction | exact (Hab x (or_introl eq_refl) Hi)].
  - apply IH; [exact Hd | exact Hb|]. intros y Hy. apply Hab. now right.
Qed.

Lemma NoDup_firstn {A} n (l : list A) : NoDup l -> NoDup (firstn n l).
Proof. intro H. rewrite <- (firstn_skipn n l) in H. now apply NoDup_app_inv in H. Qed.

Lemma NoDup_map_inj {A B} (f : A -> B) l x y : NoDup (map f l) -> In x l -> In y l -> f x = f y -> x = y.
Proof.
  induction l as [|a l IH]; cbn [map In]; intros N Hx Hy E; [contradiction|].
  inversion N as [|? ? Na Nl]; subst. destruct Hx as [->|Hx], Hy as [->|Hy]; [reflexivity | | | now apply IH].
  - exfalso. apply Na. rewrite E. now apply in_map.
  - exfalso. apply Na. rewrite <- E. now apply in_map.
Qed.

Lemma NoDup_map_on {A B} (f : A -> B) (l r : list A) : NoDup (map f l) -> incl r l -> NoDup r -> NoDup (map f r).
Proof.
  intros Nl Hi Nr. induction Nr as [|x r Hx Nr IH]; cbn [map]; [constructor|].
  constructor; [|apply IH; intros z Hz; apply Hi; now right].
  intro Hin. apply in_map_iff in Hin as [y [E Hy]].
  apply (NoDup_map_inj f l) in E; [now subst | exact Nl | apply Hi; now right | apply Hi; now left].
Qed.

Lemma NoDup_map_filter {A B} (g : A -> B) (p : A -> bool) l : NoDup (map g l) -> NoDup (map g (filter p l)).
Proof. intro H. apply (NoDup_map_on g l); [exact H | apply incl_filter | apply NoDup_filter, (NoDup_map_inv g), H]. Qed.

Fixpoint nodupb (l : list N) : bool :=
  match l with [] => true | x :: r => negb (existsb (N.eqb x) r) && nodupb r end.

Lemma nodupb_NoDup l : nodupb l = true -> NoDup l.
Proof.
  induction l as [|x r IH]; cbn [nodupb]; [constructor|]. intro H. apply andb_true_iff in H as [Hx Hr].
  constructor; [|exact (IH Hr)]. apply negb_true_iff in Hx. now apply (existsb_eqb_false N.eqb x r N.eqb_eq).
Qed.
