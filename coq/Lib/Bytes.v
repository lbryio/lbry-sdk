(* Shared byte-string library: bytes = list byte, numeric views, fixed-width
   little/big-endian integers with both round trips. No axioms. *)
From Coq Require Import NArith ZArith List Lia Bool.
From Coq.Strings Require Import Byte.
Import ListNotations.
Local Open Scope N_scope.

(* [lia] with division and modulo by constants. The setting is global: every file that imports this
   one has it. *)
Ltac Zify.zify_post_hook ::= Z.to_euclidean_division_equations.

Definition bytes := list byte.

Definition N_of_byte (b : byte) : N := Byte.to_N b.
Definition byte_of_N (n : N) : byte :=
  match Byte.of_N (n mod 256) with Some b => b | None => x00 end.

Lemma N_of_byte_lt b : N_of_byte b < 256.
Proof. unfold N_of_byte. pose proof (Byte.to_N_bounded b). lia. Qed.

Lemma N_of_byte_of_N n : N_of_byte (byte_of_N n) = n mod 256.
Proof.
  unfold byte_of_N, N_of_byte.
  destruct (Byte.of_N (n mod 256)) as [b|] eqn:E.
  - apply Byte.to_of_N in E. exact E.
  - apply Byte.of_N_None_iff in E. assert (n mod 256 < 256) by (apply N.mod_lt; lia). lia.
Qed.

Lemma byte_of_N_of_byte b : byte_of_N (N_of_byte b) = b.
Proof.
  unfold byte_of_N, N_of_byte.
  rewrite N.mod_small by (pose proof (Byte.to_N_bounded b); lia).
  rewrite Byte.of_to_N. reflexivity.
Qed.

Lemma N_of_byte_inj a b : N_of_byte a = N_of_byte b -> a = b.
Proof. intro H. rewrite <- (byte_of_N_of_byte a), <- (byte_of_N_of_byte b), H. reflexivity. Qed.

Lemma byte_of_N_small n : n < 256 -> N_of_byte (byte_of_N n) = n.
Proof. intro H. rewrite N_of_byte_of_N. apply N.mod_small. exact H. Qed.

Global Opaque byte_of_N N_of_byte.

(* a code between two bounds: the form of the character-class tests (Decimal.is_digit, Hex.hex_val) *)
Lemma range_spec lo hi c : reflect (lo <= c <= hi) ((lo <=? c) && (c <=? hi)).
Proof. apply iff_reflect. destruct (N.leb_spec lo c), (N.leb_spec c hi); split; intro; (reflexivity || discriminate || lia). Qed.

Definition byte_eqb (a b : byte) : bool := Byte.eqb a b.
Lemma byte_eqb_eq a b : byte_eqb a b = true <-> a = b.
Proof. split; [apply Byte.byte_dec_bl | apply Byte.byte_dec_lb]. Qed.
Lemma byte_eqb_spec a b : reflect (a = b) (byte_eqb a b).
Proof. apply iff_reflect. symmetry. apply byte_eqb_eq. Qed.
Lemma byte_eqb_refl a : byte_eqb a a = true.
Proof. apply byte_eqb_eq. reflexivity. Qed.
Lemma byte_eqb_neq a b : byte_eqb a b = false <-> a <> b.
Proof. destruct (byte_eqb_spec a b); split; congruence. Qed.

Fixpoint bytes_eqb (a b : bytes) : bool :=
  match a, b with
  | [], [] => true
  | x :: a', y :: b' => byte_eqb x y && bytes_eqb a' b'
  | _, _ => false
  end.
Lemma bytes_eqb_eq a b : bytes_eqb a b = true <-> a = b.
Proof.
  revert b. induction a as [|x a IH]; intros [|y b]; simpl; split; intro H; try congruence; try reflexivity.
  - apply andb_true_iff in H as [H1 H2]. apply byte_eqb_eq in H1. apply IH in H2. congruence.
  - inversion H; subst. apply andb_true_iff. split; [apply byte_eqb_refl | apply IH; reflexivity].
Qed.
Lemma bytes_eqb_spec a b : reflect (a = b) (bytes_eqb a b).
Proof. apply iff_reflect. symmetry. apply bytes_eqb_eq. Qed.
Lemma bytes_eqb_refl a : bytes_eqb a a = true.
Proof. apply bytes_eqb_eq. reflexivity. Qed.
Lemma bytes_eqb_neq a b : bytes_eqb a b = false <-> a <> b.
Proof. destruct (bytes_eqb_spec a b); split; congruence. Qed.
Lemma bytes_eqb_sym a b : bytes_eqb a b = bytes_eqb b a.
Proof. destruct (bytes_eqb_spec a b), (bytes_eqb_spec b a); congruence. Qed.

Fixpoint le_encode (w : nat) (v : N) : bytes :=
  match w with
  | O => []
  | S w' => byte_of_N v :: le_encode w' (v / 256)
  end.

Fixpoint le_decode (bs : bytes) : N :=
  match bs with
  | [] => 0
  | b :: r => N_of_byte b + 256 * le_decode r
  end.

Lemma le_encode_length w v : length (le_encode w v) = w.
Proof. revert v. induction w as [|w IH]; intro v; simpl; [reflexivity | rewrite IH; reflexivity]. Qed.

Lemma le_decode_encode w v : v < 256 ^ N.of_nat w -> le_decode (le_encode w v) = v.
Proof.
  revert v. induction w as [|w IH]; intros v H.
  - simpl in *. lia.
  - cbn [le_encode le_decode]. rewrite N_of_byte_of_N.
    rewrite IH.
    + pose proof (N.div_mod v 256). lia.
    + rewrite Nat2N.inj_succ, N.pow_succ_r' in H.
      apply N.div_lt_upper_bound; lia.
Qed.

Lemma le_decode_lt bs : le_decode bs < 256 ^ N.of_nat (length bs).
Proof.
  induction bs as [|b r IH]; cbn [le_decode length].
  - simpl. lia.
  - rewrite Nat2N.inj_succ, N.pow_succ_r'. pose proof (N_of_byte_lt b). lia.
Qed.

Lemma le_encode_decode bs : le_encode (length bs) (le_decode bs) = bs.
Proof.
  induction bs as [|b r IH]; cbn [le_decode length le_encode]; [reflexivity|].
  pose proof (N_of_byte_lt b) as Hb. f_equal.
  - apply N_of_byte_inj. rewrite N_of_byte_of_N. lia.
  - replace ((N_of_byte b + 256 * le_decode r) / 256) with (le_decode r) by lia. exact IH.
Qed.

Lemma le_encode_inj w a b : a < 256 ^ N.of_nat w -> b < 256 ^ N.of_nat w ->
  le_encode w a = le_encode w b -> a = b.
Proof. intros Ha Hb H. rewrite <- (le_decode_encode w a Ha), <- (le_decode_encode w b Hb), H. reflexivity. Qed.

Definition be_encode (w : nat) (v : N) : bytes := rev (le_encode w v).
Definition be_decode (bs : bytes) : N := le_decode (rev bs).

Lemma be_encode_length w v : length (be_encode w v) = w.
Proof. unfold be_encode. rewrite rev_length. apply le_encode_length. Qed.
Lemma be_decode_encode w v : v < 256 ^ N.of_nat w -> be_decode (be_encode w v) = v.
Proof. intro H. unfold be_decode, be_encode. rewrite rev_involutive. apply le_decode_encode. exact H. Qed.
Lemma be_encode_decode bs : be_encode (length bs) (be_decode bs) = bs.
Proof.
  unfold be_encode, be_decode. rewrite <- (rev_length bs).
  rewrite le_encode_decode. apply rev_involutive.
Qed.
Lemma be_encode_decode_len w bs : length bs = w -> be_encode w (be_decode bs) = bs.
Proof. intros <-. apply be_encode_decode. Qed.
Lemma be_decode_lt bs : be_decode bs < 256 ^ N.of_nat (length bs).
Proof. unfold be_decode. rewrite <- (rev_length bs). apply le_decode_lt. Qed.
Lemma be_encode_inj w a b : a < 256 ^ N.of_nat w -> b < 256 ^ N.of_nat w -> be_encode w a = be_encode w b -> a = b.
Proof. intros Ha Hb H. rewrite <- (be_decode_encode w a Ha), <- (be_decode_encode w b Hb), H. reflexivity. Qed.

Lemma firstn_app_exact {A} (a b : list A) : firstn (length a) (a ++ b) = a.
Proof. induction a as [|x a IH]; simpl; [destruct b; reflexivity | rewrite IH; reflexivity]. Qed.
Lemma skipn_app_exact {A} (a b : list A) : skipn (length a) (a ++ b) = b.
Proof. induction a as [|x a IH]; simpl; [reflexivity | exact IH]. Qed.
Lemma firstn_app_exact' {A} n (a b : list A) : n = length a -> firstn n (a ++ b) = a.
Proof. intros ->. apply firstn_app_exact. Qed.
Lemma skipn_app_exact' {A} n (a b : list A) : n = length a -> skipn n (a ++ b) = b.
Proof. intros ->. apply skipn_app_exact. Qed.
