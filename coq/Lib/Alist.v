(* Association lists: lookup of the first entry under a key, update in place or append, removal of every entry
   under a key.  The models write these functions once per key and value type.  A model function is an instance of
   the one here by conversion when it is a fixpoint over the same two arguments in the same order with the stored key
   on the left of the test (Model.C12.ds_find, Model.C18.lookup); when the arguments are swapped (Model.C01.lookup,
   Model.C12.assoc_opt), a one-line induction says that the two agree.  The same would be needed where the value type
   is bound inside the fixpoint (Model.C09.aget, whose lemmas in Proofs/C09.v stand on their own). *)
From Coq Require Import List Bool.
Import ListNotations.

Section Alist.
  Context {K V : Type} (eqb : K -> K -> bool).
  Hypothesis eqb_spec : forall a b, reflect (a = b) (eqb a b).
  Implicit Types (l : list (K * V)) (k q : K).

  Fixpoint alook l k : option V :=
    match l with [] => None | (k', v) :: r => if eqb k' k then Some v else alook r k end.

  Fixpoint aupd (f : option V -> V) k l : list (K * V) :=
    match l with
    | [] => [(k, f None)]
    | (k', v) :: r => if eqb k' k then (k', f (Some v)) :: r else (k', v) :: aupd f k r
    end.

  Definition adel l k : list (K * V) := filter (fun kv => negb (eqb (fst kv) k)) l.

  Lemma alook_None l k : alook l k = None <-> ~ In k (map fst l).
  Proof.
    induction l as [|[a v] l IH]; simpl; [tauto|].
    destruct (eqb_spec a k) as [->|N]; [split; [discriminate | tauto] | rewrite IH; tauto].
  Qed.

  Lemma alook_In l k v : NoDup (map fst l) -> (In (k, v) l <-> alook l k = Some v).
  Proof.
    induction l as [|[q t] l IH]; simpl; intro H.
    - split; [intros []|discriminate].
    - inversion H as [|? ? Hn Hd]; subst. destruct (eqb_spec q k) as [->|Ne].
      + split.
        * intros [Hi|Hi]; [inversion Hi; auto|]. exfalso. apply Hn. apply in_map_iff. exists (k, v). auto.
        * intro Hi. inversion Hi; subst. now left.
      + rewrite <- IH by auto. split; [intros [Hi|Hi]; [inversion Hi; congruence|auto]|auto].
  Qed.

  Lemma aupd_keys f k l x : In x (map fst (aupd f k l)) <-> x = k \/ In x (map fst l).
  Proof.
    induction l as [|[k' v] l IH]; simpl; [intuition|].
    destruct (eqb_spec k' k) as [->|Ne]; simpl; [intuition|]. rewrite IH. intuition.
  Qed.

  Lemma aupd_NoDup f k l : NoDup (map fst l) -> NoDup (map fst (aupd f k l)).
  Proof.
    induction l as [|[k' v] l IH]; simpl; intro H.
    - repeat constructor. intros [].
    - inversion H as [|? ? Hn Hd]; subst. destruct (eqb_spec k' k) as [->|Ne]; simpl; constructor; auto.
      rewrite aupd_keys. intros [->|Hi]; auto.
  Qed.

  Lemma aupd_vals f k l k0 v0 : In (k0, v0) (aupd f k l) -> k0 = k /\ v0 = f (alook l k) \/ In (k0, v0) l.
  Proof.
    induction l as [|[k' v] l IH]; simpl.
    - intros [H|[]]. inversion H; auto.
    - destruct (eqb_spec k' k) as [->|Ne]; simpl.
      + intros [H|H]; [inversion H; auto|auto].
      + intros [H|H]; [auto|]. destruct (IH H); auto.
  Qed.

  Lemma alook_aupd f k l q : alook (aupd f k l) q = if eqb q k then Some (f (alook l k)) else alook l q.
  Proof.
    induction l as [|[k' v] l IH]; simpl.
    - destruct (eqb_spec k q), (eqb_spec q k); congruence.
    - destruct (eqb_spec k' k) as [E|Ne]; simpl.
      + destruct (eqb_spec k' q), (eqb_spec q k); congruence.
      + destruct (eqb_spec k' q) as [E|Nq]; [|apply IH]. destruct (eqb_spec q k); congruence.
  Qed.

  Lemma alook_filter (keep : K * V -> bool) l k : NoDup (map fst l) ->
    alook (filter keep l) k = match alook l k with Some v => if keep (k, v) then Some v else None | None => None end.
  Proof.
    induction l as [|[q v] l IH]; simpl; intro H; auto.
    inversion H as [|? ? Hn Hd]; subst.
    destruct (eqb_spec q k) as [->|Ne].
    - destruct (keep (k, v)) eqn:Ek; simpl.
      + now destruct (eqb_spec k k).
      + apply alook_None. intro Hi. apply Hn. apply in_map_iff in Hi. destruct Hi as ([a b] & <- & Hi).
        apply filter_In in Hi. apply in_map_iff. exists (a, b). tauto.
    - destruct (keep (q, v)); simpl; [destruct (eqb_spec q k); [congruence|]|]; apply IH; auto.
  Qed.

  Lemma alook_adel l k q : alook (adel l k) q = if eqb q k then None else alook l q.
  Proof.
    unfold adel. induction l as [|[a v] l IH]; simpl; [destruct (eqb q k); reflexivity|].
    destruct (eqb_spec a k) as [->|N]; simpl; rewrite IH.
    - destruct (eqb_spec q k), (eqb_spec k q); congruence.
    - destruct (eqb_spec a q), (eqb_spec q k); congruence.
  Qed.
End Alist.

Lemma alook_map {K V W} (eqb : K -> K -> bool) (f : V -> W) (l : list (K * V)) k :
  alook eqb (map (fun kv => (fst kv, f (snd kv))) l) k = option_map f (alook eqb l k).
Proof. induction l as [|[q v] l IH]; simpl; [|destruct (eqb q k)]; auto. Qed.
