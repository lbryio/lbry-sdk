(* Decimal ASCII rendering of N and Z (Python's '%d' / str(int)) and its inverse. No axioms. *)
From Coq Require Import NArith ZArith List Lia Bool.
From Coq.Strings Require Import Byte.
From LV Require Import Lib.Bytes Lib.Numeral.
Import ListNotations.
Local Open Scope N_scope.

Definition digit_byte (d : N) : byte := byte_of_N (48 + d).
Definition is_digit (b : byte) : bool := (48 <=? N_of_byte b) && (N_of_byte b <=? 57).
Definition digit_val (b : byte) : N := N_of_byte b - 48.

Lemma is_digit_spec b : reflect (48 <= N_of_byte b <= 57) (is_digit b).
Proof. exact (range_spec 48 57 (N_of_byte b)). Qed.
Lemma is_digit_range b : is_digit b = true -> 48 <= N_of_byte b <= 57.
Proof. now destruct (is_digit_spec b). Qed.

Lemma is_digit_digit_byte d : d < 10 -> is_digit (digit_byte d) = true.
Proof. intro H. apply (reflect_iff _ _ (is_digit_spec _)). unfold digit_byte. rewrite byte_of_N_small; lia. Qed.
Lemma digit_val_digit_byte d : d < 10 -> digit_val (digit_byte d) = d.
Proof. intro H. unfold digit_val, digit_byte. rewrite byte_of_N_small by lia. lia. Qed.
Lemma digit_byte_digit_val b : is_digit b = true -> digit_byte (digit_val b) = b.
Proof.
  intro H. apply is_digit_range in H. unfold digit_byte, digit_val.
  replace (48 + (N_of_byte b - 48)) with (N_of_byte b) by lia. apply byte_of_N_of_byte.
Qed.
Lemma digit_val_lt b : is_digit b = true -> digit_val b < 10.
Proof. intro H. apply is_digit_range in H. unfold digit_val. lia. Qed.

(* for the bytes the parsers meet beside digits: the signs, the dot, the bencode markers *)
Lemma not_digit_byte n : n < 48 \/ 57 < n -> n < 256 -> is_digit (byte_of_N n) = false.
Proof.
  intros H L. destruct (is_digit_spec (byte_of_N n)) as [R|]; [|reflexivity].
  rewrite byte_of_N_small in R by exact L. lia.
Qed.

Lemma digit_not_byte b n : is_digit b = true -> n < 48 \/ 57 < n -> n < 256 -> byte_eqb b (byte_of_N n) = false.
Proof. intros H R L. apply byte_eqb_neq. intros ->. rewrite not_digit_byte in H by assumption. discriminate. Qed.

(* most-significant-first digit list *)
Fixpoint digits_fuel (fuel : nat) (n : N) (acc : list N) : list N :=
  match fuel with
  | O => acc
  | S f => if n <? 10 then n :: acc else digits_fuel f (n / 10) (n mod 10 :: acc)
  end.
Definition digits (n : N) : list N := digits_fuel (S (N.to_nat (N.log2 n))) n [].

Definition value (ds : list N) : N := fold_left (fun a d => a * 10 + d) ds 0.

Lemma fold_value_app ds a : fold_left (fun a d => a * 10 + d) ds a =
  a * 10 ^ N.of_nat (length ds) + value ds.
Proof. exact (fold_val 10 ds a). Qed.

Lemma value_app a b : value (a ++ b) = value a * 10 ^ N.of_nat (length b) + value b.
Proof. exact (val_app 10 a b). Qed.

Lemma value_lt_pow ds : Forall (fun d => d < 10) ds -> value ds < 10 ^ N.of_nat (length ds).
Proof. exact (val_lt_pow 10 ds). Qed.

Lemma digits_fuel_S f n acc :
  digits_fuel (S f) n acc = if n <? 10 then n :: acc else digits_fuel f (n / 10) (n mod 10 :: acc).
Proof. reflexivity. Qed.

Lemma digits_fuel_spec fuel : forall n acc, n < 2 ^ N.of_nat (S fuel) ->
  exists pre, digits_fuel (S fuel) n acc = pre ++ acc /\ value pre = n /\ Forall (fun d => d < 10) pre
              /\ pre <> [] /\ (0 < n -> hd 0 pre <> 0) /\ (n = 0 -> pre = [0]).
Proof.
  induction fuel as [|f IH]; intros n acc H; rewrite digits_fuel_S; destruct (N.ltb_spec n 10) as [E|E].
  1, 3: (* one digit; [split] closes the two equations by computation *)
    exists [n]; repeat split; [repeat constructor; exact E | discriminate | cbn; lia | intros ->; reflexivity].
  - cbn in H. lia.
  - (* the quotient has one bit less, so the fuel left is enough; its digits come first, then n mod 10 *)
    assert (Hq : n / 10 < 2 ^ N.of_nat (S f)).
    { rewrite (Nat2N.inj_succ (S f)), N.pow_succ_r' in H. apply N.div_lt_upper_bound; lia. }
    destruct (IH (n / 10) (n mod 10 :: acc) Hq) as (pre & -> & Hv & Hf & Hne & Hhd & _).
    exists (pre ++ [n mod 10]). rewrite <- app_assoc. repeat split.
    + rewrite value_app, Hv. cbn. lia.
    + apply Forall_app. split; [exact Hf | repeat constructor; lia].
    + destruct pre; discriminate.
    + intros _. destruct pre; [congruence|]. apply Hhd. lia.
    + intros ->. lia.
Qed.

Lemma digits_spec n : value (digits n) = n /\ Forall (fun d => d < 10) (digits n) /\ digits n <> []
   /\ (0 < n -> hd 0 (digits n) <> 0) /\ (n = 0 -> digits n = [0]).
Proof.
  assert (H : n < 2 ^ N.of_nat (S (N.to_nat (N.log2 n)))).
  { rewrite Nat2N.inj_succ, N2Nat.id. destruct n as [|p]; [reflexivity|]. apply N.log2_spec. reflexivity. }
  unfold digits. destruct (digits_fuel_spec _ n [] H) as (pre & -> & R). rewrite app_nil_r. exact R.
Qed.

Definition dec_of_N (n : N) : bytes := map digit_byte (digits n).

Fixpoint dec_acc (bs : bytes) (acc : N) : option N :=
  match bs with
  | [] => Some acc
  | b :: r => if is_digit b then dec_acc r (acc * 10 + digit_val b) else None
  end.
Definition N_of_dec (bs : bytes) : option N :=
  match bs with [] => None | _ => dec_acc bs 0 end.

Lemma dec_acc_map ds acc : Forall (fun d => d < 10) ds ->
  dec_acc (map digit_byte ds) acc = Some (fold_left (fun a d => a * 10 + d) ds acc).
Proof.
  revert acc. induction ds as [|d r IH]; intros acc H; [reflexivity|].
  inversion H as [|? ? Hd Hr]; subst. cbn [map dec_acc fold_left].
  rewrite is_digit_digit_byte, digit_val_digit_byte by exact Hd. apply IH. exact Hr.
Qed.

Lemma N_of_dec_map ds : ds <> [] -> N_of_dec (map digit_byte ds) = dec_acc (map digit_byte ds) 0.
Proof. destruct ds; [congruence | reflexivity]. Qed.

Theorem N_of_dec_of_N n : N_of_dec (dec_of_N n) = Some n.
Proof.
  destruct (digits_spec n) as (Hv & Hf & Hne & _).
  unfold dec_of_N. rewrite N_of_dec_map by exact Hne. rewrite dec_acc_map by exact Hf.
  f_equal. exact Hv.
Qed.

Lemma dec_of_N_Forall n : Forall (fun b => is_digit b = true) (dec_of_N n).
Proof.
  destruct (digits_spec n) as (_ & Hf & _). apply Forall_map. eapply Forall_impl; [|exact Hf]. exact is_digit_digit_byte.
Qed.
Lemma dec_of_N_all_digits n : forallb is_digit (dec_of_N n) = true.
Proof. apply forallb_forall, Forall_forall, dec_of_N_Forall. Qed.

Lemma dec_of_N_nonempty n : dec_of_N n <> [].
Proof. destruct (digits_spec n) as (_ & _ & Hne & _). unfold dec_of_N. destruct (digits n); [congruence | discriminate]. Qed.

Lemma dec_of_N_0 : dec_of_N 0 = [digit_byte 0].
Proof. reflexivity. Qed.

Lemma dec_of_N_no_leading_zero n : 0 < n -> hd x00 (dec_of_N n) <> digit_byte 0.
Proof.
  intro Hn. destruct (digits_spec n) as (_ & Hf & Hne & Hhd & _). specialize (Hhd Hn).
  unfold dec_of_N. destruct (digits n) as [|d r]; [congruence|]. simpl in *.
  inversion Hf as [|? ? Hd _]; subst. intro E.
  apply (f_equal digit_val) in E. rewrite !digit_val_digit_byte in E by lia. contradiction.
Qed.

Lemma dec_of_N_head n : exists b r, dec_of_N n = b :: r /\ is_digit b = true /\ forallb is_digit r = true.
Proof.
  pose proof (dec_of_N_all_digits n) as H. pose proof (dec_of_N_nonempty n) as Hne.
  destruct (dec_of_N n) as [|b r]; [congruence|]. apply andb_true_iff in H. exists b, r. tauto.
Qed.

Lemma dec_of_N_length n k : n < 10 ^ N.of_nat k -> (1 <= k)%nat -> (1 <= length (dec_of_N n) <= k)%nat.
Proof.
  intros H Hk. destruct (digits_spec n) as (Hv & Hf & Hne & Hhd & Hz).
  unfold dec_of_N. rewrite map_length.
  destruct (N.eq_dec n 0) as [->|Hn0].
  - rewrite Hz by reflexivity. simpl. lia.
  - rewrite <- Hv in H. destruct (digits n) as [|d r]; [congruence|].
    split; [simpl; lia | apply (val_length 10 d r k); [discriminate | apply Hhd; lia | exact H]].
Qed.

Lemma digit_vals_lt_pow bs : forallb is_digit bs = true -> value (map digit_val bs) < 10 ^ N.of_nat (length bs).
Proof.
  intro H. rewrite <- (map_length digit_val bs). apply value_lt_pow, Forall_map, Forall_forall.
  intros b Hb. apply digit_val_lt. exact (proj1 (forallb_forall _ _) H b Hb).
Qed.

Definition minus_byte : byte := byte_of_N 45.
Definition dec_of_Z (z : Z) : bytes :=
  match z with
  | Z0 => dec_of_N 0
  | Zpos p => dec_of_N (Npos p)
  | Zneg p => minus_byte :: dec_of_N (Npos p)
  end.
(* strict inverse: optional '-', then digits (Python's int() is laxer, see Model/C17.v) *)
Definition Z_of_dec (bs : bytes) : option Z :=
  match bs with
  | b :: r => if byte_eqb b minus_byte
              then match N_of_dec r with Some n => Some (- Z.of_N n)%Z | None => None end
              else match N_of_dec bs with Some n => Some (Z.of_N n) | None => None end
  | [] => None
  end.

Lemma minus_not_digit : is_digit minus_byte = false.
Proof. apply not_digit_byte; [left|]; reflexivity. Qed.

Lemma digit_not_minus b : is_digit b = true -> byte_eqb b minus_byte = false.
Proof. intro H. apply (digit_not_byte b 45 H); [left|]; reflexivity. Qed.

Theorem Z_of_dec_of_Z z : Z_of_dec (dec_of_Z z) = Some z.
Proof.
  assert (Hpos : forall n, Z_of_dec (dec_of_N n) = Some (Z.of_N n)).
  { intro n. pose proof (N_of_dec_of_N n) as Hr. destruct (dec_of_N_head n) as (b & r & E & Hb & _).
    rewrite E in *. unfold Z_of_dec. rewrite digit_not_minus, Hr by exact Hb. reflexivity. }
  destruct z as [|p|p]; cbn [dec_of_Z].
  - apply (Hpos 0).
  - apply (Hpos (Npos p)).
  - unfold Z_of_dec. rewrite byte_eqb_refl. rewrite N_of_dec_of_N. reflexivity.
Qed.

Lemma dec_of_Z_inj a b : dec_of_Z a = dec_of_Z b -> a = b.
Proof. intro E. pose proof (Z_of_dec_of_Z a) as Ha. rewrite E, Z_of_dec_of_Z in Ha. congruence. Qed.
