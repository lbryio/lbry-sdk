(* Positional numerals in base b, most significant digit first. No digit function is defined here: each model has its
   own loop (fuel, width, accumulator) and states of it that its result has the value put in and no leading zero; the
   length of such a numeral (b^(k-1) <= val < b^k for k digits) and that its value determines it follow from the facts
   below. *)
From Coq Require Import Arith NArith List Lia.
Import ListNotations.
Local Open Scope N_scope.

Definition val (b : N) (ds : list N) : N := fold_left (fun a d => a * b + d) ds 0.

Section Val.
  Variable b : N.

  Lemma fold_val ds a : fold_left (fun a d => a * b + d) ds a = a * b ^ N.of_nat (length ds) + val b ds.
  Proof.
    unfold val. revert a. induction ds as [|d r IH]; intro a; cbn [fold_left length]; [cbn; lia|].
    rewrite IH, (IH (0 * b + d)), Nat2N.inj_succ, N.pow_succ_r'. lia.
  Qed.

  Lemma val_app x y : val b (x ++ y) = val b x * b ^ N.of_nat (length y) + val b y.
  Proof. unfold val at 1. rewrite fold_left_app. apply fold_val. Qed.

  Lemma val_cons d r : val b (d :: r) = d * b ^ N.of_nat (length r) + val b r.
  Proof. exact (val_app [d] r). Qed.

  Lemma val_zeros_app k ds : val b (repeat 0 k ++ ds) = val b ds.
  Proof. induction k as [|k IH]; [reflexivity | exact IH]. Qed.

  Lemma val_lt_pow ds : Forall (fun d => d < b) ds -> val b ds < b ^ N.of_nat (length ds).
  Proof.
    induction 1 as [|d r Hd _ IH]; [reflexivity|]. rewrite val_cons. cbn [length]. rewrite Nat2N.inj_succ, N.pow_succ_r'.
    set (p := b ^ N.of_nat (length r)) in *. clearbody p. nia.
  Qed.

  Lemma val_lower d r : d <> 0 -> b ^ N.of_nat (length r) <= val b (d :: r).
  Proof. intro Hd. rewrite val_cons. nia. Qed.

  (* so a number below b^k has at most k digits: one more would make it at least b^k *)
  Lemma val_length d r k : b <> 0 -> d <> 0 -> val b (d :: r) < b ^ N.of_nat k -> (length (d :: r) <= k)%nat.
  Proof.
    intros Hb Hd H. pose proof (val_lower d r Hd) as L. cbn [length].
    destruct (Nat.le_gt_cases (S (length r)) k) as [|G]; [assumption | exfalso].
    assert (b ^ N.of_nat k <= b ^ N.of_nat (length r)) by (apply N.pow_le_mono_r; lia). lia.
  Qed.

  Lemma val_inj_length x : forall y, length x = length y -> Forall (fun d => d < b) x -> Forall (fun d => d < b) y ->
    val b x = val b y -> x = y.
  Proof.
    induction x as [|d r IH]; intros [|e s] L Hx Hy E; try discriminate L; [reflexivity|]. injection L as L.
    inversion_clear Hx as [|? ? Hd Hr]. inversion_clear Hy as [|? ? He Hs].
    pose proof (val_lt_pow r Hr). pose proof (val_lt_pow s Hs) as Q. rewrite !val_cons, <- L in *.
    set (p := b ^ N.of_nat (length r)) in *. clearbody p.
    assert (d = e) by nia. subst e. f_equal. apply IH; auto. lia.
  Qed.

  (* the bounds give the length, the length the digits *)
  Theorem val_inj x y : b <> 0 -> Forall (fun d => d < b) x -> hd 1 x <> 0 -> Forall (fun d => d < b) y -> hd 1 y <> 0 ->
    val b x = val b y -> x = y.
  Proof.
    intros Hb Fx Hx Fy Hy E. apply val_inj_length; try assumption. apply Nat.le_antisymm.
    - destruct x as [|d r]; [apply Nat.le_0_l|]. apply val_length; try assumption. rewrite E. apply val_lt_pow, Fy.
    - destruct y as [|d r]; [apply Nat.le_0_l|]. apply val_length; try assumption. rewrite <- E. apply val_lt_pow, Fx.
  Qed.
End Val.
