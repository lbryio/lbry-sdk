(* Script tokens, push-data encoding (lbry/wallet/script.py push_data) and the
   tokenizer (token_producer / read_data over BCDataStream), including its behaviour on
   truncated input:
     * a push whose declared length runs past the end of the script is an error (read_data compares
       len(data) with the declared size; BytesIO.read alone would silently return fewer bytes),
     * a missing length field after OP_PUSHDATA1/2/4 (_read_struct returns None) is the same error,
     * _read_struct raises struct.error when 1..size-1 bytes of a length field are left.
   What holds of the tokenizer (the fuel does not matter and never runs out, every data token is a complete
   push) follows by induction from one lemma about a single step, [tok_fuel_step]. *)
From Coq Require Import NArith ZArith List Bool Lia.
From Coq.Strings Require Import Byte.
From LV Require Import Lib.Bytes.
Import ListNotations.
Local Open Scope N_scope.

(* opcodes: the values of the Python module constants *)
Definition OP_0 : N := 0.
Definition OP_PUSHDATA1 : N := 76.
Definition OP_PUSHDATA2 : N := 77.
Definition OP_PUSHDATA4 : N := 78.
Definition OP_1 : N := 81.
Definition OP_16 : N := 96.
Definition OP_RETURN : N := 106.
Definition OP_2DROP : N := 109.
Definition OP_DROP : N := 117.
Definition OP_DUP : N := 118.
Definition OP_EQUAL : N := 135.
Definition OP_EQUALVERIFY : N := 136.
Definition OP_HASH160 : N := 169.
Definition OP_CHECKSIG : N := 172.
Definition OP_CHECKMULTISIG : N := 174.
Definition OP_CHECKLOCKTIMEVERIFY : N := 177.
Definition OP_CLAIM_NAME : N := 181.
Definition OP_SUPPORT_CLAIM : N := 182.
Definition OP_UPDATE_CLAIM : N := 183.

(* Token / DataToken / SmallIntegerToken *)
Inductive token :=
| TData (d : bytes)
| TSmall (n : N)
| TOp (v : N).

(* push_data *)
Definition push_header (size : N) : bytes :=
  if size <? OP_PUSHDATA1 then [byte_of_N size]
  else if size <=? 255 then [byte_of_N OP_PUSHDATA1; byte_of_N size]
  else if size <=? 65535 then byte_of_N OP_PUSHDATA2 :: le_encode 2 size
  else byte_of_N OP_PUSHDATA4 :: le_encode 4 size.

Definition push (d : bytes) : bytes := push_header (N.of_nat (length d)) ++ d.

(* BytesIO.read(n): the first n bytes (fewer when the stream is shorter) and the remainder *)
Fixpoint take (s : bytes) (n : N) : bytes * bytes :=
  match s with
  | [] => ([], [])
  | b :: r => if n =? 0 then ([], s)
              else let (a, c) := take r (N.pred n) in (b :: a, c)
  end.

Inductive rd := RdNone | RdErr | RdVal (v : N) (rest : bytes).

(* read_uint8/16/32 = _read_struct: None on an exhausted stream, struct.error on a short one *)
Definition read_uint (w : nat) (s : bytes) : rd :=
  match s with
  | [] => RdNone
  | _ => let h := firstn w s in
         if (length h <? w)%nat then RdErr else RdVal (le_decode h) (skipn w s)
  end.

(* stream.read(size) followed by the check len(data) == size *)
Definition take_exact (s : bytes) (n : N) : option (bytes * bytes) :=
  let (a, c) := take s n in if N.of_nat (length a) =? n then Some (a, c) else None.

(* read_data; None = struct.error (partial or missing length field, or data running past the end) *)
Definition read_data (t : N) (s : bytes) : option (bytes * bytes) :=
  if t <? OP_PUSHDATA1 then take_exact s t
  else
    let w := if t =? OP_PUSHDATA1 then 1%nat else if t =? OP_PUSHDATA2 then 2%nat else 4%nat in
    match read_uint w s with
    | RdNone => None
    | RdErr => None
    | RdVal n rest => take_exact rest n
    end.

Inductive tok_error := StructError | TokFuel.
Inductive tok_result := TokOk (l : list token) | TokErr (e : tok_error).

Definition tcons (t : token) (r : tok_result) : tok_result :=
  match r with TokOk l => TokOk (t :: l) | TokErr e => TokErr e end.

Definition is_push_data_token (t : N) : bool := (1 <=? t) && (t <=? OP_PUSHDATA4).
Definition is_small_integer (t : N) : bool := (OP_1 <=? t) && (t <=? OP_16).

(* token_producer; every step consumes at least one byte, so fuel = length suffices *)
Fixpoint tok_fuel (fuel : nat) (s : bytes) : tok_result :=
  match s with
  | [] => TokOk []
  | b :: r =>
    match fuel with
    | O => TokErr TokFuel
    | S f =>
      let t := N_of_byte b in
      if is_push_data_token t then
        match read_data t r with
        | None => TokErr StructError
        | Some (d, r') => tcons (TData d) (tok_fuel f r')
        end
      else if is_small_integer t then tcons (TSmall (t - OP_1 + 1)) (tok_fuel f r)
      else tcons (TOp t) (tok_fuel f r)
    end
  end.

Definition tokenize (s : bytes) : tok_result := tok_fuel (length s) s.

(* the token a pushed datum reads back as: push_data(b'') is the single byte OP_0 *)
Definition dtok (d : bytes) : token := match d with [] => TOp OP_0 | _ => TData d end.

(* The four length-prefix forms read_data accepts for a datum of [n] bytes *)
Inductive push_form : bytes -> N -> Prop :=
| pf_direct n : n < OP_PUSHDATA1 -> push_form [byte_of_N n] n
| pf_1 n : n < 256 -> push_form [byte_of_N OP_PUSHDATA1; byte_of_N n] n
| pf_2 n : n < 65536 -> push_form (byte_of_N OP_PUSHDATA2 :: le_encode 2 n) n
| pf_4 n : n < 4294967296 -> push_form (byte_of_N OP_PUSHDATA4 :: le_encode 4 n) n.

Arguments push_header : simpl never.
Arguments read_data : simpl never.

Lemma take_spec s : forall n, take s n = (firstn (N.to_nat n) s, skipn (N.to_nat n) s).
Proof.
  induction s as [|b r IH]; intro n; [destruct (N.to_nat n); reflexivity|].
  cbn [take]. destruct (N.eqb_spec n 0) as [->|E]; [reflexivity|].
  rewrite IH. replace (N.to_nat n) with (S (N.to_nat (N.pred n))) by lia. reflexivity.
Qed.

Lemma take_length_rest s : forall n, (length (snd (take s n)) <= length s)%nat.
Proof. intro n. rewrite take_spec. cbn [snd]. rewrite skipn_length. lia. Qed.

Lemma take_app_exact d : forall r, take (d ++ r) (N.of_nat (length d)) = (d, r).
Proof. intro r. rewrite take_spec, Nat2N.id, firstn_app_exact, skipn_app_exact. reflexivity. Qed.

Lemma take_exact_app d r : take_exact (d ++ r) (N.of_nat (length d)) = Some (d, r).
Proof. unfold take_exact. rewrite take_app_exact, N.eqb_refl. reflexivity. Qed.

Lemma take_exact_split s n a c : take_exact s n = Some (a, c) -> s = a ++ c /\ N.of_nat (length a) = n.
Proof.
  unfold take_exact. rewrite take_spec.
  destruct (N.eqb_spec (N.of_nat (length (firstn (N.to_nat n) s))) n) as [E|]; [|discriminate].
  intros [= <- <-]. split; [symmetry; apply firstn_skipn | exact E].
Qed.

Lemma take_exact_rest s n a c : take_exact s n = Some (a, c) -> (length c <= length s)%nat.
Proof. intro H. apply take_exact_split in H as [-> _]. rewrite app_length. lia. Qed.

Lemma read_uint_split w s v rest : read_uint w s = RdVal v rest ->
  exists h, s = h ++ rest /\ length h = w /\ v = le_decode h.
Proof.
  unfold read_uint. destruct s as [|b r]; [discriminate|].
  destruct (Nat.ltb_spec (length (firstn w (b :: r))) w) as [|E]; [discriminate|].
  intros [= <- <-]. exists (firstn w (b :: r)).
  split; [symmetry; apply firstn_skipn|]. split; [|reflexivity].
  pose proof (firstn_le_length w (b :: r)). lia.
Qed.

Lemma read_uint_rest w s v rest : read_uint w s = RdVal v rest -> (length rest <= length s)%nat.
Proof. intro H. apply read_uint_split in H as (h & -> & _). rewrite app_length. lia. Qed.

Lemma read_data_rest t s d r' : read_data t s = Some (d, r') -> (length r' <= length s)%nat.
Proof.
  unfold read_data. destruct (t <? OP_PUSHDATA1).
  - apply take_exact_rest.
  - destruct (read_uint _ s) as [| |n rest] eqn:E; try discriminate.
    intro H. apply take_exact_rest in H. apply read_uint_rest in E. lia.
Qed.

Lemma firstn_le_encode_app w v r : firstn w (le_encode w v ++ r) = le_encode w v.
Proof. apply firstn_app_exact'. symmetry. apply le_encode_length. Qed.
Lemma skipn_le_encode_app w v r : skipn w (le_encode w v ++ r) = r.
Proof. apply skipn_app_exact'. symmetry. apply le_encode_length. Qed.

Lemma read_uint_encode w v r : (0 < w)%nat -> v < 256 ^ N.of_nat w ->
  read_uint w (le_encode w v ++ r) = RdVal v r.
Proof.
  intros Hw Hv. unfold read_uint.
  destruct (le_encode w v ++ r) as [|x y] eqn:E.
  - apply (f_equal (@length byte)) in E. rewrite app_length, le_encode_length in E. simpl in E. lia.
  - rewrite <- E. rewrite firstn_le_encode_app, skipn_le_encode_app, le_encode_length.
    rewrite Nat.ltb_irrefl. rewrite le_decode_encode by exact Hv. reflexivity.
Qed.

Definition read_sized (w : nat) (s : bytes) : option (bytes * bytes) :=
  match read_uint w s with
  | RdNone => None
  | RdErr => None
  | RdVal n rest => take_exact rest n
  end.

Lemma read_data_direct t s : t < 76 -> read_data t s = take_exact s t.
Proof. intro H. unfold read_data, OP_PUSHDATA1. apply N.ltb_lt in H. rewrite H. reflexivity. Qed.
Lemma read_data_pd1 s : read_data 76 s = read_sized 1 s.
Proof. reflexivity. Qed.
Lemma read_data_pd2 s : read_data 77 s = read_sized 2 s.
Proof. reflexivity. Qed.
Lemma read_data_pd4 s : read_data 78 s = read_sized 4 s.
Proof. reflexivity. Qed.
Lemma read_sized_encode w n d r : (0 < w)%nat -> n < 256 ^ N.of_nat w -> n = N.of_nat (length d) ->
  read_sized w (le_encode w n ++ d ++ r) = Some (d, r).
Proof.
  intros Hw Hn E. unfold read_sized. rewrite read_uint_encode by assumption.
  rewrite E, take_exact_app. reflexivity.
Qed.

Lemma push_header_form n : n < 4294967296 -> push_form (push_header n) n.
Proof.
  intro H. unfold push_header.
  destruct (N.ltb_spec n OP_PUSHDATA1); [constructor; assumption|].
  destruct (N.leb_spec n 255); [constructor; lia|].
  destruct (N.leb_spec n 65535); constructor; lia.
Qed.

Lemma push_header_length n :
  length (push_header n) =
    if n <? 76 then 1%nat else if n <=? 255 then 2%nat else if n <=? 65535 then 3%nat else 5%nat.
Proof.
  unfold push_header, OP_PUSHDATA1.
  destruct (n <? 76); [reflexivity|]. destruct (n <=? 255); [reflexivity|].
  destruct (n <=? 65535); reflexivity.
Qed.

Lemma push_length d : (length (push d) <= 5 + length d)%nat.
Proof.
  unfold push. rewrite app_length, push_header_length.
  destruct (_ <? _); [|destruct (_ <=? _); [|destruct (_ <=? _)]]; lia.
Qed.

Theorem push_header_minimal h n : push_form h n -> (length (push_header n) <= length h)%nat.
Proof.
  intro F. rewrite push_header_length.
  destruct F as [n H|n H|n H|n H]; unfold OP_PUSHDATA1 in *; cbn [length le_encode];
    destruct (N.ltb_spec n 76); try lia;
    destruct (N.leb_spec n 255); try lia;
    destruct (N.leb_spec n 65535); lia.
Qed.

Lemma push_form_read h n d r : push_form h n -> n = N.of_nat (length d) -> 0 < n ->
  match h with
  | [] => False
  | b :: h' => is_push_data_token (N_of_byte b) = true /\
               read_data (N_of_byte b) (h' ++ d ++ r) = Some (d, r)
  end.
Proof.
  intros F Hn Hpos.
  destruct F as [n H|n H|n H|n H]; unfold OP_PUSHDATA1, OP_PUSHDATA2, OP_PUSHDATA4 in *;
    rewrite byte_of_N_small by lia; (split; [try reflexivity|]).
  - unfold is_push_data_token, OP_PUSHDATA4. apply andb_true_iff. split; apply N.leb_le; lia.
  - rewrite read_data_direct by exact H. cbn [app]. rewrite Hn, take_exact_app. reflexivity.
  - rewrite read_data_pd1. apply (read_sized_encode 1); [lia | simpl; lia | exact Hn].
  - rewrite read_data_pd2. apply read_sized_encode; [lia | simpl; lia | exact Hn].
  - rewrite read_data_pd4. apply read_sized_encode; [lia | simpl; lia | exact Hn].
Qed.

Lemma read_data_push_header n d r : n = N.of_nat (length d) -> 0 < n -> n < 4294967296 ->
  match push_header n with
  | [] => False
  | b :: h => is_push_data_token (N_of_byte b) = true /\
              read_data (N_of_byte b) (h ++ d ++ r) = Some (d, r)
  end.
Proof. intros Hn Hpos Hlt. apply (push_form_read _ n); [apply push_header_form, Hlt | exact Hn | exact Hpos]. Qed.

Lemma read_sized_split w s d r : read_sized w s = Some (d, r) ->
  exists h, length h = w /\ le_decode h = N.of_nat (length d) /\ s = h ++ d ++ r.
Proof.
  unfold read_sized. destruct (read_uint w s) as [| |n rest] eqn:E; try discriminate. intro H.
  apply read_uint_split in E as (h & -> & Lh & ->). apply take_exact_split in H as [-> L].
  exists h. auto.
Qed.

Lemma push_form_sized t h :
  t = 76 /\ length h = 1%nat \/ t = 77 /\ length h = 2%nat \/ t = 78 /\ length h = 4%nat ->
  push_form (byte_of_N t :: h) (le_decode h).
Proof.
  intro C. rewrite <- (le_encode_decode h) at 1. pose proof (le_decode_lt h) as B.
  destruct C as [[-> L]|[[-> L]|[-> L]]]; rewrite L in *; constructor; exact B.
Qed.

(* a data token stands for a complete push: nothing is read past the end of the script *)
Theorem read_data_full_push t s d r : is_push_data_token t = true -> read_data t s = Some (d, r) ->
  exists h, push_form (byte_of_N t :: h) (N.of_nat (length d)) /\ s = h ++ d ++ r.
Proof.
  unfold is_push_data_token, OP_PUSHDATA4. intros Ht H. apply andb_true_iff in Ht as [H1 H2].
  apply N.leb_le in H1. apply N.leb_le in H2.
  destruct (N.ltb_spec t 76) as [Hlt|Hge].
  - rewrite read_data_direct in H by exact Hlt. apply take_exact_split in H as [-> <-].
    exists []. split; [constructor; exact Hlt | reflexivity].
  - assert (C : t = 76 \/ t = 77 \/ t = 78) by lia.
    destruct C as [-> | [-> | ->]]; [rewrite read_data_pd1 in H | rewrite read_data_pd2 in H | rewrite read_data_pd4 in H];
      apply read_sized_split in H as (h & L & <- & ->); exists h; (split; [apply push_form_sized; auto | reflexivity]).
Qed.

(* the bytes of all tokens add up to the script -- no datum is cut short *)
Fixpoint tok_weight_ok (toks : list token) (s : bytes) : Prop :=
  match toks with
  | [] => s = []
  | TData d :: r => exists h rest, push_form h (N.of_nat (length d)) /\ s = h ++ d ++ rest /\ tok_weight_ok r rest
  | _ :: r => exists b rest, s = b :: rest /\ tok_weight_ok r rest
  end.

Lemma tok_fuel_step b r :
  (forall f, tok_fuel (S f) (b :: r) = TokErr StructError) \/
  exists t r', (forall f, tok_fuel (S f) (b :: r) = tcons t (tok_fuel f r')) /\ (length r' <= length r)%nat /\
               forall toks, tok_weight_ok toks r' -> tok_weight_ok (t :: toks) (b :: r).
Proof.
  cbn [tok_fuel]. destruct (is_push_data_token (N_of_byte b)) eqn:P.
  - destruct (read_data (N_of_byte b) r) as [[d r']|] eqn:E; [right | left; reflexivity].
    exists (TData d), r'. split; [reflexivity|]. split; [exact (read_data_rest _ _ _ _ E)|].
    intros toks W. destruct (read_data_full_push _ _ _ _ P E) as (h & F & ->).
    rewrite byte_of_N_of_byte in F. exists (b :: h), r'. auto.
  - right. destruct (is_small_integer (N_of_byte b)); do 2 eexists; (split; [intro; reflexivity|]);
      (split; [apply le_n|]); intros toks W; exists b, r; auto.
Qed.

Lemma tok_fuel_indep : forall f1 f2 s, (length s <= f1)%nat -> (length s <= f2)%nat ->
  tok_fuel f1 s = tok_fuel f2 s.
Proof.
  induction f1 as [|f1 IH]; intros f2 s H1 H2; destruct s as [|b r]; try (destruct f2; reflexivity); simpl in H1; [lia|].
  destruct f2 as [|f2]; simpl in H2; [lia|].
  destruct (tok_fuel_step b r) as [E|(t & r' & E & L & _)]; rewrite !E; [|rewrite (IH f2 r') by lia]; reflexivity.
Qed.

Lemma tok_fuel_tokenize f s : (length s <= f)%nat -> tok_fuel f s = tokenize s.
Proof. intro H. unfold tokenize. apply tok_fuel_indep; [exact H | lia]. Qed.

Lemma tok_fuel_no_fuel : forall f s, (length s <= f)%nat -> tok_fuel f s <> TokErr TokFuel.
Proof.
  induction f as [|f IH]; intros s H; destruct s as [|b r]; try discriminate; simpl in H; [lia|].
  destruct (tok_fuel_step b r) as [E|(t & r' & E & L & _)]; rewrite E; [discriminate|].
  specialize (IH r'). destruct (tok_fuel f r') as [l|e]; simpl; [discriminate | intros [= ->]; apply IH; [lia | reflexivity]].
Qed.

Lemma tokenize_no_fuel s : tokenize s <> TokErr TokFuel.
Proof. apply tok_fuel_no_fuel. lia. Qed.

Lemma tok_fuel_complete : forall f s toks, tok_fuel f s = TokOk toks -> tok_weight_ok toks s.
Proof.
  induction f as [|f IH]; intros s toks H; destruct s as [|b r]; try (injection H as <-; reflexivity); try discriminate H.
  destruct (tok_fuel_step b r) as [E|(t & r' & E & _ & W)]; rewrite E in H; [discriminate H|].
  destruct (tok_fuel f r') as [l|e] eqn:T; [|discriminate H]. injection H as <-. apply W, IH, T.
Qed.

Theorem tokenize_complete s toks : tokenize s = TokOk toks -> tok_weight_ok toks s.
Proof. apply tok_fuel_complete. Qed.

Lemma tokenize_nil : tokenize [] = TokOk [].
Proof. reflexivity. Qed.

Lemma tokenize_cons b r :
  tokenize (b :: r) =
    let t := N_of_byte b in
    if is_push_data_token t then
      match read_data t r with
      | None => TokErr StructError
      | Some (d, r') => tcons (TData d) (tokenize r')
      end
    else if is_small_integer t then tcons (TSmall (t - OP_1 + 1)) (tokenize r)
    else tcons (TOp t) (tokenize r).
Proof.
  unfold tokenize at 1. cbn [length tok_fuel]. cbv zeta.
  destruct (is_push_data_token (N_of_byte b)).
  - destruct (read_data (N_of_byte b) r) as [[d r']|] eqn:E; [|reflexivity].
    apply read_data_rest in E. rewrite tok_fuel_tokenize by exact E. reflexivity.
  - destruct (is_small_integer (N_of_byte b)); rewrite tok_fuel_tokenize by lia; reflexivity.
Qed.

(* a plain opcode byte: 0, 79, 80, or above OP_16 *)
Definition plain_op (o : N) : bool :=
  (o <? 256) && negb (is_push_data_token o) && negb (is_small_integer o).

Lemma tokenize_plain_op o r : plain_op o = true ->
  tokenize (byte_of_N o :: r) = tcons (TOp o) (tokenize r).
Proof.
  unfold plain_op. intro H. apply andb_true_iff in H as [H H3]. apply andb_true_iff in H as [H1 H2].
  apply N.ltb_lt in H1. rewrite tokenize_cons. cbv zeta. rewrite byte_of_N_small by exact H1.
  apply negb_true_iff in H2. apply negb_true_iff in H3. rewrite H2, H3. reflexivity.
Qed.

Lemma push_form_tokenize h d r : push_form h (N.of_nat (length d)) -> d <> [] ->
  tokenize (h ++ d ++ r) = tcons (TData d) (tokenize r).
Proof.
  intros F Hd.
  assert (Hpos : 0 < N.of_nat (length d)) by (destruct d; [congruence | simpl; lia]).
  pose proof (push_form_read h _ d r F eq_refl Hpos) as H.
  destruct h as [|b h']; [contradiction|]. destruct H as [H1 H2].
  cbn [app]. rewrite tokenize_cons. cbv zeta. rewrite H1, H2. reflexivity.
Qed.

Theorem tokenize_push d r : N.of_nat (length d) < 4294967296 ->
  tokenize (push d ++ r) = tcons (dtok d) (tokenize r).
Proof.
  intro Hlt. destruct d as [|x d].
  - apply (tokenize_plain_op 0). reflexivity.
  - unfold push. rewrite <- app_assoc. apply push_form_tokenize; [apply push_header_form, Hlt | discriminate].
Qed.
