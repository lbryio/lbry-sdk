(* Stream primitives of lbry/wallet/bcd_data_stream.py (BCDataStream): short-read aware [take],
   fixed-width little-endian reads that return Python's None on an exhausted stream and struct.error
   on a short one, Bitcoin's compact size, length-prefixed strings. No axioms. *)
From Coq Require Import NArith ZArith List Bool Lia.
From LV Require Import Lib.Bytes.
Import ListNotations.
Local Open Scope N_scope.

(* the error class the Python code raises; EOutOfFuel is the model's own *)
Inductive err := ETypeError | EStructError | EOverflowError | EOutOfFuel.
Inductive res (A : Type) := ROk (a : A) | RErr (e : err).
Arguments ROk {A} a.
Arguments RErr {A} e.

Definition bind {A B : Type} (r : res A) (f : A -> res B) : res B :=
  match r with ROk a => f a | RErr e => RErr e end.

Notation "'do' p <- a ; b" := (bind a (fun p => b))
  (at level 200, p pattern, a at level 100, b at level 200, right associativity).

(* BytesIO.read(n): at most n bytes, fewer when the stream is short *)
Fixpoint take (n : N) (s : bytes) : bytes * bytes :=
  match s with
  | [] => ([], [])
  | b :: r => if n =? 0 then ([], s)
              else let (a, c) := take (N.pred n) r in (b :: a, c)
  end.

(* _read_struct(fmt): b'' is falsy -> returns None; a short buffer makes fmt.unpack raise
   struct.error; otherwise the little-endian value. *)
Definition read_uint (w : nat) (s : bytes) : res (option N * bytes) :=
  match s with
  | [] => ROk (None, [])
  | _ :: _ => let (a, r) := take (N.of_nat w) s in
              if Nat.eqb (length a) w then ROk (Some (le_decode a), r) else RErr EStructError
  end.

(* write_uintN(val): struct.error when val is None or does not fit *)
Definition enc_uint (w : nat) (v : option N) : res bytes :=
  match v with
  | None => RErr EStructError
  | Some n => if n <? 256 ^ N.of_nat w then ROk (le_encode w n) else RErr EStructError
  end.

(* write_compact_size *)
Definition cs_encode (n : N) : bytes :=
  if n <? 253 then [byte_of_N n]
  else if n <=? 65535 then byte_of_N 253 :: le_encode 2 n
  else if n <=? 4294967295 then byte_of_N 254 :: le_encode 4 n
  else byte_of_N 255 :: le_encode 8 n.

(* read_compact_size: `size < 253` on None raises TypeError; the wide reads may themselves
   return None (exhausted stream). Non-minimal encodings are accepted, as in the code. *)
Definition read_cs (s : bytes) : res (option N * bytes) :=
  do (first, r) <- read_uint 1 s;
  match first with
  | None => RErr ETypeError
  | Some size =>
      if size <? 253 then ROk (Some size, r)
      else if size =? 253 then read_uint 2 r
      else if size =? 254 then read_uint 4 r
      else read_uint 8 r
  end.

(* stream.read(n): n = None reads everything; n > sys.maxsize (2^63-1) raises OverflowError *)
Definition MAXSIZE1 : N := 9223372036854775808.
Definition read_bytes (n : option N) (s : bytes) : res (bytes * bytes) :=
  match n with
  | None => ROk (s, [])
  | Some k => if k <? MAXSIZE1 then ROk (take k s) else RErr EOverflowError
  end.

(* read_string / write_string *)
Definition read_string (s : bytes) : res (bytes * bytes) :=
  do (n, r) <- read_cs s; read_bytes n r.
Definition ser_string (s : bytes) : bytes := cs_encode (N.of_nat (length s)) ++ s.

(* Each reader has one [yields] fact; [yields_bind] chains them along a composed reader, which gives
   its totality and what it guarantees about a result from a single pass. The Python error classes
   are left unconstrained. *)
Definition yields {A} (r : res A) (Q : A -> Prop) : Prop :=
  match r with ROk a => Q a | RErr e => e <> EOutOfFuel end.

Lemma yields_bind {A B} (r : res A) (f : A -> res B) (P : A -> Prop) (Q : B -> Prop) :
  yields r P -> (forall a, P a -> yields (f a) Q) -> yields (bind r f) Q.
Proof. destruct r as [a|e]; cbn; [intros H K; apply K, H | trivial]. Qed.

Lemma yields_weaken {A} (r : res A) (P Q : A -> Prop) :
  yields r P -> (forall a, P a -> Q a) -> yields r Q.
Proof. destruct r as [a|e]; cbn; [intros H K; apply K, H | trivial]. Qed.

Lemma yields_ok {A} {r : res A} {Q : A -> Prop} : yields r Q -> forall a, r = ROk a -> Q a.
Proof. intros H a ->. exact H. Qed.

Lemma yields_total {A} {r : res A} {Q : A -> Prop} : yields r Q -> r <> RErr EOutOfFuel.
Proof. intros H ->. exact (H eq_refl). Qed.

Lemma take_0 s : take 0 s = ([], s).
Proof. destruct s; reflexivity. Qed.

Lemma take_split n s : take n s = (firstn (N.to_nat n) s, skipn (N.to_nat n) s).
Proof.
  revert n. induction s as [|b r IH]; intro n; [destruct (N.to_nat n); reflexivity|].
  cbn [take]. destruct (N.eqb_spec n 0) as [->|E]; [reflexivity|].
  rewrite IH. replace (N.to_nat n) with (S (N.to_nat (N.pred n))) by lia. reflexivity.
Qed.

Lemma take_app a r : take (N.of_nat (length a)) (a ++ r) = (a, r).
Proof. rewrite take_split, Nat2N.id, firstn_app_exact, skipn_app_exact. reflexivity. Qed.

Lemma take_app' n a r : n = N.of_nat (length a) -> take n (a ++ r) = (a, r).
Proof. intros ->. apply take_app. Qed.

Lemma take_spec n s a c : take n s = (a, c) ->
  s = a ++ c /\ N.of_nat (length a) <= n /\ (N.of_nat (length a) = n \/ c = []).
Proof.
  rewrite take_split. intros [= <- <-]. split; [symmetry; apply firstn_skipn|].
  rewrite firstn_length. split; [lia|].
  destruct (Nat.le_gt_cases (N.to_nat n) (length s)); [left; lia | right; apply skipn_all2; lia].
Qed.

Lemma take_length_rest n s a c : take n s = (a, c) -> (length c <= length s)%nat.
Proof. intro H. apply take_spec in H as (-> & _). rewrite app_length. lia. Qed.

Lemma read_uint_nonempty w s : s <> [] ->
  read_uint w s = let (a, r) := take (N.of_nat w) s in
                  if Nat.eqb (length a) w then ROk (Some (le_decode a), r) else RErr EStructError.
Proof. destruct s; [congruence | reflexivity]. Qed.

Lemma le_encode_S_nonempty w v rest : le_encode (S w) v ++ rest <> [].
Proof. discriminate. Qed.

Lemma read_uint_encode w v rest : v < 256 ^ N.of_nat (S w) ->
  read_uint (S w) (le_encode (S w) v ++ rest) = ROk (Some v, rest).
Proof.
  intro H. rewrite read_uint_nonempty by apply le_encode_S_nonempty.
  rewrite take_app' by (rewrite le_encode_length; reflexivity).
  rewrite le_encode_length, Nat.eqb_refl, le_decode_encode by exact H. reflexivity.
Qed.

(* one byte read is the one-byte encoding of its value read back *)
Lemma read_uint1_cons b s : read_uint 1 (b :: s) = ROk (Some (N_of_byte b), s).
Proof.
  rewrite <- (byte_of_N_of_byte b) at 1. exact (read_uint_encode 0 _ s (N_of_byte_lt b)).
Qed.

Lemma read_uint_spec w s : yields (read_uint w s) (fun '(v, r) =>
  (length r <= length s)%nat /\ (s = [] -> v = None) /\ forall n, v = Some n -> n < 256 ^ N.of_nat w).
Proof.
  unfold read_uint. destruct s as [|b s]; [cbn; split; [lia | split; [reflexivity | discriminate]]|].
  destruct (take (N.of_nat w) (b :: s)) as [a c] eqn:T.
  destruct (Nat.eqb_spec (length a) w) as [<-|]; [|discriminate].
  cbn. split; [exact (take_length_rest _ _ _ _ T)|]. split; [discriminate|].
  intros n [= <-]. apply le_decode_lt.
Qed.

Lemma read_uint_lt w s v r : read_uint w s = ROk (Some v, r) -> v < 256 ^ N.of_nat w.
Proof. intro H. apply (yields_ok (read_uint_spec w s) _ H). reflexivity. Qed.

Lemma read_uint_rest w s v r : read_uint w s = ROk (v, r) -> (length r <= length s)%nat.
Proof. intro H. apply (yields_ok (read_uint_spec w s) _ H). Qed.

Lemma enc_uint_some w v : v < 256 ^ N.of_nat w -> enc_uint w (Some v) = ROk (le_encode w v).
Proof. intro H. unfold enc_uint. apply N.ltb_lt in H. rewrite H. reflexivity. Qed.

Lemma enc_uint_spec w v : yields (enc_uint w v) (fun b =>
  exists n, v = Some n /\ n < 256 ^ N.of_nat w /\ b = le_encode w n).
Proof.
  unfold enc_uint. destruct v as [n|]; [|discriminate].
  destruct (N.ltb_spec n (256 ^ N.of_nat w)); [|discriminate].
  exists n. split; [reflexivity|]. split; [assumption | reflexivity].
Qed.

Lemma enc_uint_ok w v b : enc_uint w v = ROk b ->
  exists n, v = Some n /\ n < 256 ^ N.of_nat w /\ b = le_encode w n.
Proof. apply (yields_ok (enc_uint_spec w v)). Qed.

Lemma pow256_1 : 256 ^ N.of_nat 1 = 256. Proof. reflexivity. Qed.
Lemma pow256_2 : 256 ^ N.of_nat 2 = 65536. Proof. reflexivity. Qed.
Lemma pow256_4 : 256 ^ N.of_nat 4 = 4294967296. Proof. reflexivity. Qed.
Lemma pow256_8 : 256 ^ N.of_nat 8 = 18446744073709551616. Proof. reflexivity. Qed.

Definition cs_width (n : N) : nat :=
  if n <? 253 then 1 else if n <=? 65535 then 3 else if n <=? 4294967295 then 5 else 9.

(* the four forms, each with its range: every fact about [cs_encode] and [cs_width] is a case
   analysis on this view *)
Inductive cs_form (n : N) : bytes -> nat -> Prop :=
| cs_form1 : n < 253 -> cs_form n [byte_of_N n] 1
| cs_form3 : 253 <= n <= 65535 -> cs_form n (byte_of_N 253 :: le_encode 2 n) 3
| cs_form5 : 65535 < n <= 4294967295 -> cs_form n (byte_of_N 254 :: le_encode 4 n) 5
| cs_form9 : 4294967295 < n -> cs_form n (byte_of_N 255 :: le_encode 8 n) 9.

Lemma cs_form_spec n : cs_form n (cs_encode n) (cs_width n).
Proof.
  unfold cs_encode, cs_width. destruct (N.ltb_spec n 253); [constructor; assumption|].
  destruct (N.leb_spec n 65535); [constructor; lia|].
  destruct (N.leb_spec n 4294967295); constructor; lia.
Qed.

Lemma cs_encode_length n : length (cs_encode n) = cs_width n.
Proof. destruct (cs_form_spec n); cbn [length]; rewrite ?le_encode_length; reflexivity. Qed.

Lemma cs_width_pos n : (1 <= cs_width n)%nat.
Proof. destruct (cs_form_spec n); lia. Qed.

Lemma cs_encode_nonempty n rest : cs_encode n ++ rest <> [].
Proof. destruct (cs_form_spec n); discriminate. Qed.

Lemma read_cs_cons b s : read_cs (b :: s) =
  let size := N_of_byte b in
  if size <? 253 then ROk (Some size, s)
  else if size =? 253 then read_uint 2 s
  else if size =? 254 then read_uint 4 s
  else read_uint 8 s.
Proof. unfold read_cs. rewrite read_uint1_cons. reflexivity. Qed.

Theorem read_cs_encode n rest : n < 18446744073709551616 ->
  read_cs (cs_encode n ++ rest) = ROk (Some n, rest).
Proof.
  intro H. destruct (cs_form_spec n) as [H1|H1|H1|H1];
    cbn [app]; rewrite read_cs_cons, byte_of_N_small by (reflexivity || lia); cbv zeta.
  - apply N.ltb_lt in H1. rewrite H1. reflexivity.
  - (* a wide form: the marker byte sends the reader to the width that was written *)
    apply read_uint_encode. rewrite pow256_2. lia.
  - apply read_uint_encode. rewrite pow256_4. lia.
  - apply read_uint_encode. rewrite pow256_8. lia.
Qed.

Lemma cs_width_minimal n : n < 18446744073709551616 ->
  (cs_width n = 1%nat /\ n < 253) \/
  (cs_width n = 3%nat /\ 253 <= n < 65536) \/
  (cs_width n = 5%nat /\ 65536 <= n < 4294967296) \/
  (cs_width n = 9%nat /\ 4294967296 <= n).
Proof.
  intros _. destruct (cs_form_spec n); [left | right; left | right; right; left | right; right; right];
    split; (reflexivity || lia).
Qed.

(* the value is below 2^64 because a wide form holds at most 8 bytes *)
Lemma read_cs_spec s : yields (read_cs s) (fun '(v, r) =>
  (length r < length s)%nat /\ forall n, v = Some n -> n < 18446744073709551616).
Proof.
  destruct s as [|b s]; [discriminate|]. rewrite read_cs_cons. cbv zeta.
  assert (W : forall w, (w <= 8)%nat -> yields (read_uint w s) (fun '(v, r) =>
    (length r < length (b :: s))%nat /\ forall n, v = Some n -> n < 18446744073709551616)).
  { intros w Hw. eapply yields_weaken; [apply read_uint_spec|]. intros [v r] (L & _ & B).
    split; [cbn [length]; lia|]. intros n E. apply N.lt_le_trans with (1 := B n E).
    apply (N.pow_le_mono_r 256 (N.of_nat w) 8); lia. }
  destruct (N.ltb_spec (N_of_byte b) 253).
  - cbn. split; [lia|]. intros n [= <-]. lia.
  - destruct (_ =? 253); [apply W; lia|]. destruct (_ =? 254); apply W; lia.
Qed.

Lemma read_cs_lt s v r : read_cs s = ROk (Some v, r) -> v < 18446744073709551616.
Proof. intro H. apply (yields_ok (read_cs_spec s) _ H). reflexivity. Qed.

Lemma read_cs_rest s v r : read_cs s = ROk (v, r) -> (length r < length s)%nat.
Proof. intro H. apply (yields_ok (read_cs_spec s) _ H). Qed.

Lemma read_bytes_spec n s : yields (read_bytes n s) (fun '(a, r) =>
  (length a + length r = length s)%nat /\ (N.of_nat (length a) < MAXSIZE1 \/ r = [])).
Proof.
  unfold read_bytes. destruct n as [k|]; [|cbn; split; [lia | right; reflexivity]].
  destruct (N.ltb_spec k MAXSIZE1); [|discriminate].
  destruct (take k s) as [a r] eqn:T. apply take_spec in T as (-> & Hk & _).
  cbn. rewrite app_length. split; [reflexivity | left; lia].
Qed.

Lemma read_bytes_rest n s a r : read_bytes n s = ROk (a, r) -> (length r <= length s)%nat.
Proof. intro H. destruct (yields_ok (read_bytes_spec n s) _ H) as (L & _). lia. Qed.

Lemma read_string_spec s : yields (read_string s) (fun '(a, r) =>
  (length a + length r < length s)%nat /\ (N.of_nat (length a) < MAXSIZE1 \/ r = [])).
Proof.
  unfold read_string. eapply yields_bind; [apply read_cs_spec|]. intros [n r0] (L & _).
  eapply yields_weaken; [apply read_bytes_spec|]. intros [a r] (E & B). split; [lia | exact B].
Qed.

Lemma read_string_rest s a r : read_string s = ROk (a, r) -> (length r < length s)%nat.
Proof. intro H. destruct (yields_ok (read_string_spec s) _ H) as (L & _). lia. Qed.

Theorem read_string_encode s rest : N.of_nat (length s) < MAXSIZE1 ->
  read_string (ser_string s ++ rest) = ROk (s, rest).
Proof.
  intro H. unfold read_string, ser_string. rewrite <- app_assoc.
  rewrite read_cs_encode by (unfold MAXSIZE1 in H; lia). cbn [bind].
  unfold read_bytes. apply N.ltb_lt in H. rewrite H, take_app. reflexivity.
Qed.

Lemma ser_string_nonempty s rest : ser_string s ++ rest <> [].
Proof. unfold ser_string. rewrite <- app_assoc. apply cs_encode_nonempty. Qed.
