(* Bitcoin/LBRY transaction wire format as lbry/wallet/transaction.py reads and
   writes it (Transaction._serialize / _deserialize, Input/Output.serialize_to / deserialize_from).
   Scripts are opaque byte strings here.

   Two views of a transaction.  [tx] has a number in every field and is written by [serialize] (legacy layout:
   the code never writes witnesses); [wf_tx] gives the ranges under which the Python writer does not raise.
   [ptx] is what the reader [deserialize] returns: any fixed-width field may be Python's None (short reads),
   with the segwit flag and the drained witnesses beside the fields; [pser] is the writer on it, with the
   code's error classes.  [lift] embeds the first in the second.  One theorem, [deserialize_framed], reads
   back both layouts the reader accepts; injectivity and prefix-freeness of [serialize] follow from it. *)
From Coq Require Import NArith ZArith List Bool Lia.
From LV Require Import Lib.Bytes Wire.CompactSize.
Import ListNotations.
Local Open Scope N_scope.

Record txin := mk_txin { ti_hash : bytes; ti_index : N; ti_script : bytes; ti_seq : N }.
Record txout := mk_txout { to_amount : N; to_script : bytes }.
Record tx := mk_tx { tx_version : N; tx_ins : list txin; tx_outs : list txout; tx_locktime : N }.

(* Input.serialize_to / Output.serialize_to / Transaction._serialize *)
Definition ser_in (i : txin) : bytes :=
  ti_hash i ++ le_encode 4 (ti_index i) ++ ser_string (ti_script i) ++ le_encode 4 (ti_seq i).
Definition ser_out (o : txout) : bytes :=
  le_encode 8 (to_amount o) ++ ser_string (to_script o).
Definition ser_ins (l : list txin) : bytes := cs_encode (N.of_nat (length l)) ++ concat (map ser_in l).
Definition ser_outs (l : list txout) : bytes := cs_encode (N.of_nat (length l)) ++ concat (map ser_out l).
Definition serialize (t : tx) : bytes :=
  le_encode 4 (tx_version t) ++ ser_ins (tx_ins t) ++ ser_outs (tx_outs t) ++ le_encode 4 (tx_locktime t).

(* ranges under which struct.pack accepts every field; at least one input (a transaction without
   inputs is indistinguishable from the segwit marker, see [no_input_ambiguous] in Proofs/C05.v) *)
Definition wf_in (i : txin) : Prop :=
  length (ti_hash i) = 32%nat /\ ti_index i < 4294967296 /\
  N.of_nat (length (ti_script i)) < MAXSIZE1 /\ ti_seq i < 4294967296.
Definition wf_out (o : txout) : Prop :=
  to_amount o < 18446744073709551616 /\ N.of_nat (length (to_script o)) < MAXSIZE1.
Definition wf_tx (t : tx) : Prop :=
  tx_version t < 4294967296 /\ tx_locktime t < 4294967296 /\
  tx_ins t <> [] /\
  N.of_nat (length (tx_ins t)) < 18446744073709551616 /\
  N.of_nat (length (tx_outs t)) < 18446744073709551616 /\
  Forall wf_in (tx_ins t) /\ Forall wf_out (tx_outs t).

Record pin := mk_pin { pi_hash : bytes; pi_index : option N; pi_script : bytes; pi_seq : option N }.
Record pout := mk_pout { po_amount : option N; po_script : bytes }.
Record ptx := mk_ptx {
  p_version : option N;
  p_flag : option N;            (* Transaction.is_segwit_flag: 0 unless the marker byte was seen *)
  p_ins : list pin;
  p_outs : list pout;
  p_wits : list bytes;          (* Transaction.witnesses: flat list *)
  p_locktime : option N }.

Definition lift_in (i : txin) : pin :=
  mk_pin (ti_hash i) (Some (ti_index i)) (ti_script i) (Some (ti_seq i)).
Definition lift_out (o : txout) : pout := mk_pout (Some (to_amount o)) (to_script o).
Definition lift_with (flag : N) (wits : list bytes) (t : tx) : ptx :=
  mk_ptx (Some (tx_version t)) (Some flag) (map lift_in (tx_ins t)) (map lift_out (tx_outs t))
         wits (Some (tx_locktime t)).
Definition lift (t : tx) : ptx := lift_with 0 [] t.

(* the writer applied to reader output (Transaction._serialize on a parsed transaction):
   struct.error on None or out-of-range fields; never writes marker, flag or witnesses *)
Definition pser_in (i : pin) : res bytes :=
  do a <- enc_uint 4 (pi_index i);
  do b <- enc_uint 4 (pi_seq i);
  ROk (pi_hash i ++ a ++ ser_string (pi_script i) ++ b).
Definition pser_out (o : pout) : res bytes :=
  do a <- enc_uint 8 (po_amount o);
  ROk (a ++ ser_string (po_script o)).
Fixpoint pser_list {A} (f : A -> res bytes) (l : list A) : res bytes :=
  match l with
  | [] => ROk []
  | x :: r => do a <- f x; do b <- pser_list f r; ROk (a ++ b)
  end.
Definition pser (p : ptx) : res bytes :=
  do v <- enc_uint 4 (p_version p);
  do i <- pser_list pser_in (p_ins p);
  do o <- pser_list pser_out (p_outs p);
  do l <- enc_uint 4 (p_locktime p);
  ROk (v ++ (cs_encode (N.of_nat (length (p_ins p))) ++ i)
         ++ (cs_encode (N.of_nat (length (p_outs p))) ++ o) ++ l).

(* Input.deserialize_from: read(32) may be short, the rest as in the stream primitives *)
Definition parse_in (s : bytes) : res (pin * bytes) :=
  let (h, s1) := take 32 s in
  do (idx, s2) <- read_uint 4 s1;
  do (scr, s3) <- read_string s2;
  do (sq, s4) <- read_uint 4 s3;
  ROk (mk_pin h idx scr sq, s4).

Definition parse_out (s : bytes) : res (pout * bytes) :=
  do (amt, s1) <- read_uint 8 s;
  do (scr, s2) <- read_string s1;
  ROk (mk_pout amt scr, s2).

(* [f(stream) for _ in range(count)]: every successful element consumes at least one byte, so
   fuel = S (length of the whole input) always suffices (deserialize_total in Proofs/C05.v) *)
Fixpoint parse_many {A} (f : bytes -> res (A * bytes)) (fuel : nat) (count : N) (s : bytes)
  : res (list A * bytes) :=
  if count =? 0 then ROk ([], s) else
  match fuel with
  | O => RErr EOutOfFuel
  | S fuel' =>
      do (x, r) <- f s;
      do (l, r') <- parse_many f fuel' (N.pred count) r;
      ROk (x :: l, r')
  end.

(* for _ in range(input_count): for _ in range(read_compact_size()): witnesses.append(read(read_compact_size())) *)
Definition parse_witness (fuel0 : nat) (s : bytes) : res (list bytes * bytes) :=
  do (n, r) <- read_cs s;
  match n with
  | None => RErr ETypeError
  | Some k => parse_many read_string fuel0 k r
  end.

Definition truthy (f : option N) : bool :=
  match f with Some n => negb (n =? 0) | None => false end.
Definition is_zero (f : option N) : bool :=
  match f with Some n => n =? 0 | None => false end.

Definition deserialize (raw : bytes) : res ptx :=
  let fuel := S (length raw) in
  do (ver, s1) <- read_uint 4 raw;
  do (ic0, s2) <- read_cs s1;
  do (fl, s3) <- (if is_zero ic0
                  then do (f, a) <- read_uint 1 s2; do (ic1, b) <- read_cs a; ROk ((f, ic1), b)
                  else ROk ((Some 0, ic0), s2));
  match snd fl with
  | None => RErr ETypeError
  | Some n =>
    do (ins, s4) <- parse_many parse_in fuel n s3;
    do (oc, s5) <- read_cs s4;
    match oc with
    | None => RErr ETypeError
    | Some m =>
      do (outs, s6) <- parse_many parse_out fuel m s5;
      do (wits, s7) <- (if truthy (fst fl)
                        then do (ws, r) <- parse_many (parse_witness fuel) fuel n s6; ROk (concat ws, r)
                        else ROk ([], s6));
      do (lt, s8) <- read_uint 4 s7;
      ROk (mk_ptx ver (fst fl) ins outs wits lt)
    end
  end.

Lemma parse_in_ser i rest : wf_in i -> parse_in (ser_in i ++ rest) = ROk (lift_in i, rest).
Proof.
  intros (Hh & Hi & Hs & Hq). unfold parse_in, ser_in. rewrite <- !app_assoc.
  rewrite take_app' by (rewrite Hh; reflexivity).
  rewrite read_uint_encode by exact Hi. cbn [bind].
  rewrite read_string_encode by exact Hs. cbn [bind].
  rewrite read_uint_encode by exact Hq. reflexivity.
Qed.

Lemma parse_out_ser o rest : wf_out o -> parse_out (ser_out o ++ rest) = ROk (lift_out o, rest).
Proof.
  intros (Ha & Hs). unfold parse_out, ser_out. rewrite <- app_assoc.
  rewrite read_uint_encode by exact Ha. cbn [bind].
  rewrite read_string_encode by exact Hs. reflexivity.
Qed.

Lemma parse_many_ser {A B} (ser : A -> bytes) (f : bytes -> res (B * bytes)) (lf : A -> B)
      (P : A -> Prop) :
  (forall x rest, P x -> f (ser x ++ rest) = ROk (lf x, rest)) ->
  forall l fuel rest, (length l <= fuel)%nat -> Forall P l ->
  parse_many f fuel (N.of_nat (length l)) (concat (map ser l) ++ rest) = ROk (map lf l, rest).
Proof.
  intros Hf. induction l as [|x l IH]; intros fuel rest Hfuel Hall.
  - destruct fuel; reflexivity.
  - destruct fuel as [|fuel]; [inversion Hfuel|]. apply le_S_n in Hfuel.
    inversion Hall as [|? ? Hx Hl]; subst.
    cbn [length map concat parse_many].
    destruct (N.eqb_spec (N.of_nat (S (length l))) 0) as [E|_]; [lia|].
    rewrite Nat2N.inj_succ, N.pred_succ, <- app_assoc, Hf by exact Hx. cbn [bind].
    rewrite IH by assumption. reflexivity.
Qed.

Lemma parse_many_length {A} (f : bytes -> res (A * bytes)) fuel : forall n s l r,
  parse_many f fuel n s = ROk (l, r) -> N.of_nat (length l) = n.
Proof.
  induction fuel as [|fuel IH]; intros n s l r; cbn [parse_many]; destruct (N.eqb_spec n 0) as [->|Z].
  - intros [= <- _]. reflexivity.
  - discriminate.
  - intros [= <- _]. reflexivity.
  - destruct (f s) as [[x r0]|e]; cbn [bind]; [|discriminate].
    destruct (parse_many f fuel (N.pred n) r0) as [[l0 r1]|e] eqn:E; cbn [bind]; [|discriminate].
    intros [= <- _]. apply IH in E. cbn [length]. lia.
Qed.

Lemma ser_in_length i : (1 <= length (ser_in i))%nat.
Proof. unfold ser_in. rewrite !app_length, le_encode_length. lia. Qed.
Lemma ser_out_length o : (1 <= length (ser_out o))%nat.
Proof. unfold ser_out. rewrite !app_length, le_encode_length. lia. Qed.
Lemma ser_string_length s : (1 <= length (ser_string s))%nat.
Proof.
  unfold ser_string. rewrite app_length, cs_encode_length.
  pose proof (cs_width_pos (N.of_nat (length s))). lia.
Qed.

Lemma concat_length_ge {A} (ser : A -> bytes) l :
  (forall x, 1 <= length (ser x))%nat -> (length l <= length (concat (map ser l)))%nat.
Proof.
  intro H. induction l as [|x l IH]; cbn [map concat length]; [lia|].
  rewrite app_length. specialize (H x). lia.
Qed.

Lemma in_concat_length {A} (ser : A -> bytes) x l : In x l ->
  (length (ser x) <= length (concat (map ser l)))%nat.
Proof.
  induction l as [|y l IH]; intro H; [destruct H|].
  cbn [map concat]. rewrite app_length. destruct H as [->|H]; [lia | specialize (IH H); lia].
Qed.

Lemma cs_encode_count_nonzero n : n <> 0 -> n < 18446744073709551616 ->
  forall rest, read_cs (cs_encode n ++ rest) = ROk (Some n, rest) /\ is_zero (Some n) = false.
Proof.
  intros Hn Hlt rest. split; [apply read_cs_encode; exact Hlt|].
  cbn. apply N.eqb_neq. exact Hn.
Qed.

(* a count followed by the elements: [ser_ins], [ser_outs] and the witness of one input
   (Model.C05.ser_witness) are this at [ser_in], [ser_out] and [ser_string] *)
Definition ser_vec {A} (ser : A -> bytes) (l : list A) : bytes :=
  cs_encode (N.of_nat (length l)) ++ concat (map ser l).
Definition wf_vec {A} (P : A -> Prop) (l : list A) : Prop :=
  N.of_nat (length l) < 18446744073709551616 /\ Forall P l.

(* more bytes than elements: what makes the reader's fuel suffice *)
Lemma ser_vec_covers {A} (ser : A -> bytes) l :
  (forall x, 1 <= length (ser x))%nat -> (length l < length (ser_vec ser l))%nat.
Proof.
  intro H. unfold ser_vec. rewrite app_length, cs_encode_length.
  pose proof (concat_length_ge ser l H). pose proof (cs_width_pos (N.of_nat (length l))). lia.
Qed.

Lemma parse_witness_ser fuel0 (w : list bytes) rest : wf_vec (fun x => N.of_nat (length x) < MAXSIZE1) w ->
  (length w <= fuel0)%nat -> parse_witness fuel0 (ser_vec ser_string w ++ rest) = ROk (w, rest).
Proof.
  intros (Hn & Hall) Hf. unfold parse_witness, ser_vec. rewrite <- app_assoc.
  rewrite read_cs_encode by exact Hn. cbn [bind].
  rewrite (parse_many_ser _ _ (fun x => x) _ (fun x r => read_string_encode x r)) by assumption.
  rewrite map_id. reflexivity.
Qed.

(* one witness per input; fuel above the length of their encodings covers their number and the
   number of items of each *)
Lemma parse_witnesses_ser fuel (ws : list (list bytes)) rest :
  Forall (wf_vec (fun x => N.of_nat (length x) < MAXSIZE1)) ws ->
  (length (concat (map (ser_vec ser_string) ws)) <= fuel)%nat ->
  parse_many (parse_witness fuel) fuel (N.of_nat (length ws)) (concat (map (ser_vec ser_string) ws) ++ rest)
  = ROk (ws, rest).
Proof.
  intros Hws Hf. rewrite <- (map_id ws) at 3.
  pose proof (fun w => ser_vec_covers ser_string w ser_string_length) as Hc.
  apply (parse_many_ser _ _ _ (fun w => In w ws)); [| |apply Forall_forall; auto].
  - intros w r Hin. apply parse_witness_ser; [exact (proj1 (Forall_forall _ _) Hws w Hin)|].
    pose proof (in_concat_length (ser_vec ser_string) w ws Hin). specialize (Hc w). lia.
  - pose proof (concat_length_ge (ser_vec ser_string) ws
                  (fun w => Nat.le_lt_trans _ _ _ (Nat.le_0_l _) (Hc w))). lia.
Qed.

Lemma truthy_pos flag : 0 < flag -> truthy (Some flag) = true.
Proof. intro H. cbn. apply negb_true_iff, N.eqb_neq. lia. Qed.

(* the two layouts the reader accepts: the legacy one (nothing before the input count, flag 0, no
   witnesses) and BIP 144's (marker byte 0 and a non-zero flag byte before the input count, one
   witness per input before the lock time) *)
Inductive framing (n : nat) : bytes -> N -> list (list bytes) -> Prop :=
| framing_legacy : framing n [] 0 []
| framing_segwit fl ws : 0 < fl < 256 -> length ws = n ->
    Forall (wf_vec (fun x => N.of_nat (length x) < MAXSIZE1)) ws ->
    framing n [byte_of_N 0; byte_of_N fl] fl ws.

(* [serialize t] and Model.C05.serialize_segwit are the two instances, by computation *)
Theorem deserialize_framed t mk fl ws rest : wf_tx t -> framing (length (tx_ins t)) mk fl ws ->
  deserialize ((le_encode 4 (tx_version t) ++ mk ++ ser_ins (tx_ins t) ++ ser_outs (tx_outs t) ++
                concat (map (ser_vec ser_string) ws) ++ le_encode 4 (tx_locktime t)) ++ rest)
  = ROk (lift_with fl (concat ws) t).
Proof.
  intros (Hv & Hl & Hne & Hni & Hno & Hins & Houts) F.
  unfold ser_ins, ser_outs. rewrite <- !app_assoc.
  unfold deserialize. set (fuel := S (length _)).
  (* every element takes at least a byte, so the fuel covers the counts *)
  assert (Hf : (length (tx_ins t) <= fuel /\ length (tx_outs t) <= fuel /\
                length (concat (map (ser_vec ser_string) ws)) <= fuel)%nat).
  { pose proof (concat_length_ge ser_in (tx_ins t) ser_in_length).
    pose proof (concat_length_ge ser_out (tx_outs t) ser_out_length).
    subst fuel. rewrite !app_length. lia. }
  destruct Hf as (Hfi & Hfo & Hfw). clearbody fuel.
  rewrite read_uint_encode by exact Hv. cbn [bind].
  destruct F as [|fl ws Hfl Hlen Hws]; cbn [app].
  (* at least one input: the count is not the segwit marker *)
  1: rewrite read_cs_encode by exact Hni; cbn [bind];
     replace (is_zero _) with false by (destruct (tx_ins t); [congruence | reflexivity]).
  (* the marker reads as a zero count, then the flag byte and the real count follow *)
  2: rewrite read_cs_cons, byte_of_N_small by reflexivity; cbn [bind N.ltb N.compare is_zero N.eqb];
     rewrite read_uint1_cons, byte_of_N_small by lia; cbn [bind]; rewrite read_cs_encode by exact Hni.
  all: cbn [bind snd fst]; rewrite (parse_many_ser _ _ _ _ parse_in_ser) by assumption; cbn [bind];
       rewrite read_cs_encode by exact Hno; cbn [bind];
       rewrite (parse_many_ser _ _ _ _ parse_out_ser) by assumption; cbn [bind].
  1: cbn [truthy N.eqb negb map concat app bind].
  2: rewrite truthy_pos, <- Hlen, parse_witnesses_ser by (assumption || lia); cbn [bind].
  all: rewrite read_uint_encode by exact Hl; reflexivity.
Qed.

Theorem deserialize_serialize t rest : wf_tx t -> deserialize (serialize t ++ rest) = ROk (lift t).
Proof. intro H. exact (deserialize_framed t _ _ _ rest H (framing_legacy _)). Qed.

Lemma lift_in_inj a b : lift_in a = lift_in b -> a = b.
Proof. destruct a, b. intros [= -> -> -> ->]. reflexivity. Qed.
Lemma lift_out_inj a b : lift_out a = lift_out b -> a = b.
Proof. destruct a, b. intros [= -> ->]. reflexivity. Qed.
Lemma map_inj {A B} (f : A -> B) : (forall a b, f a = f b -> a = b) ->
  forall l1 l2, map f l1 = map f l2 -> l1 = l2.
Proof.
  intros Hf. induction l1 as [|x l1 IH]; intros [|y l2] [=]; [reflexivity|].
  f_equal; [apply Hf | apply IH]; assumption.
Qed.
Lemma lift_inj a b : lift a = lift b -> a = b.
Proof.
  destruct a, b. intros [= -> Hi Ho ->].
  apply (map_inj lift_in lift_in_inj) in Hi. apply (map_inj lift_out lift_out_inj) in Ho.
  subst. reflexivity.
Qed.

Theorem serialize_prefix_free t1 t2 r1 r2 : wf_tx t1 -> wf_tx t2 ->
  serialize t1 ++ r1 = serialize t2 ++ r2 -> t1 = t2 /\ r1 = r2.
Proof.
  intros H1 H2 E. assert (t1 = t2) as <-.
  { apply lift_inj. pose proof (deserialize_serialize t1 r1 H1) as D.
    rewrite E, (deserialize_serialize t2 r2 H2) in D. congruence. }
  split; [reflexivity | exact (app_inv_head _ _ _ E)].
Qed.

Theorem serialize_injective t1 t2 : wf_tx t1 -> wf_tx t2 -> serialize t1 = serialize t2 -> t1 = t2.
Proof.
  intros H1 H2 E. apply (serialize_prefix_free t1 t2 [] [] H1 H2). rewrite E. reflexivity.
Qed.

Lemma pser_list_lift {A B} (f : B -> res bytes) (lf : A -> B) (ser : A -> bytes) (P : A -> Prop) :
  (forall x, P x -> f (lf x) = ROk (ser x)) ->
  forall l, Forall P l -> pser_list f (map lf l) = ROk (concat (map ser l)).
Proof.
  intros Hf. induction l as [|x l IH]; intro Hall; [reflexivity|].
  inversion Hall; subst. cbn [map pser_list concat]. rewrite Hf by assumption. cbn [bind].
  rewrite IH by assumption. cbn [bind]. reflexivity.
Qed.

Lemma pser_in_lift i : wf_in i -> pser_in (lift_in i) = ROk (ser_in i).
Proof.
  intros (Hh & Hi & Hs & Hq). unfold pser_in, lift_in, ser_in. cbn [pi_index pi_seq].
  rewrite !enc_uint_some by assumption. reflexivity.
Qed.
Lemma pser_out_lift o : wf_out o -> pser_out (lift_out o) = ROk (ser_out o).
Proof.
  intros (Ha & Hs). unfold pser_out, lift_out, ser_out. cbn [po_amount].
  rewrite enc_uint_some by assumption. reflexivity.
Qed.

Theorem pser_lift_with t flag wits : wf_tx t -> pser (lift_with flag wits t) = ROk (serialize t).
Proof.
  intros (Hv & Hl & Hne & Hni & Hno & Hins & Houts).
  unfold pser, lift_with, serialize, ser_ins, ser_outs. cbn [p_version p_ins p_outs p_locktime].
  rewrite !enc_uint_some by assumption. cbn [bind].
  rewrite (pser_list_lift _ _ _ _ pser_in_lift), (pser_list_lift _ _ _ _ pser_out_lift) by assumption.
  cbn [bind]. rewrite !map_length. reflexivity.
Qed.

Corollary pser_lift t : wf_tx t -> pser (lift t) = ROk (serialize t).
Proof. apply pser_lift_with. Qed.

(* InputOutput.size, Transaction.size, Transaction.base_size *)
Definition string_size (s : bytes) : nat := (cs_width (N.of_nat (length s)) + length s)%nat.
Definition in_size (i : txin) : nat := (length (ti_hash i) + 4 + string_size (ti_script i) + 4)%nat.
Definition out_size (o : txout) : nat := (8 + string_size (to_script o))%nat.
Definition base_size (t : tx) : nat :=
  (4 + cs_width (N.of_nat (length (tx_ins t))) + cs_width (N.of_nat (length (tx_outs t))) + 4)%nat.
Definition tx_size (t : tx) : nat :=
  (base_size t + list_sum (map in_size (tx_ins t)) + list_sum (map out_size (tx_outs t)))%nat.

Lemma ser_string_size s : length (ser_string s) = string_size s.
Proof. unfold ser_string, string_size. rewrite app_length, cs_encode_length. reflexivity. Qed.
Lemma ser_in_size i : length (ser_in i) = in_size i.
Proof. unfold ser_in, in_size. rewrite !app_length, !le_encode_length, ser_string_size. lia. Qed.
Lemma ser_out_size o : length (ser_out o) = out_size o.
Proof. unfold ser_out, out_size. rewrite !app_length, !le_encode_length, ser_string_size. lia. Qed.
Lemma concat_map_length {A} (ser : A -> bytes) (sz : A -> nat) :
  (forall x, length (ser x) = sz x) -> forall l, length (concat (map ser l)) = list_sum (map sz l).
Proof.
  intros H l. induction l as [|x l IH]; [reflexivity|].
  cbn [map concat list_sum]. rewrite app_length, H, IH. reflexivity.
Qed.

Theorem serialize_length t : length (serialize t) = tx_size t.
Proof.
  unfold serialize, tx_size, base_size, ser_ins, ser_outs.
  rewrite !app_length, !le_encode_length, !cs_encode_length.
  rewrite (concat_map_length ser_in in_size ser_in_size).
  rewrite (concat_map_length ser_out out_size ser_out_size). lia.
Qed.
