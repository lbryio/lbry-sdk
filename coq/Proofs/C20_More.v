(* Consequences of [exact], [roundtrip] and [parse_sound] of Proofs.C20: the printer is injective over all of Z (equal
   strings have equal exact values), the parser on printed negative amounts, and the bound 10^18 on everything the
   parser accepts, which makes parse . format . parse = parse. *)
From Coq Require Import ZArith List Lia.
From LV Require Import Lib.Bytes Lib.Decimal Model.C20 Proofs.C20.
Import ListNotations.
Local Open Scope N_scope.

Lemma format_injective z1 z2 : format z1 = format z2 -> z1 = z2.
Proof.
  intro E.
  destruct (exact z1) as (m1 & k1 & D1 & V1 & _).
  destruct (exact z2) as (m2 & k2 & D2 & V2 & _).
  rewrite E in D1. rewrite D1 in D2. inversion D2; subst m2 k2.
  assert (Hp : (0 < 10 ^ Z.of_N k1)%Z) by (apply Z.pow_pos_nonneg; lia).
  rewrite V1 in V2. apply Z.mul_reg_r in V2; [exact V2 | lia].
Qed.

Lemma minus_not_dot : byte_eqb minus_byte dot_byte = false.
Proof. vm_compute. reflexivity. Qed.

(* coins_to_satoshis has no sign in its grammar *)
Lemma negative_printed p :
  format (Zneg p) = minus_byte :: format (Zpos p) /\ parse (format (Zneg p)) = None.
Proof.
  split; [apply format_neg|]. rewrite format_neg. change (Z.pos p) with (Z.of_N (Npos p)). rewrite format_nonneg.
  unfold parse. cbn [split_dot]. rewrite minus_not_dot, split_dot_digits by apply dec_of_N_all_digits.
  cbn [forallb]. rewrite minus_not_digit. reflexivity.
Qed.

Lemma negative_magnitude_roundtrip p : Npos p < 10 ^ 18 ->
  parse (tl (format (Zneg p))) = Some (Npos p).
Proof.
  intro H. rewrite format_neg. cbn [tl]. change (Z.pos p) with (Z.of_N (Npos p)). apply roundtrip. exact H.
Qed.

Lemma parse_bound s n : parse s = Some n -> n < 10 ^ 18.
Proof.
  intro H. apply parse_sound in H as (whole & frac & (_ & Hw & Hf & Lw & Lf) & ->).
  destruct (padded_spec whole frac Hw Hf (proj2 Lf)) as (Pd & Pl & <-).
  eapply N.lt_le_trans; [exact (digit_vals_lt_pow _ Pd)|]. rewrite Pl. apply N.pow_le_mono_r; [discriminate | lia].
Qed.

Lemma parse_format_parse s n : parse s = Some n -> parse (format (Z.of_N n)) = Some n.
Proof. intro H. apply roundtrip. exact (parse_bound s n H). Qed.

(* parse_format_parse with the printed string named; the second spelling plays no part *)
Lemma canonical_spelling s1 s2 n : parse s1 = Some n -> parse s2 = Some n ->
  exists c, c = format (Z.of_N n) /\ parse c = Some n.
Proof. intros H1 _. exists (format (Z.of_N n)). split; [reflexivity | exact (parse_format_parse s1 n H1)]. Qed.
