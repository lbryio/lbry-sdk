(* The header chain (lbry/wallet/header.py).  connect keeps the stored chain valid (cinv, connect_inv); open() = load,
   link scan, tip check is analysed once (load_repair_cases), and the theorems about damaged or cut files are case
   analyses on it. *)
From Coq Require Import ZArith List Bool Lia.
From Coq.Strings Require Import Byte.
From LV Require Import Lib.Bytes Lib.Lists Model.C07.
Import ListNotations.

Arguments HS : simpl never.
Arguments CHUNK : simpl never.
Arguments BATCH : simpl never.

Lemma HS_pos : 0 < HS. Proof. unfold HS. lia. Qed.

Lemma div_HS k : HS * k / HS = k.
Proof. rewrite Nat.mul_comm. apply Nat.div_mul. discriminate. Qed.

Lemma mod_HS k : (HS * k) mod HS = 0.
Proof. rewrite Nat.mul_comm. apply Nat.mod_mul. discriminate. Qed.

Lemma mul_HS_le j a : j <= a / HS -> HS * j <= a.
Proof.
  intro H. apply Nat.le_trans with (HS * (a / HS)); [apply Nat.mul_le_mono_l, H | apply Nat.mul_div_le; discriminate].
Qed.

Lemma nth_error_skipn {A} (a j : nat) (l : list A) : nth_error (skipn a l) j = nth_error l (a + j).
Proof.
  revert l. induction a as [|a IH]; intro l; [reflexivity|].
  destruct l as [|x l]; [destruct j; reflexivity|]. cbn [skipn Nat.add nth_error]. apply IH.
Qed.

Lemma nth_error_firstn_lt {A} j (l : list A) i : i < j -> nth_error (firstn j l) i = nth_error l i.
Proof.
  revert l i. induction j as [|j IH]; intros l i H; [lia|].
  destruct l as [|y l]; [reflexivity|]. destruct i as [|i]; [reflexivity|].
  cbn [firstn nth_error]. apply IH. lia.
Qed.

Lemma nth_error_some_lt {A} (l : list A) i x : nth_error l i = Some x -> i < length l.
Proof. intro H. apply nth_error_Some. congruence. Qed.

Lemma nth_error_firstn_some {A} j (l : list A) i x : nth_error (firstn j l) i = Some x -> nth_error l i = Some x.
Proof.
  intro H. rewrite <- H. symmetry. apply nth_error_firstn_lt.
  apply nth_error_some_lt in H. rewrite firstn_length in H. lia.
Qed.

Lemma concat_length_const {c} hs : Forall (fun x : bytes => length x = c) hs -> length (concat hs) = c * length hs.
Proof.
  induction 1 as [|x hs Hx _ IH]; [now rewrite Nat.mul_0_r|].
  cbn [concat length]. rewrite app_length, IH, Hx. lia.
Qed.

Lemma firstn_concat {c} hs : Forall (fun x : bytes => length x = c) hs ->
  forall j, firstn (c * j) (concat hs) = concat (firstn j hs).
Proof.
  induction 1 as [|x hs Hx _ IH]; intros [|j]; rewrite ?Nat.mul_0_r; [reflexivity | apply firstn_nil | reflexivity |].
  cbn [concat firstn]. rewrite Nat.mul_succ_r, Nat.add_comm, <- Hx at 1. rewrite firstn_app_2, IH. reflexivity.
Qed.

Lemma chunks_length k : forall b, length (chunks k b) = k.
Proof. induction k as [|k IH]; intro b; cbn [chunks length]; [reflexivity | rewrite IH; reflexivity]. Qed.

Lemma chunks_add k j : forall b, chunks (k + j) b = chunks k b ++ chunks j (skipn (HS * k) b).
Proof.
  induction k as [|k IH]; intro b.
  - rewrite Nat.mul_0_r. reflexivity.
  - cbn [Nat.add chunks app]. f_equal. rewrite IH. f_equal. f_equal.
    rewrite skipn_skipn. f_equal. lia.
Qed.

Lemma chunks_of_firstn j : forall b, chunks j (firstn (HS * j) b) = chunks j b.
Proof.
  induction j as [|j IH]; intro b; [reflexivity|].
  cbn [chunks]. rewrite firstn_firstn, Nat.min_l, skipn_firstn_comm by lia.
  replace (HS * S j - HS) with (HS * j) by lia. rewrite IH. reflexivity.
Qed.

Lemma chunks_ext k a b : firstn (HS * k) a = firstn (HS * k) b -> chunks k a = chunks k b.
Proof. intro H. rewrite <- (chunks_of_firstn k a), H. apply chunks_of_firstn. Qed.

Lemma chunks_app k j a b : length a = HS * k -> chunks (k + j) (a ++ b) = chunks k a ++ chunks j b.
Proof.
  intro L. rewrite chunks_add. f_equal.
  - apply chunks_ext. rewrite firstn_app_exact' by lia. rewrite firstn_all2 by lia. reflexivity.
  - rewrite skipn_app_exact' by lia. reflexivity.
Qed.

Lemma chunks_snoc k b : chunks (S k) b = chunks k b ++ [read b k].
Proof.
  replace (S k) with (k + 1) by lia. rewrite chunks_add. f_equal.
Qed.

Lemma chunks_skipn_list a m b : skipn a (chunks (a + m) b) = chunks m (skipn (HS * a) b).
Proof. rewrite chunks_add. apply skipn_app_exact'. symmetry. apply chunks_length. Qed.

Lemma chunks_firstn_list j k b : j <= k -> firstn j (chunks k b) = chunks j b.
Proof.
  intro H. replace k with (j + (k - j)) by lia. rewrite chunks_add.
  apply firstn_app_exact'. symmetry. apply chunks_length.
Qed.

Lemma nth_error_chunks n b k : k < n -> nth_error (chunks n b) k = Some (read b k).
Proof.
  intro H. replace n with (k + S (n - k - 1)) by lia. rewrite chunks_add.
  rewrite nth_error_app2 by (rewrite chunks_length; lia). rewrite chunks_length, Nat.sub_diag.
  reflexivity.
Qed.

Lemma concat_chunks k : forall b, HS * k <= length b -> concat (chunks k b) = firstn (HS * k) b.
Proof.
  induction k as [|k IH]; intros b H.
  - rewrite Nat.mul_0_r. reflexivity.
  - cbn [chunks concat]. replace (HS * S k) with (HS + HS * k) by lia.
    rewrite firstn_add. f_equal. apply IH. rewrite skipn_length. lia.
Qed.

Lemma chunks_concat hs : Forall (fun x : bytes => length x = HS) hs -> chunks (length hs) (concat hs) = hs.
Proof.
  induction 1 as [|x hs Hx _ IH]; [reflexivity|].
  cbn [length chunks concat]. rewrite firstn_app_exact', skipn_app_exact' by (symmetry; exact Hx). f_equal. exact IH.
Qed.

Lemma chunks_Forall_len k : forall b, HS * k <= length b -> Forall (fun x : bytes => length x = HS) (chunks k b).
Proof.
  induction k as [|k IH]; intros b H; [constructor|].
  cbn [chunks]. constructor.
  - rewrite firstn_length. lia.
  - apply IH. rewrite skipn_length. lia.
Qed.

Lemma write_at_inside off data iob : off <= length iob ->
  write_at off data iob = firstn off iob ++ data ++ skipn (off + length data) iob.
Proof.
  intro H. unfold write_at. destruct data as [|d r].
  - cbn [length app]. rewrite Nat.add_0_r. symmetry. apply firstn_skipn.
  - replace (off - length iob) with 0 by lia. reflexivity.
Qed.

Lemma write_at_length off data iob : data <> [] ->
  length (write_at off data iob) = Nat.max (length iob) (off + length data).
Proof.
  intro Hd. unfold write_at. destruct data as [|d r]; [congruence|].
  rewrite !app_length, firstn_length, repeat_length, skipn_length. lia.
Qed.

Lemma write_at_nil off iob : write_at off [] iob = iob.
Proof. reflexivity. Qed.

Lemma write_at_firstn off data iob : off <= length iob ->
  firstn off (write_at off data iob) = firstn off iob.
Proof.
  intro H. rewrite write_at_inside by exact H.
  rewrite firstn_app_exact' by (rewrite firstn_length; lia). reflexivity.
Qed.

Lemma write_at_read off data iob : off <= length iob -> data <> [] ->
  firstn (length data) (skipn off (write_at off data iob)) = data.
Proof.
  intros H _. rewrite write_at_inside by exact H.
  rewrite skipn_app_exact' by (rewrite firstn_length; lia).
  apply firstn_app_exact'. reflexivity.
Qed.

Lemma write_at_skipn off data iob : off <= length iob ->
  skipn (off + length data) (write_at off data iob) = skipn (off + length data) iob.
Proof.
  intro H. rewrite write_at_inside by exact H.
  rewrite app_assoc. apply skipn_app_exact'. rewrite app_length, firstn_length. lia.
Qed.

Lemma write_at_prefix off data iob : off <= length iob ->
  firstn (off + length data) (write_at off data iob) = firstn off iob ++ data.
Proof.
  intro H. rewrite write_at_inside by exact H.
  rewrite app_assoc. apply firstn_app_exact'. rewrite app_length, firstn_length. lia.
Qed.

Definition wf (s : st) : Prop := HS * hsize s <= length (io s).

(* the two headers below the next one after consuming hs *)
Fixpoint adv (pp p : option bytes) (hs : list bytes) : option bytes * option bytes :=
  match hs with [] => (pp, p) | x :: r => adv p (Some x) r end.

Lemma adv_app a : forall pp p b, adv pp p (a ++ b) = adv (fst (adv pp p a)) (snd (adv pp p a)) b.
Proof. induction a as [|x a IH]; intros pp p b; [reflexivity|]. cbn [app adv]. apply IH. Qed.

Lemma below_adv iob start : (below2 iob start, below1 iob start) = adv None None (chunks start iob).
Proof.
  destruct start as [|[|k]]; [reflexivity | reflexivity |].
  rewrite !chunks_snoc, !adv_app. reflexivity.
Qed.

Definition prev1 (hs : list bytes) (k : nat) : option bytes :=
  match k with O => None | S j => nth_error hs j end.
Definition prev2 (hs : list bytes) (k : nat) : option bytes :=
  match k with S (S j) => nth_error hs j | _ => None end.

Lemma below_prev n iob h : h <= n ->
  below1 iob h = prev1 (chunks n iob) h /\ below2 iob h = prev2 (chunks n iob) h.
Proof.
  intro H. destruct h as [|[|k]]; cbn [below1 below2 prev1 prev2]; rewrite ?nth_error_chunks by lia; auto.
Qed.

Section Chain.
Variables sha256 sha512 rmd160 : bytes -> bytes.
Local Notation dsha := (dsha sha256).
Local Notation pow_value := (pow_value sha256 sha512 rmd160).
Local Notation check_header := (check_header sha256 sha512 rmd160).
Local Notation validate := (validate sha256 sha512 rmd160).
Local Notation connect := (connect sha256 sha512 rmd160).

(* the rules of validate_header, as a proposition *)
Definition header_rules (c : cfg) (pp p : option bytes) (x : bytes) : Prop :=
  match p with
  | None => match genesis c with Some g => dsha x = g | None => True end
  | Some pr =>
      h_prev x = dsha pr /\
      (validate_difficulty c = true ->
       h_bits x = compact (next_target (max_target c) pp p) /\
       (pow_value x <= from_compact (h_bits x))%N)
  end.

Lemma check_header_rules c pp p x : check_header c pp p x = None <-> header_rules c pp p x.
Proof.
  unfold check_header, header_rules. destruct p as [pr|].
  - destruct (bytes_eqb (h_prev x) (dsha pr)) eqn:E1; cbn [negb].
    2:{ apply bytes_eqb_neq in E1. split; [discriminate | tauto]. }
    apply bytes_eqb_eq in E1. destruct (validate_difficulty c); [|split; [split; [exact E1 | discriminate] | reflexivity]].
    destruct (N.eqb_spec (h_bits x) (compact (next_target (max_target c) pp (Some pr)))) as [E2|E2]; cbn [negb].
    2:{ split; [discriminate|]. intros [_ H]. destruct (H eq_refl). contradiction. }
    destruct (N.ltb_spec (from_compact (h_bits x)) (pow_value x)) as [E3|E3]; [|split; auto].
    split; [discriminate|]. intros [_ H]. destruct (H eq_refl). lia.
  - destruct (genesis c) as [g|]; [|tauto].
    destruct (bytes_eqb (dsha x) g) eqn:E; [apply bytes_eqb_eq in E | apply bytes_eqb_neq in E]; split; congruence.
Qed.

Lemma validate_app c a : forall pp p b,
  validate c pp p (a ++ b) = None <->
  validate c pp p a = None /\ validate c (fst (adv pp p a)) (snd (adv pp p a)) b = None.
Proof.
  induction a as [|x a IH]; intros pp p b; [cbn; tauto|].
  cbn [app validate adv]. destruct (check_header c pp p x); [|apply IH].
  split; [discriminate | intros [H _]; discriminate].
Qed.

Definition valid_chain (c : cfg) (hs : list bytes) : Prop := validate c None None hs = None.

Definition chain_rules (c : cfg) (hs : list bytes) : Prop :=
  forall k x, nth_error hs k = Some x -> header_rules c (prev2 hs k) (prev1 hs k) x.

Lemma validate_rules c hs : forall pp p,
  validate c pp p hs = None <->
  (forall k x, nth_error hs k = Some x ->
     header_rules c (match k with O => pp | S O => p | S (S j) => nth_error hs j end)
                    (match k with O => p | S j => nth_error hs j end) x).
Proof.
  induction hs as [|y r IH]; intros pp p.
  - split; [|reflexivity]. intros _ k x H. destruct k; discriminate.
  - cbn [validate]. destruct (check_header c pp p y) eqn:E.
    + split; [discriminate|]. intro H. specialize (H 0 y eq_refl). apply check_header_rules in H. congruence.
    + rewrite IH. apply check_header_rules in E. split.
      * intros H k x Hk. destruct k as [|k]; [cbn in Hk; inversion Hk; subst; exact E|].
        cbn [nth_error] in Hk. specialize (H k x Hk).
        destruct k as [|[|j]]; exact H.
      * intros H k x Hk. specialize (H (S k) x Hk).
        destruct k as [|[|j]]; exact H.
Qed.

Lemma valid_chain_rules c hs : valid_chain c hs <-> chain_rules c hs.
Proof. exact (validate_rules c hs None None). Qed.

Lemma valid_chain_firstn c j hs : valid_chain c hs -> valid_chain c (firstn j hs).
Proof. intro V. rewrite <- (firstn_skipn j hs) in V. apply validate_app in V. apply V. Qed.

Lemma chain_rules_firstn c j hs : chain_rules c hs -> chain_rules c (firstn j hs).
Proof. rewrite <- !valid_chain_rules. apply valid_chain_firstn. Qed.

(* the headers a batch is judged against are the last two of the chain below `start` *)
Lemma valid_extension c iob start hs :
  valid_chain c (chunks start iob ++ hs) <->
  valid_chain c (chunks start iob) /\ validate c (below2 iob start) (below1 iob start) hs = None.
Proof. unfold valid_chain. rewrite validate_app, <- below_adv. reflexivity. Qed.

Definition stored (r : cres) : bool := match r with COk (S _) => true | _ => false end.

Definition stored_chain (s : st) : list bytes := chunks (hsize s) (io s).

(* connect stores the S n headers of `batch` at `start`: the batch fits there and passes validation there *)
Definition accepts (c : cfg) (s : st) (start : nat) (batch : bytes) (n : nat) : Prop :=
  length batch = HS * S n /\ start <= hsize s /\
  validate c (below2 (io s) start) (below1 (io s) start) (chunks (S n) batch) = None.

(* and the state it leaves: the chain below `start`, then the batch, nothing above *)
Definition after (s : st) (start : nat) (batch : bytes) (n : nat) : st :=
  mkSt (firstn (HS * start) (io s) ++ batch) (start + S n) (missing s).

Lemma connect_write_eq s start batch n : wf s -> start <= hsize s -> length batch = HS * S n ->
  connect_write s start batch = after s start batch n.
Proof.
  intros W Hs L. unfold wf in W. unfold connect_write, do_write, after. cbn [io].
  rewrite write_at_prefix, L.
  - f_equal. rewrite <- Nat.mul_add_distr_l. apply div_HS.
  - nia.
Qed.

Lemma after_spec s start batch n : wf s -> start <= hsize s -> length batch = HS * S n ->
  wf (after s start batch n) /\
  stored_chain (after s start batch n) = chunks start (io s) ++ chunks (S n) batch.
Proof.
  intros W Hs L. unfold wf, stored_chain, after in *. cbn [io hsize].
  assert (Lf : length (firstn (HS * start) (io s)) = HS * start) by (rewrite firstn_length; nia).
  split; [rewrite app_length, Lf, L; lia|].
  rewrite chunks_app by exact Lf. f_equal. apply chunks_of_firstn.
Qed.

Lemma after_after s start a b na nb : length a = HS * S na ->
  after (after s start a na) (start + S na) b nb = after s start (a ++ b) (na + S nb).
Proof.
  intro La. unfold after. cbn [io hsize missing]. f_equal; [|lia].
  rewrite firstn_all2, app_assoc; [reflexivity|]. rewrite app_length, firstn_length, La. nia.
Qed.

Lemma connect_cases c s start batch s' r : wf s -> connect c s start batch = (s', r) ->
  (exists n, accepts c s start batch n /\ r = COk (S n) /\ s' = after s start batch n)
  \/ (s' = s /\ stored r = false).
Proof.
  unfold connect. remember (length batch / HS) as q eqn:En. intros W H.
  destruct (Nat.eqb (length batch mod HS) 0) eqn:Em; cbn [negb] in H.
  2:{ inversion H; subst. right. auto. }
  destruct (Nat.ltb (hsize s) start) eqn:El.
  { inversion H; subst. right. auto. }
  destruct (validate c (below2 (io s) start) (below1 (io s) start) (chunks q batch)) eqn:Ev.
  { inversion H; subst. right. auto. }
  destruct batch as [|b0 br] eqn:Eb.
  { inversion H; subst. right. auto. }
  rewrite <- Eb in *. inversion H; subst s' r. clear H.
  apply Nat.eqb_eq, Nat.div_exact in Em; [|discriminate]. rewrite <- En in Em. apply Nat.ltb_ge in El.
  destruct q as [|n]; [rewrite Eb, Nat.mul_0_r in Em; discriminate Em|].
  left. exists n. rewrite (connect_write_eq s start batch n W El Em). unfold accepts. auto.
Qed.

Lemma connect_accepts c s start batch n : wf s -> accepts c s start batch n ->
  connect c s start batch = (after s start batch n, COk (S n)).
Proof.
  intros W (L & Hs & V). rewrite <- (connect_write_eq s start batch n W Hs L). unfold connect.
  rewrite L, mod_HS, div_HS, (proj2 (Nat.ltb_ge _ _) Hs), V. cbn [Nat.eqb negb].
  destruct batch as [|b0 br]; [unfold HS in L; discriminate L | reflexivity].
Qed.

Lemma connect_ok_iff c s start batch s' n : wf s ->
  connect c s start batch = (s', COk (S n)) <-> accepts c s start batch n /\ s' = after s start batch n.
Proof.
  intro W. split.
  - intro E. apply connect_cases in E as [(m & A & [= <-] & ->) | [_ Hr]]; [auto | discriminate | exact W].
  - intros [A ->]. apply connect_accepts; assumption.
Qed.

Theorem connect_all_or_nothing c s start batch s' r : wf s -> connect c s start batch = (s', r) ->
  (stored r = true ->
     exists n, r = COk n /\ length batch = HS * n /\ 0 < n /\ start <= hsize s /\
       io s' = firstn (HS * start) (io s) ++ batch /\ hsize s' = start + n /\ missing s' = missing s /\
       validate c (below2 (io s) start) (below1 (io s) start) (chunks n batch) = None) /\
  (stored r = false -> s' = s).
Proof.
  intros W E. apply connect_cases in E as [(n & (L & Hs & Val) & -> & ->) | [-> Hr]]; [| |exact W].
  - split; [|discriminate]. intros _. exists (S n). cbn [after io hsize missing].
    repeat split; try assumption; lia.
  - split; [intro H; congruence | reflexivity].
Qed.

Theorem connect_valid_accepted c s start batch n :
  wf s -> length batch = HS * S n -> start <= hsize s ->
  chain_rules c (chunks start (io s) ++ chunks (S n) batch) ->
  connect c s start batch = (connect_write s start batch, COk (S n)).
Proof.
  intros W L Hs R. rewrite (connect_write_eq s start batch n W Hs L). apply connect_accepts; [exact W|].
  apply valid_chain_rules, valid_extension in R. split; [exact L|]. split; [exact Hs | apply R].
Qed.

Theorem connect_accepted_valid c s start batch s' n :
  wf s -> connect c s start batch = (s', COk (S n)) ->
  chain_rules c (chunks start (io s)) ->
  chain_rules c (stored_chain s') /\
  stored_chain s' = chunks start (io s) ++ chunks (S n) batch.
Proof.
  intros W E R. apply connect_ok_iff in E as [(L & Hs & Val) ->]; [|exact W].
  destruct (after_spec s start batch n W Hs L) as [_ Hc]. rewrite Hc. split; [|reflexivity].
  apply valid_chain_rules, valid_extension. split; [|exact Val]. apply valid_chain_rules. exact R.
Qed.

Lemma accepts_app c s start a b na nb : wf s -> length a = HS * S na -> length b = HS * S nb ->
  accepts c s start (a ++ b) (na + S nb) <->
  accepts c s start a na /\ accepts c (after s start a na) (start + S na) b nb.
Proof.
  intros W La Lb. unfold accepts. rewrite app_length, La, Lb. cbn [after hsize io].
  destruct (Nat.le_gt_cases start (hsize s)) as [Hs|Hs]; [|split; [intros (_ & H & _) | intros [(_ & H & _) _]]; lia].
  (* the headers below start + S na in the state left by a are the last two of the chain that a extends *)
  destruct (after_spec s start a na W Hs La) as [_ Hc]. unfold stored_chain in Hc. cbn [after hsize io] in Hc.
  pose proof (below_adv (firstn (HS * start) (io s) ++ a) (start + S na)) as Hb.
  rewrite Hc, adv_app, <- below_adv in Hb. cbn [fst snd] in Hb.
  change (S (na + S nb)) with (S na + S nb). rewrite (chunks_app _ _ _ _ La), validate_app, <- Hb. cbn [fst snd].
  intuition lia.
Qed.

Theorem split_batches c s start a b na nb :
  wf s -> length a = HS * S na -> length b = HS * S nb ->
  forall s2,
  (connect c s start (a ++ b) = (s2, COk (S na + S nb)) <->
   exists s1, connect c s start a = (s1, COk (S na)) /\ connect c s1 (start + S na) b = (s2, COk (S nb))).
Proof.
  intros W La Lb s2. change (S na + S nb) with (S (na + S nb)).
  rewrite (connect_ok_iff c s start (a ++ b) s2 _ W), (accepts_app c s start a b na nb W La Lb).
  split.
  - intros [[Aa Ab] ->]. exists (after s start a na). pose proof Aa as (_ & Hs & _).
    split; [apply connect_accepts; assumption|].
    rewrite <- (after_after s start a b na nb La). apply connect_accepts; [|exact Ab].
    apply (after_spec s start a na W Hs La).
  - intros (s1 & E1 & E2). apply connect_ok_iff in E1 as [Aa ->]; [|exact W].
    pose proof Aa as (_ & Hs & _).
    apply connect_ok_iff in E2 as [Ab ->]; [|apply (after_spec s start a na W Hs La)].
    split; [tauto | apply after_after, La].
Qed.

Definition cinv (c : cfg) (s : st) : Prop := wf s /\ valid_chain c (chunks (hsize s) (io s)).

Lemma connect_inv c s start batch : cinv c s -> cinv c (fst (connect c s start batch)).
Proof.
  intros [W V]. destruct (connect c s start batch) as [s' r] eqn:E. cbn [fst].
  apply connect_cases in E as [(n & (L & Hs & Val) & _ & ->) | [-> _]]; [|split; assumption | exact W].
  destruct (after_spec s start batch n W Hs L) as [W' Hc]. split; [exact W'|].
  change (valid_chain c (stored_chain (after s start batch n))). rewrite Hc.
  apply valid_extension. split; [|exact Val].
  rewrite <- (chunks_firstn_list start (hsize s)) by exact Hs. apply valid_chain_firstn, V.
Qed.

Lemma cinv_rules c s : cinv c s <-> wf s /\ chain_rules c (stored_chain s).
Proof. unfold cinv, stored_chain. rewrite valid_chain_rules. reflexivity. Qed.

Definition run_connects (c : cfg) (s : st) (ops : list (nat * bytes)) : st :=
  fold_left (fun s op => fst (connect c s (fst op) (snd op))) ops s.

Theorem chain_invariant c ops : forall s, cinv c s -> cinv c (run_connects c s ops).
Proof. apply (fold_left_inv _ (cinv c)). intros s op. apply connect_inv. Qed.

Theorem chain_invariant_rules c ops s :
  wf s -> chain_rules c (stored_chain s) ->
  let s' := run_connects c s ops in
  wf s' /\ chain_rules c (stored_chain s').
Proof. intros W R. apply cinv_rules, chain_invariant, cinv_rules. auto. Qed.

Lemma cinv_empty c : cinv c (mkSt [] 0 []).
Proof. split; [unfold wf; cbn; lia | reflexivity]. Qed.

End Chain.

Lemma visited_end_tight start sz : visited_end start sz sz = Nat.max start sz.
Proof.
  unfold visited_end. destruct (Nat.ltb_spec start sz) as [E|E]; [|lia].
  pose proof (Nat.mul_succ_div_gt (sz - 1 - start) BATCH ltac:(discriminate)). lia.
Qed.

(* the state keeps exactly the whole headers of its buffer: so it is after loading and after every cut *)
Definition tight (s : st) : Prop := hsize s = length (io s) / HS.

(* open() before repair *)
Definition loaded (file : bytes) : st := mkSt file (length file / HS) [].

(* What repair() leaves when it drops headers and what a crash leaves are states of one kind: the file cut at some
   byte m, loaded.  It holds the m / 112 whole headers below m. *)
Lemma loaded_firstn file m : m <= length file ->
  let s := loaded (firstn m file) in
  length (io s) = m /\ hsize s = m / HS /\ stored_chain s = firstn (m / HS) (stored_chain (loaded file)).
Proof.
  intro Hm. unfold stored_chain. cbn [loaded io hsize]. rewrite firstn_length_le by exact Hm.
  split; [reflexivity|]. split; [reflexivity|].
  rewrite chunks_firstn_list by (apply Nat.div_le_mono; [discriminate | exact Hm]).
  apply chunks_ext. rewrite firstn_firstn, Nat.min_l; [reflexivity | apply Nat.mul_div_le; discriminate].
Qed.

Lemma loaded_cut hs m : Forall (fun x : bytes => length x = HS) hs -> m <= length (concat hs) ->
  loaded (firstn m (concat hs)) = mkSt (firstn m (concat hs)) (m / HS) [] /\
  stored_chain (loaded (firstn m (concat hs))) = firstn (m / HS) hs.
Proof.
  intros Hlen Hm. destruct (loaded_firstn (concat hs) m Hm) as (_ & _ & ->). unfold stored_chain, loaded. cbn [io hsize].
  rewrite firstn_length_le, (concat_length_const hs Hlen), div_HS, (chunks_concat hs Hlen) by exact Hm. auto.
Qed.

Definition open_start (c : cfg) (file : bytes) : nat :=
  if Nat.eqb (length file mod HS) 0 then repair_start c else 0.

Lemma concat_aligned c hs : Forall (fun x : bytes => length x = HS) hs ->
  length (concat hs) / HS = length hs /\ open_start c (concat hs) = repair_start c /\
  stored_chain (loaded (concat hs)) = hs.
Proof.
  intro Hlen. unfold open_start, stored_chain. cbn [loaded io hsize].
  rewrite (concat_length_const hs Hlen), div_HS, mod_HS.
  auto using chunks_concat.
Qed.

Lemma cut_concat hs j : Forall (fun x : bytes => length x = HS) hs -> j <= length hs ->
  loaded (firstn (HS * j) (concat hs)) = mkSt (concat (firstn j hs)) j [].
Proof.
  intros Hlen Hj. unfold loaded.
  rewrite firstn_length_le by (rewrite (concat_length_const hs Hlen); apply Nat.mul_le_mono_l, Hj).
  rewrite div_HS, (firstn_concat hs Hlen). reflexivity.
Qed.

Definition replace_nth (d : nat) (x' : bytes) (hs : list bytes) : list bytes :=
  firstn d hs ++ x' :: skipn (S d) hs.

Lemma replace_nth_lt d x' hs i : i < d -> d < length hs -> nth_error (replace_nth d x' hs) i = nth_error hs i.
Proof.
  intros H Hd. unfold replace_nth. rewrite nth_error_app1 by (rewrite firstn_length; lia).
  apply nth_error_firstn_lt. exact H.
Qed.

Lemma replace_nth_eq d x' hs : d < length hs -> nth_error (replace_nth d x' hs) d = Some x'.
Proof.
  intro Hd. unfold replace_nth. rewrite nth_error_app2 by (rewrite firstn_length; lia).
  rewrite firstn_length. replace (d - Nat.min d (length hs)) with 0 by lia. reflexivity.
Qed.

Lemma replace_nth_gt d x' hs i : d < i -> d < length hs -> nth_error (replace_nth d x' hs) i = nth_error hs i.
Proof.
  intros H Hd. unfold replace_nth. rewrite nth_error_app2 by (rewrite firstn_length; lia).
  rewrite firstn_length. replace (i - Nat.min d (length hs)) with (S (i - S d)) by lia.
  cbn [nth_error]. rewrite nth_error_skipn. f_equal. lia.
Qed.

Lemma replace_nth_Forall (P : bytes -> Prop) d x' hs : Forall P hs -> P x' -> Forall P (replace_nth d x' hs).
Proof.
  intros H Hx. pose proof H as H'.
  rewrite <- (firstn_skipn d hs) in H. rewrite <- (firstn_skipn (S d) hs) in H'. apply Forall_app in H, H'.
  apply Forall_app. split; [apply H|]. constructor; [exact Hx | apply H'].
Qed.

Lemma replace_nth_length d x' hs : d < length hs -> length (replace_nth d x' hs) = length hs.
Proof. intro H. unfold replace_nth. rewrite app_length, firstn_length. cbn [length]. rewrite skipn_length. lia. Qed.

Lemma replace_nth_firstn j d x' hs : j <= d <= length hs -> firstn j (replace_nth d x' hs) = firstn j hs.
Proof.
  intro H. unfold replace_nth. rewrite firstn_app, firstn_firstn, firstn_length.
  replace (j - Nat.min d (length hs)) with 0 by lia. replace (Nat.min j d) with j by lia. apply app_nil_r.
Qed.

Section Repair.
Variable sha256 : bytes -> bytes.
Local Notation dsha := (dsha sha256).
Local Notation scan := (scan sha256).
Local Notation repair_fail := (repair_fail sha256).
Local Notation repair := (repair_links sha256).
Local Notation links_fail := (links_fail sha256).
Local Notation repair_genesis_ok := (repair_genesis_ok sha256).

Fixpoint links (prev : bytes) (hs : list bytes) : Prop :=
  match hs with [] => True | x :: r => h_prev x = dsha prev /\ links x r end.
Definition linked (l : list bytes) : Prop := match l with [] => True | x :: r => links x r end.

Lemma links_iff l : forall p,
  links p l <-> (forall i a b, nth_error (p :: l) i = Some a -> nth_error l i = Some b -> h_prev b = dsha a).
Proof.
  induction l as [|x r IH]; intro p; cbn [links].
  - split; [intros _ [|i] a b _ Hb; discriminate Hb | auto].
  - rewrite IH. split.
    + intros [H1 H2] [|i] a b Ha Hb; [cbn in Ha, Hb; congruence | apply (H2 i a b Ha Hb)].
    + intro H. split; [apply (H 0 p x); reflexivity | intros i a b; apply (H (S i) a b)].
Qed.

Lemma linked_iff l :
  linked l <->
  (forall i a b, nth_error l i = Some a -> nth_error l (S i) = Some b -> h_prev b = dsha a).
Proof. destruct l as [|x r]; [split; [intros _ [|i] a b Ha; discriminate Ha | exact (fun _ => I)] | apply links_iff]. Qed.

Lemma linked_from s l :
  linked (skipn s l) <->
  (forall i a b, s <= i -> nth_error l i = Some a -> nth_error l (S i) = Some b -> h_prev b = dsha a).
Proof.
  rewrite linked_iff. split; intros H i a b.
  - intros Hi Ha Hb. apply (H (i - s)); rewrite nth_error_skipn; [rewrite <- Ha | rewrite <- Hb]; f_equal; lia.
  - rewrite !nth_error_skipn, <- plus_n_Sm. apply H. lia.
Qed.

Lemma linked_skipn j l : linked l -> linked (skipn j l).
Proof. intro H. apply linked_from. intros i a b _. apply (proj1 (linked_iff l) H). Qed.

Lemma linked_firstn j l : linked l -> linked (firstn j l).
Proof.
  intro H. apply linked_iff. intros i a b Ha Hb.
  apply nth_error_firstn_some in Ha, Hb. apply (proj1 (linked_iff l) H i a b Ha Hb).
Qed.

Lemma scan_spec hs : forall prev h,
  match scan prev h hs with
  | None => links prev hs
  | Some k => exists i a b, k = h + i /\ links prev (firstn i hs) /\
                nth_error (prev :: hs) i = Some a /\ nth_error hs i = Some b /\ h_prev b <> dsha a
  end.
Proof.
  induction hs as [|x r IH]; intros prev h; [exact I|].
  cbn [scan]. destruct (bytes_eqb (h_prev x) (dsha prev)) eqn:E.
  - apply bytes_eqb_eq in E. specialize (IH x (S h)). destruct (scan x (S h) r) as [k|].
    + destruct IH as (i & a & b & -> & L & Ha & Hb & Hne). exists (S i), a, b.
      split; [lia|]. split; [split; assumption|]. auto.
    + split; assumption.
  - apply bytes_eqb_neq in E. exists 0, prev, x. rewrite Nat.add_0_r. repeat split. exact E.
Qed.

Definition genesis_at0 (c : cfg) (H : list bytes) : Prop :=
  forall x, nth_error H 0 = Some x -> repair_genesis_ok c x = true.

(* what the link scan of repair() tests holds throughout H: every link from `start` upwards, and for start = 0 the
   genesis test *)
Definition sound (c : cfg) (start : nat) (H : list bytes) : Prop :=
  linked (skipn start H) /\ (start = 0 -> genesis_at0 c H).

(* the scan stops at height k: the genesis test fails, or the link into k is broken *)
Definition first_fault (c : cfg) (start : nat) (H : list bytes) (k : nat) : Prop :=
  (k = 0 /\ start = 0 /\ exists x, nth_error H 0 = Some x /\ repair_genesis_ok c x = false)
  \/ (start < k /\ exists x y, nth_error H (k - 1) = Some x /\ nth_error H k = Some y /\ h_prev y <> dsha x).

Lemma sound_firstn c start H j : sound c start H -> sound c start (firstn j H).
Proof.
  intros [L G]. split.
  - rewrite skipn_firstn_comm. apply linked_firstn, L.
  - intros E x Hx. apply (G E x), (nth_error_firstn_some _ _ _ _ Hx).
Qed.

Lemma fault_lt c start H k : first_fault c start H k -> k < length H.
Proof. intros [(-> & _ & x & Hx & _) | (_ & x & y & _ & Hy & _)]; eapply nth_error_some_lt; eassumption. Qed.

Lemma fault_local c start H H' k : (forall i, i <= k -> nth_error H' i = nth_error H i) ->
  first_fault c start H k -> first_fault c start H' k.
Proof.
  intros E [(-> & E0 & x & Hx & Hg) | (Hk & x & y & Hx & Hy & Hne)]; [left | right].
  - rewrite <- E in Hx by lia. eauto.
  - rewrite <- E in Hx, Hy by lia. eauto 7.
Qed.

Lemma no_fault c start H k : sound c start H -> ~ first_fault c start H k.
Proof.
  intros [L G] [(_ & E0 & x & Hx & Hg) | (Hk & x & y & Hx & Hy & Hne)].
  - rewrite (G E0 x Hx) in Hg. discriminate.
  - apply Hne, (proj1 (linked_from start H) L (k - 1) x y); [lia | exact Hx |]. rewrite <- Hy. f_equal. lia.
Qed.

(* No fault lies inside a sound prefix.  So a list that agrees with a sound one below d has its faults at d or above,
   and a fault exhibited at j bounds what the scan keeps. *)
Lemma sound_before_fault c start H k j : sound c start (firstn k H) -> first_fault c start H j -> k <= j.
Proof.
  intros S F. destruct (Nat.le_gt_cases k j) as [Hle|Hlt]; [exact Hle|].
  destruct (no_fault c start (firstn k H) j S). revert F. apply fault_local.
  intros i Hi. apply nth_error_firstn_lt. lia.
Qed.

Lemma repair_fail_spec c start H :
  match repair_fail c start (skipn start H) with
  | None => sound c start H
  | Some k => sound c start (firstn k H) /\ first_fault c start H k
  end.
Proof.
  remember (skipn start H) as l eqn:Es.
  assert (Hnth : forall j, nth_error l j = nth_error H (start + j)) by (intro; subst l; apply nth_error_skipn).
  destruct l as [|x r]; cbn [C07.repair_fail].
  { split; [rewrite <- Es; exact I|]. intros -> y Hy. rewrite <- (Hnth 0 : None = nth_error H 0) in Hy. discriminate. }
  assert (H0 : nth_error H start = Some x) by (rewrite <- (Nat.add_0_r start), <- Hnth; reflexivity).
  destruct (Nat.eqb start 0 && negb (repair_genesis_ok c x)) eqn:Eg.
  - apply andb_true_iff in Eg as [E0 Eg]. apply Nat.eqb_eq in E0. apply negb_true_iff in Eg. subst start.
    split; [split; [exact I | intros _ y Hy; discriminate Hy] | left; eauto].
  - assert (G : start = 0 -> genesis_at0 c H).
    { intros -> y Hy. cbn in Eg. apply negb_false_iff in Eg. congruence. }
    pose proof (scan_spec r x (S start)) as Hsc. destruct (scan x (S start) r) as [k|].
    2:{ split; [rewrite <- Es; exact Hsc | exact G]. }
    destruct Hsc as (i & a & b & -> & L & Ha & Hb & Hne).
    rewrite Hnth in Ha. change (nth_error r i) with (nth_error (x :: r) (S i)) in Hb.
    rewrite Hnth, <- plus_n_Sm in Hb. split; [split|].
    + rewrite skipn_firstn_comm, <- Es. replace (S start + i - start) with (S i) by lia. exact L.
    + intros E y Hy. apply (G E y), (nth_error_firstn_some _ _ _ _ Hy).
    + right. split; [lia|]. exists a, b. replace (S start + i - 1) with (start + i) by lia. auto.
Qed.

Lemma repair_hs s start : tight s ->
  chunks (visited_end start (hsize s) (length (io s) / HS) - start) (skipn (HS * start) (io s))
  = skipn start (stored_chain s).
Proof.
  intro T. unfold tight in T. rewrite <- T. rewrite visited_end_tight. unfold stored_chain.
  destruct (Nat.le_gt_cases (hsize s) start) as [H|H].
  - replace (Nat.max start (hsize s) - start) with 0 by lia.
    rewrite (@skipn_all2 _ start (chunks (hsize s) (io s))) by (rewrite chunks_length; lia). reflexivity.
  - replace (Nat.max start (hsize s) - start) with (hsize s - start) by lia.
    rewrite <- chunks_skipn_list. f_equal. f_equal. lia.
Qed.

(* The link scan of repair(), completely: nothing found -- then the stored chain is sound -- or k is the first height
   that fails (k = 0: the genesis test; else the link into k), and the chain is cut at k-1. *)
Lemma links_fail_spec c s start : tight s ->
  let H := stored_chain s in
  match links_fail c s start with
  | None => sound c start H
  | Some k => sound c start (firstn k H) /\ first_fault c start H k
  end.
Proof.
  intro T. cbn zeta. unfold C07.links_fail. rewrite (repair_hs s start T). apply repair_fail_spec.
Qed.

Lemma links_fail_none c s start : tight s -> sound c start (stored_chain s) -> links_fail c s start = None.
Proof.
  intros T S. pose proof (links_fail_spec c s start T) as R. cbn zeta in R.
  destruct (links_fail c s start) as [k|]; [|reflexivity].
  destruct (no_fault c start _ k S). apply R.
Qed.

(* open() up to the link scan *)
Definition load_links (c : cfg) (file : bytes) : st :=
  repair c (mkSt file (length file / HS) []) (open_start c file).

(* a stored chain that links (and starts with the genesis block), cut at ANY byte offset m: exactly the
   m / 112 whole headers are loaded, i.e. only the partial header is lost *)
Theorem open_after_cut_links c hs m :
  Forall (fun x : bytes => length x = HS) hs -> linked hs ->
  (forall x, nth_error hs 0 = Some x -> repair_genesis_ok c x = true) ->
  m <= length (concat hs) ->
  load_links c (firstn m (concat hs)) = mkSt (firstn m (concat hs)) (m / HS) [].
Proof.
  intros Hlen L G Hm. destruct (loaded_cut hs m Hlen Hm) as [E Hs0]. unfold load_links, C07.repair_links.
  rewrite (links_fail_none c (loaded (firstn m (concat hs)))); [exact E | reflexivity|].
  rewrite Hs0. apply sound_firstn. split; [apply linked_skipn, L | intros _; exact G].
Qed.
End Repair.

Section RepairTip.
Variables sha256 sha512 rmd160 : bytes -> bytes.
Local Notation dsha := (dsha sha256).
Local Notation check_header := (check_header sha256 sha512 rmd160).
Local Notation tip_check := (tip_check sha256 sha512 rmd160).
Local Notation load_repair := (load_repair sha256 sha512 rmd160).
Local Notation links_fail := (links_fail sha256).
Local Notation linked := (linked sha256).
Local Notation genesis_at0 := (genesis_at0 sha256).
Local Notation first_fault := (first_fault sha256).
Local Notation sound := (sound sha256).
Local Notation chain_rules := (chain_rules sha256 sha512 rmd160).

(* the last header obeys the rules relative to the two headers below it *)
Definition tip_ok (c : cfg) (H : list bytes) : Prop :=
  match length H with
  | O => True
  | S n => forall x, nth_error H n = Some x -> check_header c (prev2 H n) (prev1 H n) x = None
  end.

Lemma tip_check_spec c s start :
  let H := stored_chain s in
  let n := hsize s in
  let io' := firstn (HS * (n - 1)) (io s) in
  (tip_check c s start = s /\ (Nat.max start 1 < n -> tip_ok c H))
  \/ (Nat.max start 1 < n /\ ~ tip_ok c H /\ tip_check c s start = mkSt io' (length io' / HS) (missing s)).
Proof.
  cbn zeta. unfold C07.tip_check, stored_chain.
  destruct (Nat.leb 1 (hsize s) && Nat.leb (Nat.max start 1) (hsize s - 1)) eqn:E.
  2:{ left. split; [reflexivity|]. intro Hn. apply andb_false_iff in E. rewrite !Nat.leb_gt in E. lia. }
  apply andb_true_iff in E. rewrite !Nat.leb_le in E.
  destruct (hsize s) as [|m]; [lia|]. cbn [Nat.sub] in *. rewrite Nat.sub_0_r in *.
  assert (Tip : tip_ok c (chunks (S m) (io s)) <->
                check_header c (below2 (io s) m) (below1 (io s) m) (read (io s) m) = None).
  { destruct (below_prev (S m) (io s) m) as [-> ->]; [lia|].
    unfold tip_ok. rewrite chunks_length, nth_error_chunks by lia.
    split; [intro H; apply H; reflexivity | intros H x [= <-]; exact H]. }
  destruct (check_header c (below2 (io s) m) (below1 (io s) m) (read (io s) m)); [right | left].
  - split; [lia|]. split; [rewrite Tip; discriminate | reflexivity].
  - split; [reflexivity|]. intros _. apply Tip. reflexivity.
Qed.

(* open(), completely: everything is kept, or the chain is cut at k - 1, where k is the first fault of the link scan
   or, all links holding, the height after the tip and the tip fails validation *)
Lemma load_repair_cases c file :
  let s0 := loaded file in
  let start := open_start c file in
  let H := stored_chain s0 in
  let n := length file / HS in
  (load_repair c file = s0 /\ sound c start H /\ (Nat.max start 1 < n -> tip_ok c H))
  \/ (exists k, k <= n /\ load_repair c file = loaded (firstn (HS * (k - 1)) file) /\ sound c start (firstn k H) /\
        ((k = n /\ Nat.max start 1 < n /\ ~ tip_ok c H) \/ first_fault c start H k)).
Proof.
  cbn zeta.
  assert (E : load_repair c file = repair sha256 sha512 rmd160 c (loaded file) (open_start c file)).
  { unfold C07.load_repair, open_start. destruct (Nat.eqb (length file mod HS) 0); reflexivity. }
  rewrite E. unfold repair, repair_links.
  pose proof (links_fail_spec sha256 c (loaded file) (open_start c file) eq_refl) as L. cbn zeta in L.
  destruct (links_fail c (loaded file) (open_start c file)) as [k|].
  - right. exists k. split; [|split; [reflexivity | tauto]].
    apply Nat.lt_le_incl. rewrite <- (chunks_length (length file / HS) file). apply (fault_lt sha256 c _ _ _ (proj2 L)).
  - destruct (tip_check_spec c (loaded file) (open_start c file)) as [[-> Tip] | (Hlt & Hbad & ->)].
    + left. tauto.
    + right. exists (length file / HS). split; [apply le_n|]. split; [reflexivity|].
      rewrite firstn_all2 by (unfold stored_chain; rewrite chunks_length; apply le_n). tauto.
Qed.

Theorem open_linked_prefix c file :
  let s := load_repair c file in
  let H := chunks (length file / HS) file in
  let start := open_start c file in
  io s = firstn (length (io s)) file /\
  (io s = file \/ length (io s) = HS * hsize s) /\
  tight s /\ hsize s <= length file / HS /\ missing s = [] /\
  stored_chain s = firstn (hsize s) H /\
  linked (skipn start (stored_chain s)) /\
  (start = 0 -> genesis_at0 c (stored_chain s)) /\
  (hsize s = length file / HS -> Nat.max start 1 < hsize s -> tip_ok c (stored_chain s)).
Proof.
  cbn zeta. set (H := chunks (length file / HS) file). set (start := open_start c file).
  assert (LH : length H = length file / HS) by apply chunks_length.
  destruct (load_repair_cases c file) as [(-> & [L G] & Tip) | (k & Hk & -> & S & _)];
    change (stored_chain (loaded file)) with H in *.
  - cbn [loaded io hsize missing]. change (stored_chain (loaded file)) with H.
    rewrite firstn_all, <- LH, firstn_all, LH. repeat split; auto.
  - destruct (loaded_firstn file (HS * (k - 1))) as (C1 & C2 & C3); [apply mul_HS_le; lia|].
    rewrite div_HS in C2, C3. change (stored_chain (loaded file)) with H in C3. rewrite C1, C2, C3.
    destruct (sound_firstn sha256 c start _ (k - 1) S) as [L G]. rewrite firstn_firstn, Nat.min_l in L, G by lia.
    repeat split; auto; lia.
Qed.

Theorem open_drops_from_first_break c file :
  let s := load_repair c file in
  let H := chunks (length file / HS) file in
  let n := length file / HS in
  let start := open_start c file in
  (io s = file /\ hsize s = n /\ (Nat.max start 1 < n -> tip_ok c H))
  \/ (Nat.max start 1 < n /\ ~ tip_ok c H /\ linked (skipn start H) /\
      hsize s = n - 1 /\ io s = firstn (HS * (n - 1)) file)
  \/ (exists k, k < length H /\ hsize s = k - 1 /\ io s = firstn (HS * (k - 1)) file /\
        linked (skipn start (firstn k H)) /\ first_fault c start H k).
Proof.
  cbn zeta. set (H := chunks (length file / HS) file).
  assert (LH : length H = length file / HS) by apply chunks_length.
  destruct (load_repair_cases c file) as [(-> & _ & Tip) | (k & Hk & -> & [L _] & K)]; [left; auto | right].
  change (stored_chain (loaded file)) with H in *.
  destruct (loaded_firstn file (HS * (k - 1))) as (_ & C2 & _); [apply mul_HS_le; lia|].
  rewrite div_HS in C2.
  destruct K as [(-> & Hlt & Hbad) | B]; [left | right; exists k; pose proof (fault_lt _ _ _ _ _ B); auto 6].
  rewrite <- LH, firstn_all in L. auto 6.
Qed.

Lemma chain_rules_sound c hs g start : genesis c = Some g -> chain_rules c hs -> sound c start hs.
Proof.
  intros G R. split.
  - apply linked_skipn, linked_iff. intros i a b Ha Hb.
    specialize (R (S i) b Hb). cbn [prev1] in R. rewrite Ha in R. apply R.
  - intros _ x Hx. specialize (R 0 x Hx). cbn [prev1 prev2 C07.header_rules] in R. rewrite G in R.
    unfold C07.repair_genesis_ok. rewrite G. apply bytes_eqb_eq. exact R.
Qed.

Lemma chain_rules_tip_ok c hs : chain_rules c hs -> tip_ok c hs.
Proof.
  intro R. unfold tip_ok. destruct (length hs) as [|n]; [exact I|].
  intros x Hx. apply check_header_rules. apply (R n x Hx).
Qed.

Theorem open_after_cut c hs m g :
  genesis c = Some g ->
  Forall (fun x : bytes => length x = HS) hs -> chain_rules c hs ->
  m <= length (concat hs) ->
  load_repair c (firstn m (concat hs)) = mkSt (firstn m (concat hs)) (m / HS) [].
Proof.
  intros G Hlen R Hm. destruct (loaded_cut hs m Hlen Hm) as [E Hs0].
  pose proof (chain_rules_firstn _ _ _ c (m / HS) hs R) as R'.
  destruct (load_repair_cases c (firstn m (concat hs))) as [(-> & _) | (k & _ & _ & _ & [(_ & _ & Hbad) | B])];
    rewrite ?Hs0 in *.
  - exact E.
  - destruct Hbad. apply chain_rules_tip_ok, R'.
  - destruct (no_fault sha256 c _ _ k (chain_rules_sound c _ g _ G R') B).
Qed.

Theorem restart_after_cut_keeps_rules c hs m g :
  genesis c = Some g ->
  Forall (fun x : bytes => length x = HS) hs -> chain_rules c hs ->
  m <= length (concat hs) ->
  let s := load_repair c (firstn m (concat hs)) in
  hsize s = m / HS /\ io s = firstn m (concat hs) /\
  stored_chain s = firstn (m / HS) hs /\ chain_rules c (stored_chain s).
Proof.
  intros G Hlen R Hm. cbn zeta. rewrite (open_after_cut c hs m g G Hlen R Hm).
  destruct (loaded_cut hs m Hlen Hm) as [E Hs0]. rewrite E in Hs0. rewrite Hs0. auto using chain_rules_firstn.
Qed.

Theorem close_reopen_exact c s f hs g :
  genesis c = Some g ->
  io s = concat hs -> Forall (fun x : bytes => length x = HS) hs -> chain_rules c hs ->
  hclose s f = io s /\
  load_repair c (hclose s f) = mkSt (io s) (length hs) [].
Proof.
  intros G Hio Hlen R. split; [reflexivity|]. unfold hclose. rewrite Hio.
  pose proof (open_after_cut c hs (length (concat hs)) g G Hlen R (le_n _)) as H.
  rewrite firstn_all, (proj1 (concat_aligned c hs Hlen)) in H. exact H.
Qed.

Theorem open_after_single_damage c hs d x' :
  Forall (fun x : bytes => length x = HS) hs -> linked hs -> length x' = HS -> genesis_at0 c hs ->
  repair_start c < d -> d < length hs ->
  ((forall p, nth_error hs (d - 1) = Some p -> h_prev x' <> dsha p)
   \/ (exists y, nth_error hs (S d) = Some y /\ h_prev y <> dsha x')) ->
  let s := load_repair c (concat (replace_nth d x' hs)) in
  (hsize s = d - 1 \/ hsize s = d) /\ io s = firstn (HS * hsize s) (concat hs).
Proof.
  intros Hlen L Lx Gen Hsd Hd Det. cbn zeta. set (hs' := replace_nth d x' hs).
  assert (Hlen' : Forall (fun x : bytes => length x = HS) hs') by (apply replace_nth_Forall; assumption).
  destruct (concat_aligned c hs' Hlen') as (Hdiv & Hst & HH).
  (* below d the damaged chain is the good one, so it has no fault there *)
  assert (Sd : sound c (repair_start c) (firstn d hs')).
  { unfold hs'. rewrite replace_nth_firstn by lia. apply sound_firstn. split; [apply linked_skipn, L | intros _; exact Gen]. }
  (* and the damage shows as a fault at d or d + 1 *)
  assert (F : exists j, j <= S d /\ first_fault c (repair_start c) hs' j).
  { destruct d as [|d']; [lia|]. cbn [Nat.sub] in Det. rewrite Nat.sub_0_r in Det. unfold hs'.
    destruct Det as [D1 | (y & Hy & D2)].
    - destruct (nth_error hs d') as [p|] eqn:Ep; [|apply nth_error_None in Ep; lia].
      exists (S d'). split; [lia|]. right. split; [lia|]. exists p, x'. cbn [Nat.sub]. rewrite Nat.sub_0_r.
      rewrite replace_nth_lt, replace_nth_eq by lia. auto.
    - exists (S (S d')). split; [lia|]. right. split; [lia|]. exists x', y. cbn [Nat.sub].
      rewrite replace_nth_eq, replace_nth_gt by lia. auto. }
  destruct F as (j & Hj & F). pose proof (fault_lt _ _ _ _ _ F) as Hjn.
  destruct (load_repair_cases c (concat hs')) as [(_ & S & _) | (k & _ & -> & S & K)]; rewrite Hst, HH, ?Hdiv in *.
  { destruct (no_fault sha256 c _ _ j S F). }
  pose proof (sound_before_fault sha256 c _ _ k j S F) as Hkj.
  destruct K as [(-> & _) | B]; [lia|].
  pose proof (sound_before_fault sha256 c _ _ d k Sd B) as Hdk.
  rewrite cut_concat by (exact Hlen' || lia). cbn [io hsize]. split; [lia|].
  unfold hs'. rewrite (firstn_concat hs Hlen), replace_nth_firstn by lia. reflexivity.
Qed.

Theorem open_after_tip_damage c hs x' g n :
  genesis c = Some g ->
  Forall (fun x : bytes => length x = HS) hs -> chain_rules c hs -> length x' = HS ->
  length hs = S n -> Nat.max (repair_start c) 1 <= n ->
  (forall p, nth_error hs (n - 1) = Some p -> h_prev x' = dsha p) ->
  check_header c (prev2 hs n) (prev1 hs n) x' <> None ->
  load_repair c (concat (firstn n hs ++ [x'])) = mkSt (concat (firstn n hs)) n [].
Proof.
  intros G Hlen R Lx Ln Hst Hlink Hbad.
  replace (firstn n hs ++ [x']) with (replace_nth n x' hs) by (unfold replace_nth; rewrite skipn_all2 by lia; reflexivity).
  set (hs' := replace_nth n x' hs).
  assert (Hlen' : Forall (fun x : bytes => length x = HS) hs') by (apply replace_nth_Forall; assumption).
  assert (Ll : length hs' = S n) by (rewrite <- Ln; apply replace_nth_length; lia).
  destruct (concat_aligned c hs' Hlen') as (Hdiv & Hst' & HH).
  assert (Hlt : forall i, i < n -> nth_error hs' i = nth_error hs i) by (intros; apply replace_nth_lt; lia).
  assert (Hn' : nth_error hs' n = Some x') by (apply replace_nth_eq; lia).
  destruct (load_repair_cases c (concat hs')) as [(_ & _ & Tip) | (k & _ & -> & _ & [(-> & _) | B])];
    rewrite ?Hst', ?HH, ?Hdiv, ?Ll in *.
  - destruct Hbad. specialize (Tip ltac:(lia)). unfold tip_ok in Tip. rewrite Ll in Tip. specialize (Tip x' Hn').
    destruct n as [|[|j]]; cbn [prev1 prev2] in *; rewrite ?Hlt in Tip by lia; exact Tip.
  - rewrite cut_concat by (exact Hlen' || lia). replace (S n - 1) with n by lia.
    unfold hs'. rewrite replace_nth_firstn by lia. reflexivity.
  - exfalso.
    (* below n the chain is the good one, so the fault is the link into the tip, which holds *)
    assert (Hnk : n <= k).
    { apply (sound_before_fault sha256 c (repair_start c) hs' n k); [|exact B].
      unfold hs'. rewrite replace_nth_firstn by lia. apply sound_firstn, (chain_rules_sound c hs g _ G R). }
    pose proof (fault_lt _ _ _ _ _ B) as Hk. rewrite Ll in Hk. replace k with n in B by lia.
    destruct B as [(-> & _) | (_ & x & y & Hx & Hy & Hne)]; [lia|].
    rewrite Hlt in Hx by lia. rewrite Hn' in Hy. injection Hy as <-. exact (Hne (Hlink x Hx)).
Qed.
End RepairTip.

Section OpenMissing.
Variables sha256 sha512 rmd160 : bytes -> bytes.

Lemma load_repair_missing c file : missing (load_repair sha256 sha512 rmd160 c file) = [].
Proof. destruct (open_linked_prefix sha256 sha512 rmd160 c file) as (_ & _ & _ & _ & H & _). exact H. Qed.

Lemma ensure_missing c s : missing (ensure_checkpointed_size c s) = missing s.
Proof.
  unfold ensure_checkpointed_size. destruct (max_key (checkpoints c)); [|reflexivity].
  destruct (Nat.leb (hsize s) n); reflexivity.
Qed.

Theorem open_missing_exact c file h e :
  In (h, e) (checkpoints c) ->
  let s := hopen sha256 sha512 rmd160 c file in
  In h (missing s) \/ dsha sha256 (read_n (io s) h CHUNK) = e.
Proof.
  intro Hin. cbn zeta. unfold hopen, get_all_missing. cbn [io missing].
  set (s1 := ensure_checkpointed_size c (load_repair sha256 sha512 rmd160 c file)).
  assert (Hm : missing s1 = []) by (unfold s1; rewrite ensure_missing; apply load_repair_missing).
  rewrite Hm. cbn [app existsb negb andb].
  destruct (bytes_eqb (dsha sha256 (read_n (io s1) h CHUNK)) e) eqn:E.
  - right. apply bytes_eqb_eq. exact E.
  - left. apply in_map_iff. exists (h, e). split; [reflexivity|].
    apply filter_In. split; [exact Hin|]. cbn [fst snd]. rewrite E. reflexivity.
Qed.

Theorem missing_not_served c s height :
  (exists e, lookup (chunk_start height) (checkpoints c) = Some e) ->
  In (chunk_start height) (missing s) -> has_header sha256 c s height = false.
Proof.
  intros [e He] Hin. unfold has_header. rewrite He.
  apply negb_false_iff. apply existsb_exists. exists (chunk_start height). split; [exact Hin | apply Nat.eqb_refl].
Qed.
End OpenMissing.

Section Checkpoints.
Variable sha256 : bytes -> bytes.
Local Notation dsha := (dsha sha256).

Theorem checkpoint_only c s height chunk s' r :
  fetch_chunk sha256 c s height chunk = (s', r) ->
  (r = FStored <-> lookup (chunk_start height) (checkpoints c) = Some (dsha chunk)) /\
  (r <> FStored -> s' = s) /\
  (r = FStored -> io s' = write_at (HS * chunk_start height) chunk (io s)).
Proof.
  unfold fetch_chunk. destruct (lookup (chunk_start height) (checkpoints c)) as [e|].
  - destruct (bytes_eqb (dsha chunk) e) eqn:Eb.
    + intro H. apply pair_equal_spec in H. destruct H as [<- <-].
      apply bytes_eqb_eq in Eb. subst e. split; [tauto|]. split; [congruence|]. intros _. reflexivity.
    + intros [= <- <-]. apply bytes_eqb_neq in Eb. repeat split; congruence.
  - intros [= <- <-]. repeat split; congruence.
Qed.

Theorem ensure_chunk_only c s height chunk s' r :
  ensure_chunk_at sha256 c s height chunk = (s', r) ->
  s' <> s -> lookup (chunk_start height) (checkpoints c) = Some (dsha chunk).
Proof.
  unfold ensure_chunk_at. destruct (has_header sha256 c s height); [congruence|].
  intros H Hne. destruct (checkpoint_only c s height chunk s' r H) as (H1 & H2 & _).
  apply H1. destruct r; try reflexivity; exfalso; apply Hne, H2; discriminate.
Qed.

Theorem lookup_only c s height chunk s' r l :
  lookup_header sha256 c s height chunk = (s', r, l) ->
  s' <> s -> lookup (chunk_start height) (checkpoints c) = Some (dsha chunk).
Proof.
  unfold lookup_header. destruct (ensure_chunk_at sha256 c s height chunk) as [s1 r1] eqn:E.
  intros H Hne. apply (ensure_chunk_only c s height chunk s1 r1 E).
  destruct r1; try destruct (Nat.ltb height (hsize s1)); congruence.
Qed.

Lemma lookup_unchanged c s height chunk :
  lookup (chunk_start height) (checkpoints c) = None ->
  fst (fst (lookup_header sha256 c s height chunk)) = s.
Proof.
  intro Hn. unfold lookup_header, ensure_chunk_at, fetch_chunk. rewrite Hn.
  destruct (has_header sha256 c s height); destruct (Nat.ltb height (hsize s)); reflexivity.
Qed.
End Checkpoints.

Section Lookups.
Variables sha256 sha512 rmd160 : bytes -> bytes.

(* histories that mix connect calls with lookups in ranges that have no checkpoint *)
Inductive hop := OConnect (start : nat) (batch : bytes) | OLookup (height : nat) (chunk : bytes).

Definition hstep (c : cfg) (s : st) (op : hop) : st :=
  match op with
  | OConnect start batch => fst (connect sha256 sha512 rmd160 c s start batch)
  | OLookup height chunk => fst (fst (lookup_header sha256 c s height chunk))
  end.

Definition lookups_uncheckpointed (c : cfg) (ops : list hop) : Prop :=
  forall h ch, In (OLookup h ch) ops -> lookup (chunk_start h) (checkpoints c) = None.

Theorem chain_invariant_lookups c ops : forall s,
  lookups_uncheckpointed c ops ->
  wf s -> chain_rules sha256 sha512 rmd160 c (stored_chain s) ->
  let s' := fold_left (hstep c) ops s in
  wf s' /\ chain_rules sha256 sha512 rmd160 c (stored_chain s').
Proof.
  intros s Hu W R. cbn zeta. apply cinv_rules.
  apply (fold_left_inv_In (cinv sha256 sha512 rmd160 c)); [|apply cinv_rules; auto].
  intros t op Hin C. destruct op as [start batch | height chunk]; cbn [hstep]; [apply connect_inv, C|].
  rewrite lookup_unchanged; [exact C|]. apply (Hu height chunk Hin).
Qed.
End Lookups.

Section Compact.
Local Open Scope N_scope.

Lemma pow2_nz k : 2 ^ k <> 0.
Proof. apply N.pow_nonzero. lia. Qed.

Lemma size_le_pow2 v n : v < 2 ^ n -> N.size v <= n.
Proof.
  intro H. destruct (N.eq_dec v 0) as [->|Hz]; [apply N.le_0_l|].
  rewrite N.size_log2 by exact Hz. apply N.le_succ_l, N.log2_lt_pow2; [lia | exact H].
Qed.

Lemma testbit_small c n : c < 2 ^ n -> N.testbit c n = false.
Proof. intro H. apply N.testbit_false. rewrite N.div_small by exact H. reflexivity. Qed.

Lemma shiftr_shiftl_same q n : N.shiftr (N.shiftl q n) n = q.
Proof. rewrite N.shiftr_shiftl_l, N.sub_diag by apply N.le_refl. apply N.shiftl_0_r. Qed.

Lemma clear_low_bounds v n : let w := N.shiftl (N.shiftr v n) n in w <= v < w + 2 ^ n.
Proof.
  cbn zeta. rewrite N.shiftl_mul_pow2, N.shiftr_div_pow2.
  pose proof (N.div_mod v (2 ^ n) (pow2_nz n)). pose proof (N.mod_lt v (2 ^ n) (pow2_nz n)).
  generalize dependent (v / 2 ^ n). generalize dependent (v mod 2 ^ n). generalize (2 ^ n). intros. lia.
Qed.

Lemma size_clear_low v n : n < N.log2 v -> N.size (N.shiftl (N.shiftr v n) n) = N.size v.
Proof.
  intro H. pose proof (N.log2_shiftr v n) as L.
  assert (Q : N.shiftr v n <> 0) by (intro E; rewrite E in L; cbn in L; lia).
  assert (V : v <> 0) by (intros ->; cbn in H; lia).
  rewrite !N.size_log2, N.log2_shiftl, L by (rewrite ?N.shiftl_eq_0_iff; assumption).
  f_equal. lia.
Qed.

Lemma csize_bounds v : N.size v + 1 <= 8 * csize v <= N.max 1 (N.size v) + 8.
Proof. unfold csize, py_bits, bin_len. lia. Qed.

(* the value fits in 8*size - 1 bits: the compact mantissa never reaches the sign bit *)
Lemma size_bound v : v < 2 ^ (8 * csize v - 1).
Proof.
  apply N.lt_le_trans with (2 ^ N.size v); [apply N.size_gt|].
  apply N.pow_le_mono_r; [lia|]. pose proof (csize_bounds v). lia.
Qed.

Definition mantissa (v : N) : N :=
  if csize v <=? 3 then v * 2 ^ (8 * (3 - csize v)) else v / 2 ^ (8 * (csize v - 3)).

Lemma mantissa_lt v : mantissa v < 2 ^ 23.
Proof.
  unfold mantissa. pose proof (size_bound v) as B. pose proof (csize_bounds v) as G.
  destruct (N.leb_spec (csize v) 3) as [E|E].
  - replace 23 with (8 * csize v - 1 + 8 * (3 - csize v)) by lia. rewrite N.pow_add_r.
    apply N.mul_lt_mono_pos_r; [apply N.neq_0_lt_0, pow2_nz | exact B].
  - apply N.div_lt_upper_bound; [apply pow2_nz|].
    rewrite <- N.pow_add_r. replace (8 * (csize v - 3) + 23) with (8 * csize v - 1) by lia. exact B.
Qed.

Lemma compact_raw_spec v : compact_raw v = (mantissa v, csize v).
Proof.
  unfold compact_raw.
  assert (Hc : (if csize v <=? 3 then N.shiftl (low64 v) (8 * (3 - csize v))
                else low64 (N.shiftr v (8 * (csize v - 3)))) = mantissa v).
  { pose proof (mantissa_lt v) as M. unfold mantissa in *. unfold low64.
    destruct (N.leb_spec (csize v) 3) as [E|E].
    - rewrite N.shiftl_mul_pow2. f_equal. apply N.mod_small.
      apply N.lt_le_trans with (2 ^ (8 * csize v - 1)); [apply size_bound|].
      apply N.pow_le_mono_r; lia.
    - rewrite N.shiftr_div_pow2. apply N.mod_small.
      apply N.lt_trans with (2 ^ 23); [exact M | reflexivity]. }
  rewrite Hc, (testbit_small _ _ (mantissa_lt v)). reflexivity.
Qed.

Lemma compact_lor v : compact v = N.lor (mantissa v) (N.shiftl (csize v) 24).
Proof. unfold compact. rewrite compact_raw_spec. reflexivity. Qed.

(* the two fields from_compact reads back *)
Lemma lor_parts c S : c < 2 ^ 23 ->
  N.shiftr (N.lor c (N.shiftl S 24)) 24 = S /\ N.land (N.lor c (N.shiftl S 24)) 8388607 = c.
Proof.
  intro H. split.
  - rewrite N.shiftr_lor, shiftr_shiftl_same, N.shiftr_div_pow2, N.div_small; [apply N.lor_0_l|].
    apply N.lt_trans with (2 ^ 23); [exact H | reflexivity].
  - change 8388607 with (N.ones 23). rewrite N.land_lor_distr_l, !N.land_ones, N.mod_small by exact H.
    rewrite N.shiftl_mul_pow2. change (2 ^ 24) with (2 * 2 ^ 23). rewrite N.mul_assoc, N.mod_mul by apply pow2_nz.
    apply N.lor_0_r.
Qed.

Lemma compact_fields v :
  N.testbit (compact v) 23 = false /\ N.land (compact v) 8388607 < 2 ^ 23 /\ N.shiftr (compact v) 24 = csize v.
Proof.
  pose proof (mantissa_lt v) as M. destruct (lor_parts _ (csize v) M) as [P1 P2].
  rewrite compact_lor, P1, P2, N.lor_spec, (testbit_small _ _ M), N.shiftl_spec_low by reflexivity. auto.
Qed.

Definition cshift (v : N) : N := 8 * (csize v - 3).

Lemma from_compact_compact v : from_compact (compact v) = N.shiftl (N.shiftr v (cshift v)) (cshift v).
Proof.
  rewrite compact_lor. unfold from_compact.
  destruct (lor_parts (mantissa v) (csize v) (mantissa_lt v)) as [-> ->].
  unfold mantissa, cshift. destruct (N.leb_spec (csize v) 3) as [E|E].
  - replace (csize v - 3) with 0 by lia. rewrite N.shiftr_0_r, N.shiftl_0_r.
    rewrite N.shiftr_div_pow2. apply N.div_mul, pow2_nz.
  - rewrite N.shiftr_div_pow2. reflexivity.
Qed.

Lemma from_compact_small v : csize v <= 3 -> from_compact (compact v) = v.
Proof.
  intro H. rewrite from_compact_compact. unfold cshift. replace (csize v - 3) with 0 by lia.
  rewrite N.shiftr_0_r. apply N.shiftl_0_r.
Qed.

Lemma compact_stable v : compact (from_compact (compact v)) = compact v.
Proof.
  destruct (N.le_gt_cases (csize v) 3) as [E|E]; [rewrite from_compact_small by exact E; reflexivity|].
  rewrite from_compact_compact.
  (* more than three bytes: at least 16 bits stay, so the bit length is unchanged *)
  assert (Hs : N.size (N.shiftl (N.shiftr v (cshift v)) (cshift v)) = N.size v).
  { apply size_clear_low. pose proof (csize_bounds v) as B. unfold cshift.
    assert (v <> 0) by (intros ->; change (N.size 0) with 0 in B; lia). rewrite N.size_log2 in B by assumption. lia. }
  assert (Hc : csize (N.shiftl (N.shiftr v (cshift v)) (cshift v)) = csize v).
  { unfold csize, py_bits, bin_len. rewrite Hs. reflexivity. }
  rewrite !compact_lor, Hc. f_equal. unfold mantissa. rewrite Hc.
  destruct (N.leb_spec (csize v) 3) as [E'|_]; [lia|]. fold (cshift v).
  rewrite <- !N.shiftr_div_pow2. apply shiftr_shiftl_same.
Qed.

Lemma compact_fits v : v < 2 ^ 256 -> compact_asserts v = true /\ compact v < 2 ^ 32.
Proof.
  intro Hv. pose proof (mantissa_lt v) as M.
  assert (Hs : csize v <= 33).
  { pose proof (size_le_pow2 v 256 Hv). pose proof (csize_bounds v). lia. }
  split.
  - unfold compact_asserts. rewrite compact_raw_spec.
    apply andb_true_iff. split; apply N.ltb_lt; [exact M | lia].
  - pose proof (N.mul_succ_div_gt (compact v) (2 ^ 24) (pow2_nz 24)) as H.
    rewrite <- N.shiftr_div_pow2, (proj2 (proj2 (compact_fields v))) in H.
    apply N.lt_le_trans with (1 := H). change (2 ^ 32) with (2 ^ 24 * 256).
    apply N.mul_le_mono_l. lia.
Qed.

Theorem compact_facts v :
  N.testbit (compact v) 23 = false /\
  N.land (compact v) 8388607 < 2 ^ 23 /\ N.shiftr (compact v) 24 = csize v /\
  from_compact (compact v) = N.shiftl (N.shiftr v (cshift v)) (cshift v) /\
  from_compact (compact v) <= v /\
  v < from_compact (compact v) + 2 ^ cshift v /\
  N.shiftr (from_compact (compact v)) (cshift v) = N.shiftr v (cshift v) /\
  (v < 2 ^ 23 -> from_compact (compact v) = v) /\
  compact (from_compact (compact v)) = compact v /\
  (v < 2 ^ 256 -> compact_asserts v = true /\ compact v < 2 ^ 32).
Proof.
  destruct (compact_fields v) as (F1 & F2 & F3). destruct (clear_low_bounds v (cshift v)) as [B1 B2].
  repeat apply conj; try assumption.
  - apply from_compact_compact.
  - rewrite from_compact_compact. exact B1.
  - rewrite from_compact_compact. exact B2.
  - rewrite from_compact_compact. apply shiftr_shiftl_same.
  - intro Hv. apply from_compact_small.
    pose proof (size_le_pow2 v 23 Hv). pose proof (csize_bounds v). lia.
  - apply compact_stable.
  - apply compact_fits.
Qed.
End Compact.

Section Division.
Local Open Scope N_scope.
(* the two steps of div_round53: the binary exponent of a/b, and num/den rounded half to even *)
Definition fexp (a b : N) : Z :=
  let d := (Z.of_N (N.size a) - Z.of_N (N.size b))%Z in
  if if (0 <=? d)%Z then N.shiftl b (Z.to_N d) <=? a else b <=? N.shiftl a (Z.to_N (- d))
  then d else (d - 1)%Z.

Definition round_even (num den : N) : N :=
  let q := num / den in
  let r := num mod den in
  if den <? 2 * r then q + 1 else if 2 * r =? den then (if N.odd q then q + 1 else q) else q.

Lemma div_round53_eq a b : a <> 0 -> b <> 0 ->
  div_round53 a b =
  let sh := (52 - fexp a b)%Z in
  if (0 <=? sh)%Z then N.shiftr (round_even (N.shiftl a (Z.to_N sh)) b) (Z.to_N sh)
  else N.shiftl (round_even a (N.shiftl b (Z.to_N (- sh)))) (Z.to_N (- sh)).
Proof.
  intros Ha Hb. unfold div_round53. rewrite (proj2 (N.eqb_neq a 0) Ha), (proj2 (N.eqb_neq b 0) Hb). cbv zeta.
  (* E with fexp unfolded is the model's sign test; `fold (fexp a b)` on the goal is slow *)
  destruct (0 <=? 52 - fexp a b)%Z eqn:E; unfold fexp in E; cbv zeta in E; rewrite E; reflexivity.
Qed.

Lemma round_even_exact q den : den <> 0 -> round_even (q * den) den = q.
Proof.
  intro H. unfold round_even. rewrite N.div_mul, N.mod_mul by exact H.
  destruct den; [congruence | reflexivity].
Qed.

Lemma fexp_mul b k : 0 < b -> k <> 0 -> fexp (b * k) b = Z.of_N (N.log2 k).
Proof.
  intros Hb Hk. unfold fexp. destruct (N.log2_spec k) as [Hlo Hhi]; [lia|].
  assert (Hs : N.size (b * k) = N.size b + N.log2 k \/ N.size (b * k) = N.size b + N.succ (N.log2 k)).
  { rewrite !N.size_log2 by lia.
    pose proof (N.log2_mul_below b k). pose proof (N.log2_mul_above b k). lia. }
  destruct Hs as [-> | ->]; rewrite N2Z.inj_add, Z.add_simpl_l, (proj2 (Z.leb_le 0 _)) by apply N2Z.is_nonneg;
    rewrite N2Z.id, N.shiftl_mul_pow2.
  - rewrite (proj2 (N.leb_le _ _)); [reflexivity|]. apply N.mul_le_mono_l, Hlo.
  - rewrite (proj2 (N.leb_gt _ _)); [lia|]. apply N.mul_lt_mono_pos_l; assumption.
Qed.

Theorem div_round53_exact b k : 0 < b -> k mod 2 ^ (N.log2 k - 52) = 0 -> div_round53 (b * k) b = k.
Proof.
  intros Hb Hk. destruct (N.eq_dec k 0) as [->|Hk0]; [rewrite N.mul_0_r; reflexivity|].
  rewrite div_round53_eq, fexp_mul by lia. cbn zeta.
  destruct (N.le_gt_cases (N.log2 k) 52) as [HL|HL].
  - rewrite (proj2 (Z.leb_le 0 _)) by lia. replace (Z.to_N _) with (52 - N.log2 k) by lia.
    rewrite N.shiftl_mul_pow2, (N.mul_comm b), N.mul_shuffle0. rewrite round_even_exact by lia.
    rewrite N.shiftr_div_pow2. apply N.div_mul, pow2_nz.
  - rewrite (proj2 (Z.leb_gt 0 _)) by lia. replace (Z.to_N _) with (N.log2 k - 52) by lia.
    set (t := N.log2 k - 52) in *. apply N.div_exact in Hk; [|apply pow2_nz].
    set (k1 := k / 2 ^ t) in Hk. rewrite !N.shiftl_mul_pow2, Hk.
    replace (b * (2 ^ t * k1)) with (k1 * (b * 2 ^ t)) by lia.
    rewrite round_even_exact; [apply N.mul_comm|].
    apply N.neq_mul_0. split; [lia | apply pow2_nz].
Qed.

Lemma sig53_mul_pow2 w s : w < 2 ^ 53 -> (w * 2 ^ s) mod 2 ^ (N.log2 (w * 2 ^ s) - 52) = 0.
Proof.
  intro H. destruct (N.eq_dec w 0) as [->|Hz]; [apply N.mod_0_l, pow2_nz|].
  rewrite N.log2_mul_pow2 by lia.
  assert (N.log2 w < 53) by (apply N.log2_lt_pow2; [lia | exact H]).
  set (u := s + N.log2 w - 52).
  replace (2 ^ s) with (2 ^ (s - u) * 2 ^ u) by (rewrite <- N.pow_add_r; f_equal; lia).
  rewrite N.mul_assoc. apply N.mod_mul, pow2_nz.
Qed.

Lemma from_compact_53 c : from_compact c mod 2 ^ (N.log2 (from_compact c) - 52) = 0.
Proof.
  unfold from_compact. set (word := N.land c 8388607).
  assert (Hw : word < 2 ^ 53).
  { apply N.lt_trans with (2 ^ 23); [|reflexivity].
    unfold word. change 8388607 with (N.ones 23). rewrite N.land_ones. apply N.mod_lt, pow2_nz. }
  destruct (_ <=? 3).
  - rewrite <- (N.mul_1_r (N.shiftr _ _)). apply (sig53_mul_pow2 _ 0).
    apply N.le_lt_trans with word; [|exact Hw]. rewrite N.shiftr_div_pow2.
    apply N.div_le_upper_bound; [apply pow2_nz|]. pose proof (pow2_nz (8 * (3 - N.shiftr c 24))). nia.
  - rewrite N.shiftl_mul_pow2. apply sig53_mul_pow2, Hw.
Qed.

Theorem retarget_on_schedule mt pp cur :
  let prev := match pp with Some x => x | None => cur end in
  (Z.of_N (h_time cur) - Z.of_N (h_time prev) = 150)%Z ->
  from_compact (h_bits cur) * 150 < 2 ^ 256 ->
  next_target mt pp (Some cur) = N.min mt (from_compact (h_bits cur)).
Proof.
  cbn zeta. intros Ht Hsmall. unfold next_target. rewrite Ht. unfold TIMESPAN.
  change (Z.max (150 - Z.quot 150 8) (Z.min (150 + Z.quot (150 - 150) 8) (150 + Z.quot 150 2))) with 150%Z.
  change (Z.to_N 150) with 150.
  rewrite N.mod_small by exact Hsmall.
  rewrite (N.mul_comm (from_compact (h_bits cur)) 150).
  rewrite div_round53_exact; [reflexivity | lia | apply from_compact_53].
Qed.
End Division.

Lemma next_target_le mt pp p : (next_target mt pp p <= mt)%N.
Proof. unfold next_target. destruct p; [apply N.le_min_l | apply N.le_refl]. Qed.

Theorem validation_never_asserts mt pp p : (mt < 2 ^ 256)%N ->
  compact_asserts (next_target mt pp p) = true /\ (compact (next_target mt pp p) < 2 ^ 32)%N.
Proof. intro H. apply compact_fits. exact (N.le_lt_trans _ _ _ (next_target_le mt pp p) H). Qed.

Section PowTarget.
Variables sha256 sha512 rmd160 : bytes -> bytes.

Theorem accepted_meets_bits_target c pp pr x :
  validate_difficulty c = true ->
  header_rules sha256 sha512 rmd160 c pp (Some pr) x ->
  let t := next_target (max_target c) pp (Some pr) in
  h_bits x = compact t /\
  (pow_value sha256 sha512 rmd160 x <= from_compact (h_bits x))%N /\
  from_compact (h_bits x) = N.shiftl (N.shiftr t (cshift t)) (cshift t) /\
  (pow_value sha256 sha512 rmd160 x <= t)%N.
Proof.
  intros Hv [_ H]. destruct (H Hv) as [Hb Hp]. cbn zeta.
  pose proof (from_compact_compact (next_target (max_target c) pp (Some pr))) as F.
  split; [exact Hb|]. split; [exact Hp|]. rewrite Hb in *. split; [exact F|].
  apply N.le_trans with (1 := Hp). rewrite F. apply clear_low_bounds.
Qed.
End PowTarget.

Section Codec.
Lemma slice_split off len (r : bytes) : skipn off r = slice off len r ++ skipn (off + len) r.
Proof. unfold slice. rewrite (Nat.add_comm off len), <- skipn_skipn. symmetry. apply firstn_skipn. Qed.

Lemma header_split r : length r = 112 ->
  r = slice 0 4 r ++ slice 4 32 r ++ slice 36 32 r ++ slice 68 32 r ++ slice 100 4 r ++ slice 104 4 r ++ slice 108 4 r.
Proof.
  intro L. rewrite <- (skipn_O r) at 1.
  rewrite (slice_split 0 4), (slice_split 4 32), (slice_split 36 32), (slice_split 68 32), (slice_split 100 4),
    (slice_split 104 4), (slice_split 108 4), (skipn_all2 (n := 108 + 4)), app_nil_r by (rewrite L; apply le_n).
  reflexivity.
Qed.

Lemma slice_length off len (r : bytes) : off + len <= length r -> length (slice off len r) = len.
Proof. intro H. unfold slice. rewrite firstn_length, skipn_length. lia. Qed.

Lemma le4 off (r : bytes) : off + 4 <= length r ->
  (le_decode (slice off 4 r) <? 2 ^ 32)%N = true /\ le_encode 4 (le_decode (slice off 4 r)) = slice off 4 r.
Proof.
  intro H. apply slice_length in H. split.
  - apply N.ltb_lt. pose proof (le_decode_lt (slice off 4 r)) as B. rewrite H in B. exact B.
  - rewrite <- H at 1. apply le_encode_decode.
Qed.

Theorem codec_bytes r : length r = HS ->
  exists h, deserialize r = Some h /\ serialize h = Some r.
Proof.
  unfold HS. intro L. unfold deserialize. rewrite L. unfold HS. cbn [Nat.ltb Nat.leb].
  eexists. split; [reflexivity|]. unfold serialize. cbn [version timestamp bits nonce prev_block_hash merkle_root claim_trie_root].
  unfold h_version, h_time, h_bits, h_nonce, h_prev, h_merkle, h_claim.
  destruct (le4 0 r) as [-> ->]; [lia|]. destruct (le4 100 r) as [-> ->]; [lia|].
  destruct (le4 104 r) as [-> ->]; [lia|]. destruct (le4 108 r) as [-> ->]; [lia|].
  cbn [andb]. rewrite !rev_involutive. f_equal. symmetry. apply header_split. exact L.
Qed.

Theorem codec_header h :
  (version h < 2 ^ 32)%N -> (timestamp h < 2 ^ 32)%N -> (bits h < 2 ^ 32)%N -> (nonce h < 2 ^ 32)%N ->
  length (prev_block_hash h) = 32 -> length (merkle_root h) = 32 -> length (claim_trie_root h) = 32 ->
  exists r, serialize h = Some r /\ length r = HS /\ deserialize r = Some h.
Proof.
  intros V T B N P M C. unfold serialize.
  apply N.ltb_lt in V as V', T as T', B as B', N as N'. rewrite V', T', B', N'. cbn [andb].
  eexists. split; [reflexivity|]. set (r := _ ++ _).
  assert (LL : length r = 112).
  { unfold r. rewrite !app_length, !rev_length, !le_encode_length, P, M, C. reflexivity. }
  split; [exact LL|]. unfold deserialize. rewrite LL. unfold HS. cbn [Nat.ltb Nat.leb].
  (* r splits into fields of these lengths in one way only: each field is the slice at its offset *)
  pose proof (header_split r LL) as S. unfold r at 1 in S.
  assert (Len : forall off len (a : bytes), length a = len -> off + len <= 112 -> length a = length (slice off len r)).
  { intros off len a La Hl. rewrite slice_length by lia. exact La. }
  apply app_inv_len in S as [E1 S]; [|apply Len; [apply le_encode_length | lia]].
  apply app_inv_len in S as [E2 S]; [|apply Len; [rewrite rev_length; exact P | lia]].
  apply app_inv_len in S as [E3 S]; [|apply Len; [rewrite rev_length; exact M | lia]].
  apply app_inv_len in S as [E4 S]; [|apply Len; [rewrite rev_length; exact C | lia]].
  apply app_inv_len in S as [E5 S]; [|apply Len; [apply le_encode_length | lia]].
  apply app_inv_len in S as [E6 E7]; [|apply Len; [apply le_encode_length | lia]].
  unfold h_version, h_time, h_bits, h_nonce, h_prev, h_merkle, h_claim.
  rewrite <- E1, <- E2, <- E3, <- E4, <- E5, <- E6, <- E7, !rev_involutive, !le_decode_encode by assumption.
  destruct h; reflexivity.
Qed.
End Codec.

Section Refuted.
(* a toy hash is enough to exhibit the shape: "hash" = the first 32 bytes *)
Definition toy (x : bytes) : bytes := firstn 32 x.
Definition toy_header (v : byte) (prev : bytes) : bytes := [v; x00; x00; x00] ++ prev ++ repeat x00 76.

(* connect before fix 64a9e0b: _write only -- no truncation, _size = max(old, end) *)
Definition connect_old (sha256 sha512 rmd160 : bytes -> bytes) (c : cfg) (s : st) (start : nat) (batch : bytes)
  : st * cres :=
  if negb (Nat.eqb (Nat.modulo (length batch) HS) 0) then (s, CAssertion)
  else if Nat.ltb (hsize s) start then (s, CIndexError)
  else
    let n := Nat.div (length batch) HS in
    match validate sha256 sha512 rmd160 c (below2 (io s) start) (below1 (io s) start) (chunks n batch) with
    | Some e => (s, CInvalid e)
    | None => match batch with
              | [] => (s, COk 0)
              | _ => (do_write s start batch, COk n)
              end
    end.

Definition w_cfg : cfg := mkCfg 0 None false [].
Definition wA0 := toy_header x00 (repeat x00 32).
Definition wA1 := toy_header x01 (toy wA0).
Definition wA2 := toy_header x02 (toy wA1).
Definition wA3 := toy_header x03 (toy wA2).
Definition wB1 := toy_header x09 (toy wA0).
(* chain A (3 headers); a 1-header fork B on A0 (shorter than A's tail); A's continuation at the old length *)
Definition w_ops : list (nat * bytes) := [(0, wA0 ++ wA1 ++ wA2); (1, wB1); (3, wA3)].

Definition run_log (conn : cfg -> st -> nat -> bytes -> st * cres) (ops : list (nat * bytes)) : st * list cres :=
  fold_left (fun sr op => let '(s', r) := conn w_cfg (fst sr) (fst op) (snd op) in (s', snd sr ++ [r]))
            ops (mkSt [] 0 [], []).

(* before the fix all three batches are accepted, 4 headers are counted, and the stored chain [0,4) -- which ends
   with the most recently connected batch -- has a broken prev-hash link (A2 on top of B1) *)
Lemma chain_invariant_old_refuted :
  let r := run_log (connect_old toy toy toy) w_ops in
  snd r = [COk 3; COk 1; COk 1] /\ hsize (fst r) = 4 /\
  validate toy toy toy w_cfg None None (chunks 4 (io (fst r))) = Some RPrev.
Proof. vm_compute. repeat split. Qed.

(* since the fix the fork cuts the chain to 2 headers and the stale continuation is refused *)
Lemma chain_invariant_new_witness :
  let r := run_log (connect toy toy toy) w_ops in
  snd r = [COk 3; COk 1; CIndexError] /\ hsize (fst r) = 2 /\
  validate toy toy toy w_cfg None None (chunks 2 (io (fst r))) = None.
Proof. vm_compute. repeat split. Qed.

(* repair before fix 54b8776: `range(start, self.height, 36)` *)
Definition visited_end_old (start sz whole : nat) : nat :=
  if Nat.ltb (S start) sz
  then Nat.min whole (start + BATCH * (S (Nat.div (sz - 2 - start) BATCH)))
  else start.

Definition repair_old (sha256 : bytes -> bytes) (c : cfg) (s : st) (start : nat) : st :=
  let whole := Nat.div (length (io s)) HS in
  let vend := visited_end_old start (hsize s) whole in
  let hs := chunks (vend - start) (skipn (HS * start) (io s)) in
  match repair_fail sha256 c start hs with
  | None => s
  | Some k => let io' := firstn (HS * (k - 1)) (io s) in
              mkSt io' (Nat.div (length io') HS) (missing s)
  end.

Fixpoint toy_chain (n : nat) (i : N) (prev : bytes) : list bytes :=
  match n with
  | O => []
  | S n' => let h := toy_header (byte_of_N i) prev in h :: toy_chain n' (i + 1)%N (toy h)
  end.

(* 36 linked headers and a garbage tip: 37 = 0 + 36 + 1 *)
Definition w_file : bytes := concat (toy_chain 36 0 (repeat x00 32)) ++ repeat xff 112.
Definition w_rcfg : cfg := mkCfg 0 (Some (toy (toy_header x00 (repeat x00 32)))) false [].

Lemma repair_old_refuted :
  let s := mkSt w_file 37 [] in
  (* the link into the tip is broken ... *)
  repair_fail toy w_rcfg 0 (chunks 37 w_file) = Some 36 /\
  (* ... the old loop never read the tip and kept all 37 headers ... *)
  hsize (repair_old toy w_rcfg s 0) = 37 /\
  (* ... the repaired loop drops from one before the damaged header *)
  hsize (repair toy toy toy w_rcfg s 0) = 35.
Proof. vm_compute. repeat split. Qed.

(* close before fix 584d0a1: 'r+b' overwrite without truncation *)
Definition hclose_old (s : st) (file : option bytes) : bytes :=
  match file with None => io s | Some f => io s ++ skipn (length (io s)) f end.

(* the witness of chain_invariant_new_witness continued: 3 headers on disk, a 1-header fork at height 1 leaves 2
   in memory; the old close keeps the third on disk, the next open() finds the broken link and is left with 1 header:
   a validly stored header is lost at every such restart (before fix 60c307b made open() check from genesis it
   loaded all 3) *)
Lemma close_old_refuted :
  let old_file := wA0 ++ wA1 ++ wA2 in
  let s := mkSt (wA0 ++ wB1) 2 [] in
  (length (hclose_old s (Some old_file)) / HS,
   hsize (load_repair toy toy toy w_rcfg (hclose_old s (Some old_file))),
   hsize (load_repair toy toy toy w_rcfg (hclose s (Some old_file))))
  = (3, 1, 2).
Proof. vm_compute. reflexivity. Qed.
End Refuted.
