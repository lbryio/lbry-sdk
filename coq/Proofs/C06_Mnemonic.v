(* Mnemonic word encoding: the words are the digits of the number in base [nwords], so the round trip is that
   of the numerals of C06_Num between a split and a join (C06_Normalize). *)
From Coq Require Import NArith List Lia.
From Coq.Strings Require Import Byte.
From LV Require Import Lib.Bytes Model.C06 Proofs.C06_Num Proofs.C06_Normalize.
Import ListNotations.
Local Open Scope N_scope.

(* [sp_free is_space] and [goodw is_space] of C06_Normalize, up to unfolding: what is proved there of words
   free of separators applies to these as it stands (split_join) *)
Definition space_free (w : bytes) : Prop := Forall (fun c => is_space c = false) w.
Definition good_word (w : bytes) : Prop := w <> [] /\ space_free w.

Lemma is_space_space : is_space space = true.
Proof. vm_compute. reflexivity. Qed.

Lemma split_ws_generic s : split_ws s = splitg is_space s.
Proof.
  unfold split_ws, splitg. replace (split_go s) with (splitg_go is_space s); [reflexivity|].
  induction s as [|c r IH]; [reflexivity|]. cbn [split_go splitg_go]. rewrite IH. reflexivity.
Qed.

Lemma join_sp_generic ws : join_sp ws = joing space ws.
Proof. induction ws as [|w r IH]; [reflexivity|]. cbn [join_sp joing]. rewrite IH. reflexivity. Qed.

Theorem split_join ws : Forall good_word ws -> split_ws (join_sp ws) = ws.
Proof. rewrite split_ws_generic, join_sp_generic. exact (splitg_joing is_space space is_space_space ws). Qed.

Definition word_digit (words : list bytes) (w : bytes) : option N :=
  option_map N.of_nat (index_of bytes_eqb w words).

Section Mnemonic.
  Variable words : list bytes.
  Hypothesis words_nodup : NoDup words.
  Hypothesis words_two : (2 <= length words)%nat.
  Hypothesis words_good : Forall good_word words.

  Lemma nwords_ge2 : 2 <= nwords words.
  Proof. unfold nwords. lia. Qed.

  Lemma digits_lt_nwords i : Forall (fun d => d < nwords words) (digits_lsb (nwords words) i).
  Proof. apply digits_lsb_bound. pose proof nwords_ge2. lia. Qed.

  Lemma words_to_digits_digs ws : words_to_digits words ws = digs (word_digit words) ws.
  Proof.
    induction ws as [|w r IH]; [reflexivity|]. cbn [words_to_digits digs]. rewrite IH. unfold word_digit.
    destruct (index_of bytes_eqb w words); reflexivity.
  Qed.

  Lemma words_to_digits_map ds : Forall (fun d => d < nwords words) ds ->
    words_to_digits words (map (fun d => nth (N.to_nat d) words []) ds) = Some ds.
  Proof.
    rewrite words_to_digits_digs. exact (digs_map _ _ (word_digit words) (alpha_dig_sym words [] bytes_eqb bytes_eqb_eq words_nodup) ds).
  Qed.

  Lemma words_to_digits_some ws ds : words_to_digits words ws = Some ds ->
    Forall (fun d => d < nwords words) ds /\ map (fun d => nth (N.to_nat d) words []) ds = ws.
  Proof.
    rewrite words_to_digits_digs. exact (digs_some _ _ (word_digit words) (alpha_sym_dig words [] bytes_eqb bytes_eqb_eq) ws ds).
  Qed.

  Lemma mnemonic_words_good i : Forall good_word (mnemonic_words words i).
  Proof.
    unfold mnemonic_words. rewrite Forall_map. eapply Forall_impl; [|apply digits_lt_nwords].
    intros d Hd. exact (proj1 (Forall_forall _ _) words_good _ (alpha_sym_in words [] d Hd)).
  Qed.

  Theorem mnemonic_roundtrip i : mnemonic_decode words (mnemonic_encode words i) = Ok i.
  Proof.
    unfold mnemonic_decode, mnemonic_encode.
    rewrite split_join by apply mnemonic_words_good.
    unfold mnemonic_words. rewrite words_to_digits_map by apply digits_lt_nwords.
    rewrite val_msb_rev, digits_lsb_val by apply nwords_ge2. reflexivity.
  Qed.

  Theorem mnemonic_encode_injective i j : mnemonic_encode words i = mnemonic_encode words j -> i = j.
  Proof.
    intro E. pose proof (mnemonic_roundtrip i) as Hi. rewrite E, mnemonic_roundtrip in Hi. congruence.
  Qed.

  (* the number of words is the number of base-n digits; 0 is the empty phrase *)
  Theorem mnemonic_encode_zero : mnemonic_encode words 0 = [].
  Proof. reflexivity. Qed.

  Theorem mnemonic_decode_sound s i : mnemonic_decode words s = Ok i ->
    exists ds, split_ws s = map (fun d => nth (N.to_nat d) words []) ds /\
               Forall (fun d => d < nwords words) ds /\ i = val_lsb (nwords words) ds.
  Proof.
    unfold mnemonic_decode. destruct (words_to_digits words (split_ws s)) as [ds|] eqn:E; [|discriminate].
    intro H. injection H as <-. destruct (words_to_digits_some _ _ E) as [Hf Hs].
    exists ds. rewrite val_msb_rev. auto.
  Qed.

  Theorem mnemonic_decode_rejects s : mnemonic_decode words s = Err EWord <->
    exists w, In w (split_ws s) /\ ~ In w words.
  Proof using words_two.
    (* [words_two] is not needed: it is in the statement only *)
    unfold mnemonic_decode. generalize (split_ws s) as ws. intro ws. split.
    - rewrite words_to_digits_digs. destruct (digs _ ws) eqn:E; [discriminate|]. intros _.
      apply digs_none, Exists_exists in E as [w [Hin Hw]].
      exists w. split; [exact Hin | exact (alpha_dig_none words bytes_eqb bytes_eqb_eq w Hw)].
    - intros [w [Hin Hn]]. destruct (words_to_digits words ws) as [ds|] eqn:E; [|reflexivity].
      exfalso. apply words_to_digits_some in E as [Hf <-]. apply in_map_iff in Hin as [d [<- Hd]].
      exact (Hn (alpha_sym_in words [] d (proj1 (Forall_forall _ _) Hf d Hd))).
  Qed.
End Mnemonic.
