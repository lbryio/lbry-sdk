(* A single-address and a deterministic account of the same mnemonic in one database: with the depth filter
   each manager's view evolves as if it were alone; without it (the code as it is) whichever stores a row first
   decides what both see. *)
From Coq Require Import Arith NArith List Bool Lia.
From LV Require Import Lib.Bytes Lib.Lists Model.C06 Proofs.C06_Gap.
Import ListNotations.
Local Open Scope N_scope.

Section Shared.
  Variable addr_of : N -> bytes.
  Variable master_addr : bytes.

  Notation sstep := (sstep addr_of master_addr true).
  Notation srun := (srun addr_of master_addr true).

  Lemma rows_of_app single a b : rows_of single (a ++ b) = rows_of single a ++ rows_of single b.
  Proof. unfold rows_of. rewrite filter_app, map_app. reflexivity. Qed.

  Lemma rows_of_tagged single tag l : rows_of single (map (pair tag) l) = if Bool.eqb tag single then l else [].
  Proof.
    unfold rows_of. induction l as [|x r IH]; cbn [map filter fst]; [destruct (Bool.eqb tag single); reflexivity|].
    destruct (Bool.eqb tag single) eqn:E; cbn [map snd]; rewrite IH; reflexivity.
  Qed.

  Lemma rows_of_set_used single a k t :
    rows_of single (map (fun x => (fst x, if bytes_eqb (r_addr (snd x)) a
                                          then mk_row (r_n (snd x)) (r_addr (snd x)) k else snd x)) t)
    = set_used a k (rows_of single t).
  Proof.
    unfold rows_of, set_used. induction t as [|[tag r] t IH]; [reflexivity|].
    cbn [map filter fst snd]. destruct (Bool.eqb tag single); cbn [map snd]; rewrite IH; reflexivity.
  Qed.

  Lemma sstep_hd_view t op :
    rows_of false (sstep t op) =
    match op with SHd o => gstep addr_of (rows_of false t) o | SSingleEnsure => rows_of false t end.
  Proof.
    destruct op as [[g|n k]|]; cbn [C06.sstep manager_view].
    - rewrite rows_of_app, rows_of_tagged. cbn [Bool.eqb gstep].
      destruct (ensure_gap_appends addr_of g (rows_of false t)) as [ext E].
      rewrite E, skipn_app_exact. reflexivity.
    - apply rows_of_set_used.
    - destruct (rows_of true t); [|reflexivity]. rewrite rows_of_app. cbn. rewrite app_nil_r. reflexivity.
  Qed.

  (* whatever single-address operations are interleaved, the deterministic account's receiving chain is exactly
     the chain it would have had alone: m/0/0, m/0/1, ... in order *)
  Theorem shared_hd_chain_unaffected ops : rows_of false (srun ops) = grun addr_of (hd_ops ops).
  Proof.
    unfold C06.srun, grun.
    assert (H : forall t, rows_of false (fold_left sstep ops t) = fold_left (gstep addr_of) (hd_ops ops) (rows_of false t)).
    { induction ops as [|op rest IH]; intro t; [reflexivity|].
      cbn [fold_left]. rewrite IH, sstep_hd_view. destruct op as [o|]; reflexivity. }
    apply H.
  Qed.

  Lemma sstep_single_view t op :
    rows_of true (sstep t op) = match op with
                                | SSingleEnsure => match rows_of true t with [] => [mk_row 0 master_addr 0] | v => v end
                                | SHd (GUse n k) => set_used (addr_of n) k (rows_of true t)
                                | SHd (GEnsure _) => rows_of true t
                                end.
  Proof.
    destruct op as [[g|n k]|]; cbn [C06.sstep manager_view].
    - rewrite rows_of_app, rows_of_tagged. cbn [Bool.eqb]. apply app_nil_r.
    - apply rows_of_set_used.
    - destruct (rows_of true t) eqn:E; [|exact E]. rewrite rows_of_app, E. reflexivity.
  Qed.

  (* the single-address account lists at most its one address, the account key's own, whatever the other account does *)
  Theorem shared_single_chain ops :
    map r_addr (rows_of true (srun ops)) = [] \/ map r_addr (rows_of true (srun ops)) = [master_addr].
  Proof.
    apply (fold_left_inv sstep
             (fun t => map r_addr (rows_of true t) = [] \/ map r_addr (rows_of true t) = [master_addr]));
      [|left; reflexivity].
    intros t op Ht. rewrite sstep_single_view. destruct op as [[g|n k]|].
    - exact Ht.
    - unfold set_used. rewrite map_map.
      rewrite (map_ext _ r_addr) by (intro r; destruct (bytes_eqb _ _); reflexivity). exact Ht.
    - destruct (rows_of true t); [right; reflexivity | exact Ht].
  Qed.
End Shared.

Section AsIs.
  Variable addr_of : N -> bytes.
  Variable master_addr : bytes.
  Notation sstep0 := (C06.sstep addr_of master_addr false).
  Notation srun0 := (C06.srun addr_of master_addr false).

  Definition addrs (t : list srow) : list bytes := map (fun x => r_addr (snd x)) t.

  Lemma sstep0_appends t op : exists ext, addrs (sstep0 t op) = addrs t ++ ext.
  Proof.
    destruct op as [[g|n k]|]; cbn [C06.sstep manager_view].
    - unfold addrs. rewrite map_app. eexists. reflexivity.
    - exists []. rewrite app_nil_r. unfold addrs. rewrite map_map. apply map_ext.
      intros [tag r]. cbn [fst snd]. destruct (bytes_eqb _ _); reflexivity.
    - destruct (map snd t); [|exists []; rewrite app_nil_r; reflexivity].
      unfold addrs. rewrite map_app. eexists. reflexivity.
  Qed.

  (* both managers look at the same rows *)
  Lemma manager_view_same t : manager_view false true t = manager_view false false t.
  Proof. reflexivity. Qed.

  (* known finding, in general form: once the single-address account has stored its row first, the first record every
     manager of that account id sees on chain 0 -- the deterministic account's "first receiving address" -- is the
     account key's own address, whatever happens afterwards *)
  Theorem shared_as_is_single_first ops single :
    hd_error (map r_addr (manager_view false single (srun0 (SSingleEnsure :: ops)))) = Some master_addr.
  Proof.
    unfold manager_view. rewrite map_map. unfold C06.srun. cbn [fold_left C06.sstep manager_view map app].
    apply (fold_left_inv sstep0 (fun t => hd_error (addrs t) = Some master_addr)); [|reflexivity].
    intros t op Ht. destruct (sstep0_appends t op) as [ext ->]. destruct (addrs t); [discriminate | exact Ht].
  Qed.

  (* the single-address manager never stores its key once any row is there *)
  Lemma single_ensure_noop t : t <> [] -> sstep0 t SSingleEnsure = t.
  Proof. destruct t; [congruence | reflexivity]. Qed.

  Lemma sstep0_nonempty t op : t <> [] -> sstep0 t op <> [].
  Proof.
    intros Ht E. destruct (sstep0_appends t op) as [ext H]. rewrite E in H. destruct t; [congruence | discriminate].
  Qed.

  (* known finding, the other order, in general form: after a deterministic ensure with a positive gap first, the
     single-address account's operations leave no trace in the table, whatever happens afterwards *)
  Theorem shared_as_is_hd_first_any g ops : (0 < g)%nat ->
    srun0 (SHd (GEnsure g) :: ops) = srun0 (SHd (GEnsure g) :: map SHd (hd_ops ops)).
  Proof.
    intro Hg. unfold C06.srun. cbn [fold_left].
    assert (Ht : sstep0 [] (SHd (GEnsure g)) <> []) by (destruct g; [lia | discriminate]).
    revert Ht. generalize (sstep0 [] (SHd (GEnsure g))) as t.
    induction ops as [|[o|] r IH]; intros t Ht; cbn [fold_left hd_ops map]; [reflexivity | apply IH, sstep0_nonempty, Ht|].
    rewrite single_ensure_noop by exact Ht. apply IH, Ht.
  Qed.

  (* so its view is the deterministic chain *)
  Theorem shared_as_is_hd_first g : (0 < g)%nat ->
    manager_view false true (srun0 [SHd (GEnsure g); SSingleEnsure]) = manager_view false false (srun0 [SHd (GEnsure g)])
    /\ manager_view false false (srun0 [SHd (GEnsure g)]) = fst (ensure_gap addr_of g []).
  Proof.
    intro Hg. rewrite (shared_as_is_hd_first_any g [SSingleEnsure] Hg). split; [reflexivity|].
    unfold C06.srun, manager_view. cbn [fold_left C06.sstep manager_view map app length skipn]. rewrite map_map. apply map_id.
  Qed.
End AsIs.
