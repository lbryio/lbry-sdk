(* The protobuf wire format of Model.C16_Wire, bottom up: a varint is read back (induction on the number of 7-bit
   groups), hence a tagged field, hence a flat field list (wire_roundtrip), hence a tree of sub-messages under any
   schema (tree_roundtrip, by induction on the nesting depth). The converse, that whatever the flat parser returns
   is canonical, gives parse . serialise . parse = parse. *)
From Coq Require Import NArith ZArith List Bool Lia.
From LV Require Import Lib.Bytes Model.C16_Wire.
Import ListNotations.
Local Open Scope N_scope.

Lemma pow128_succ k : 128 ^ N.of_nat (S k) = 128 * 128 ^ N.of_nat k.
Proof. rewrite Nat2N.inj_succ, N.pow_succ_r'. reflexivity. Qed.

Lemma varint_dec_last k n rest : n < 128 -> varint_dec (S k) (byte_of_N n :: rest) = Some (n, rest).
Proof. intro H. cbn [varint_dec]. rewrite byte_of_N_small by lia. apply N.ltb_lt in H. rewrite H. reflexivity. Qed.

Lemma varint_dec_more k n r : n < 128 ->
  varint_dec (S k) (byte_of_N (128 + n) :: r) =
  match varint_dec k r with Some (hi, r') => Some (n + 128 * hi, r') | None => None end.
Proof.
  intro H. cbn [varint_dec]. rewrite byte_of_N_small by lia.
  rewrite (proj2 (N.ltb_ge _ _)) by lia. replace (128 + n - 128) with n by lia. reflexivity.
Qed.

(* lia is kept away from the power: all it needs is the bound as a number p *)
Lemma varint_dec_enc fuel : forall n rest, n < 128 ^ N.of_nat (S fuel) ->
  varint_dec (S fuel) (varint_enc fuel n ++ rest) = Some (n, rest).
Proof.
  induction fuel as [|f IH]; intros n rest H; rewrite pow128_succ in H; cbn [varint_enc].
  - change (128 ^ N.of_nat 0) with 1 in H. rewrite N.mod_small by lia. apply varint_dec_last. lia.
  - destruct (N.ltb_spec n 128) as [E | E]; cbn [app]; [apply varint_dec_last; exact E|].
    rewrite varint_dec_more by (apply N.mod_lt; lia). set (p := 128 ^ N.of_nat (S f)) in *. clearbody p.
    rewrite IH by (apply N.div_lt_upper_bound; lia). rewrite N.add_comm, <- N.div_mod'. reflexivity.
Qed.

Lemma varint_roundtrip n rest : n < two64 -> varint_decode (varint_encode n ++ rest) = Some (n, rest).
Proof.
  intro H. unfold varint_decode, varint_encode. rewrite varint_dec_enc.
  - rewrite N.mod_small by exact H. reflexivity.
  - change (128 ^ N.of_nat 10) with 1180591620717411303424. unfold two64 in H. lia.
Qed.

Lemma varint_enc_length fuel : forall n, (1 <= length (varint_enc fuel n) <= S fuel)%nat.
Proof.
  induction fuel as [|f IH]; intro n; cbn [varint_enc]; [split; apply le_n|].
  destruct (n <? 128); cbn [length]; split; auto using le_n_S, Nat.le_0_l. apply le_n_S, IH.
Qed.

Lemma varint_length_max n : (1 <= length (varint_encode n) <= 10)%nat.
Proof. apply varint_enc_length. Qed.

(* canonical length: exactly the number of 7-bit groups of n (at least one) *)
Lemma varint_enc_length_le fuel : forall n k, (1 <= k)%nat -> n < 128 ^ N.of_nat k ->
  (length (varint_enc fuel n) <= k)%nat.
Proof.
  induction fuel as [|f IH]; intros n k Hk H; cbn [varint_enc]; [cbn [length]; lia|].
  destruct (N.ltb_spec n 128) as [E | E]; [cbn [length]; lia|]. cbn [length].
  destruct k as [|[|k]]; [lia | change (128 ^ N.of_nat 1) with 128 in H; lia |].
  apply le_n_S, IH; [lia|]. rewrite pow128_succ in H. set (p := 128 ^ N.of_nat (S k)) in *. clearbody p.
  apply N.div_lt_upper_bound; lia.
Qed.

Lemma varint_enc_length_gt fuel : forall n k, (k <= fuel)%nat -> 128 ^ N.of_nat k <= n ->
  (k < length (varint_enc fuel n))%nat.
Proof.
  induction fuel as [|f IH]; intros n k Hk H; [pose proof (varint_enc_length 0 n); lia|].
  destruct k as [|k]; [pose proof (varint_enc_length (S f) n); lia|].
  rewrite pow128_succ in H. assert (P : 128 ^ N.of_nat k <> 0) by (apply N.pow_nonzero; discriminate).
  cbn [varint_enc]. destruct (N.ltb_spec n 128) as [E | E]; cbn [length].
  - set (p := 128 ^ N.of_nat k) in *. clearbody p. lia.
  - apply (proj1 (Nat.succ_lt_mono _ _)), IH; [lia|]. apply N.div_le_lower_bound; [discriminate | exact H].
Qed.

Lemma zigzag_roundtrip z : zigzag_dec (zigzag_enc z) = z.
Proof.
  unfold zigzag_dec, zigzag_enc. destruct (Z.ltb_spec z 0) as [E | E].
  - replace (Z.to_N (-2 * z - 1)) with (1 + 2 * Z.to_N (- z - 1)) by lia.
    rewrite <- N.negb_odd, N.odd_add_mul_2. change (negb (N.odd 1)) with false. cbn iota. lia.
  - replace (Z.to_N (2 * z)) with (2 * Z.to_N z) by lia. rewrite N.even_mul. change (N.even 2) with true. cbn [orb]. lia.
Qed.

Lemma zigzag_range z : (- 2 ^ 31 <= z < 2 ^ 31)%Z -> zigzag_enc z < 2 ^ 32.
Proof. unfold zigzag_enc. intro H. destruct (z <? 0)%Z eqn:E; [apply Z.ltb_lt in E | apply Z.ltb_ge in E]; lia. Qed.

(* two's complement with 2h residues, for any half-range h: a value in [-h, h) is read back from its residue. The
   width is put in at the last step, so no arithmetic is done on 64-bit constants. *)
Lemma signed_wrap_roundtrip (h : N) z : (- Z.of_N h <= z < Z.of_N h)%Z ->
  let n := Z.to_N (z mod Z.of_N (2 * h)) in
  (if n <? h then Z.of_N n else (Z.of_N n - Z.of_N (2 * h))%Z) = z /\ n < 2 * h.
Proof.
  intro H. rewrite N2Z.inj_mul. change (Z.of_N 2) with 2%Z. set (k := Z.of_N h) in *.
  assert (E : (0 <= z /\ z mod (2 * k) = z \/ z < 0 /\ z mod (2 * k) = z + 2 * k)%Z).
  { destruct (Z.lt_ge_cases z 0) as [L | L]; [right | left]; (split; [exact L|]).
    - symmetry. apply (Z.mod_unique_pos _ _ (-1)); lia.
    - apply Z.mod_small. lia. }
  set (m := (z mod (2 * k))%Z) in *. clearbody m. cbv zeta.
  destruct (N.ltb_spec (Z.to_N m) h); split; lia.
Qed.

Lemma int64_roundtrip z : (- 2 ^ 63 <= z < 2 ^ 63)%Z -> int64_dec (int64_enc z) = z /\ int64_enc z < two64.
Proof. exact (signed_wrap_roundtrip 9223372036854775808 z). Qed.

Lemma takeN_app n b rest : n = N.of_nat (length b) -> takeN n (b ++ rest) = Some (b, rest).
Proof.
  intros ->. unfold takeN. rewrite app_length, Nat2N.inj_add, (proj2 (N.leb_le _ _)) by lia.
  rewrite Nat2N.id, firstn_app_exact, skipn_app_exact. reflexivity.
Qed.

Lemma takeN_length n bs b r : takeN n bs = Some (b, r) -> N.of_nat (length b) = n.
Proof.
  unfold takeN. destruct (N.leb_spec n (N.of_nat (length bs))); [|discriminate].
  intros [= <- _]. rewrite firstn_length_le by lia. apply N2Nat.id.
Qed.

Lemma varint_decode_lt bs v r : varint_decode bs = Some (v, r) -> v < two64.
Proof.
  unfold varint_decode. destruct (varint_dec 10 bs) as [[v' r']|]; [|discriminate].
  intros [= <- _]. apply N.mod_lt. discriminate.
Qed.

Lemma parse_value_ser v rest : wval_ok v = true -> parse_value (wtype v) (ser_value v ++ rest) = WOk (v, rest).
Proof.
  destruct v as [n | b | b | b]; cbn [wval_ok wtype ser_value]; intro H; unfold parse_value; cbn [N.eqb Pos.eqb].
  - apply N.ltb_lt in H. rewrite varint_roundtrip by exact H. reflexivity.
  - apply Nat.eqb_eq in H. rewrite takeN_app by (rewrite H; reflexivity). reflexivity.
  - apply N.ltb_lt in H. rewrite <- app_assoc, varint_roundtrip, takeN_app by auto. reflexivity.
  - apply Nat.eqb_eq in H. rewrite takeN_app by (rewrite H; reflexivity). reflexivity.
Qed.

Lemma parse_value_ok wt bs v r : parse_value wt bs = WOk (v, r) -> wval_ok v = true.
Proof.
  unfold parse_value.
  destruct (wt =? 0).
  { destruct (varint_decode bs) as [[x r']|] eqn:D; [|discriminate]. intros [= <- _].
    apply N.ltb_lt, (varint_decode_lt _ _ _ D). }
  destruct (wt =? 1).
  { destruct (takeN 8 bs) as [[b r']|] eqn:T; [|discriminate]. intros [= <- _]. apply takeN_length in T.
    apply Nat.eqb_eq. lia. }
  destruct (wt =? 2).
  { destruct (varint_decode bs) as [[l r0]|] eqn:D; [|discriminate].
    destruct (takeN l r0) as [[b r']|] eqn:T; [|discriminate]. intros [= <- _]. apply takeN_length in T.
    cbn [wval_ok]. rewrite T. apply N.ltb_lt, (varint_decode_lt _ _ _ D). }
  destruct (wt =? 5).
  { destruct (takeN 4 bs) as [[b r']|] eqn:T; [|discriminate]. intros [= <- _]. apply takeN_length in T.
    apply Nat.eqb_eq. lia. }
  destruct ((wt =? 3) || (wt =? 4)); discriminate.
Qed.

Lemma parse_fields_step f bs : (1 <= length bs)%nat -> parse_fields (S f) bs =
  match varint_decode bs with
  | None => WErr
  | Some (tag, r) =>
    if tag / 8 =? 0 then WErr
    else match parse_value (tag mod 8) r with
         | WOk (v, r') =>
             match parse_fields f r' with
             | WOk fs => WOk ((tag / 8, v) :: fs)
             | WErr => WErr
             | WGroup => WGroup
             end
         | WErr => WErr
         | WGroup => WGroup
         end
  end.
Proof. destruct bs; [cbn [length]; lia | reflexivity]. Qed.

Lemma ser_fields_cons f fs : ser_fields (f :: fs) = ser_field f ++ ser_fields fs.
Proof. reflexivity. Qed.

Lemma ser_field_length_pos f : (1 <= length (ser_field f))%nat.
Proof.
  unfold ser_field. rewrite app_length. pose proof (varint_length_max (fst f * 8 + wtype (snd f))). lia.
Qed.

(* a tag is field number * 8 + wire type *)
Lemma tag_split k w : w < 8 -> (k * 8 + w) / 8 = k /\ (k * 8 + w) mod 8 = w.
Proof.
  intro H. split.
  - rewrite N.div_add_l, (N.div_small w 8 H) by discriminate. apply N.add_0_r.
  - rewrite N.add_comm, N.mod_add by discriminate. apply N.mod_small, H.
Qed.

Lemma parse_fields_ser fs : forall fuel, forallb field_ok fs = true ->
  (length (ser_fields fs) <= fuel)%nat -> parse_fields fuel (ser_fields fs) = WOk fs.
Proof.
  induction fs as [|[k v] fs IH]; intros fuel Hok Hlen; [destruct fuel; reflexivity|].
  cbn [forallb] in Hok. apply andb_true_iff in Hok as [Hf Hrest]. apply andb_true_iff in Hf as [Hk Hv].
  apply andb_true_iff in Hk as [Hk1 Hk2]. cbn [fst snd] in *. apply N.leb_le in Hk1. apply N.ltb_lt in Hk2.
  rewrite ser_fields_cons, app_length in *. pose proof (ser_field_length_pos (k, v)).
  destruct fuel as [|fuel]; [lia|]. rewrite parse_fields_step by (rewrite app_length; lia).
  unfold ser_field. cbn [fst snd]. rewrite <- app_assoc.
  assert (Hw : wtype v < 8) by (destruct v; reflexivity).
  rewrite varint_roundtrip by (unfold two64; lia). destruct (tag_split k _ Hw) as [-> ->].
  rewrite (proj2 (N.eqb_neq k 0)), parse_value_ser, IH by (assumption || lia). reflexivity.
Qed.

Lemma wire_roundtrip fs : forallb field_ok fs = true -> wire_parse (ser_fields fs) = WOk fs.
Proof. intro H. apply parse_fields_ser; [exact H | lia]. Qed.

Lemma parse_fields_ok fuel : forall bs fs, parse_fields fuel bs = WOk fs -> forallb field_ok fs = true.
Proof.
  induction fuel as [|f IH]; intros [|b t] fs H; try (injection H as <-; reflexivity); [discriminate|].
  rewrite parse_fields_step in H by (cbn [length]; lia).
  destruct (varint_decode (b :: t)) as [[tag r]|] eqn:D; [|discriminate].
  destruct (N.eqb_spec (tag / 8) 0) as [|Z]; [discriminate|].
  destruct (parse_value (tag mod 8) r) as [[v r']| |] eqn:P; try discriminate.
  destruct (parse_fields f r') as [fs'| |] eqn:R; try discriminate.
  injection H as <-. cbn [forallb]. rewrite (IH r' fs' R), andb_true_r.
  unfold field_ok, fno_ok. cbn [fst snd]. rewrite (parse_value_ok _ _ _ _ P), andb_true_r.
  apply varint_decode_lt in D. apply andb_true_iff. split.
  - apply N.leb_le. revert Z. generalize (tag / 8). intros q Z. lia.
  - apply N.ltb_lt, N.div_lt_upper_bound; [discriminate | exact D].
Qed.

Lemma wire_parse_canonical bs fs : wire_parse bs = WOk fs -> forallb field_ok fs = true.
Proof. apply parse_fields_ok. Qed.

Lemma wire_parse_normalises bs fs : wire_parse bs = WOk fs -> wire_parse (ser_fields fs) = WOk fs.
Proof. intro H. apply wire_roundtrip, (wire_parse_canonical bs), H. Qed.

Lemma wmap_map_ok {A B} (f : A -> wres B) (g : B -> A) l :
  Forall (fun b => f (g b) = WOk b) l -> wmap f (map g l) = WOk l.
Proof. induction 1 as [|b l Hb _ IH]; [reflexivity|]. cbn [map wmap]. rewrite Hb, IH. reflexivity. Qed.

Lemma flatten_msg fs : flatten (TMsg fs) = WLen (ser_tree fs).
Proof. cbn [flatten]. unfold ser_tree, ser_fields. rewrite map_map. reflexivity. Qed.

Lemma tval_ok_msg sch m k fs : tval_ok sch m k (TMsg fs) =
  match msg_of sch m k with
  | Some m' => (N.of_nat (length (ser_tree fs)) <? two64) && tfields_ok sch m' fs
  | None => false
  end.
Proof. cbn [tval_ok]. unfold ser_tree, ser_fields, tfields_ok. rewrite map_map. reflexivity. Qed.

Lemma tval_ok_flatten sch m k v : tval_ok sch m k v = true -> wval_ok (flatten v) = true.
Proof.
  destruct v as [n | b | b | b | fs]; [exact (fun H => H) .. | |].
  - cbn [tval_ok flatten wval_ok]. intro H. apply andb_true_iff in H. apply H.
  - rewrite tval_ok_msg, flatten_msg. cbn [wval_ok]. destruct (msg_of sch m k); [|discriminate].
    intro H. apply andb_true_iff in H. apply H.
Qed.

Lemma tfields_ok_flat sch m fs : tfields_ok sch m fs = true -> forallb field_ok (map flatten_field fs) = true.
Proof.
  unfold tfields_ok. induction fs as [|[k v] fs IH]; [reflexivity|].
  cbn [forallb map fst snd]. intro H. apply andb_true_iff in H as [H1 H2]. apply andb_true_iff in H1 as [Hk Hv].
  rewrite (IH H2), andb_true_r. unfold field_ok, flatten_field. cbn [fst snd]. rewrite Hk, (tval_ok_flatten _ _ _ _ Hv).
  reflexivity.
Qed.

Lemma tree_roundtrip sch : forall d m fs, tfields_ok sch m fs = true -> (fdepth fs <= d)%nat ->
  parse_tree sch d m (ser_tree fs) = WOk fs.
Proof.
  induction d as [|d IHd]; intros m fs Hok Hd; [unfold fdepth in Hd; lia|].
  cbn [parse_tree]. unfold ser_tree at 1. rewrite wire_roundtrip by exact (tfields_ok_flat sch m fs Hok).
  apply wmap_map_ok. apply le_S_n, list_max_le in Hd. rewrite Forall_map in Hd.
  unfold tfields_ok in Hok. rewrite forallb_forall in Hok. rewrite Forall_forall in *. intros [k v] Hin.
  specialize (Hok _ Hin). specialize (Hd _ Hin). apply andb_true_iff in Hok as [_ Hv].
  (* the field is read back: a sub-message by the induction hypothesis, bytes because the schema declares none *)
  unfold flatten_field. cbn [fst snd] in *. destruct v as [n | b | b | b | fs']; try reflexivity.
  - cbn [flatten]. cbn [tval_ok] in Hv. apply andb_true_iff in Hv as [_ Hv].
    destruct (msg_of sch m k); [discriminate | reflexivity].
  - rewrite flatten_msg. rewrite tval_ok_msg in Hv. destruct (msg_of sch m k) as [m'|]; [|discriminate].
    apply andb_true_iff in Hv as [_ Hv]. rewrite (IHd m' fs' Hv Hd). reflexivity.
Qed.
