(* One induction over a byte stream cut into segments ([fold_left_stream]) serves every fragmentation theorem of C10,
   client and server.  The '}' scan of the client is read forwards ([scanf]). *)
From Coq Require Import NArith ZArith List Bool Lia.
From Coq.Strings Require Import Byte.
From LV Require Import Lib.Bytes Lib.Lists Model.C10.
Import ListNotations.
Local Open Scope Z_scope.

Lemma zlen_app {A} (a b : list A) : zlen (a ++ b) = zlen a + zlen b.
Proof. unfold zlen. rewrite app_length. lia. Qed.
Lemma zlen_nonneg {A} (a : list A) : 0 <= zlen a.
Proof. unfold zlen. lia. Qed.
Lemma zlen_nil {A} : zlen (@nil A) = 0.
Proof. reflexivity. Qed.
Lemma zlen_firstn {A} n (a : list A) : zlen (firstn n a) = Z.min (Z.of_nat n) (zlen a).
Proof. unfold zlen. rewrite firstn_length. lia. Qed.

(* str evs is the byte stream that the events evs deliver, seg e the share of e.  R relates the part of a stream
   delivered so far, the part still to come, and the state.  If every step whose segment is the next part of the stream
   keeps R, then R holds when all of the stream is delivered, however it was cut *)
Lemma fold_left_stream {A E S} (f : S -> E -> S) (seg : E -> list A) (str : list E -> list A) (ok : E -> Prop)
      (R : list A -> list A -> S -> Prop) stream :
  str [] = [] -> (forall e evs, str (e :: evs) = seg e ++ str evs) ->
  (forall pre more s e, R pre (seg e ++ more) s -> ok e -> (pre ++ seg e) ++ more = stream ->
     R (pre ++ seg e) more (f s e)) ->
  forall evs pre s, R pre (str evs) s -> Forall ok evs -> pre ++ str evs = stream -> R stream [] (fold_left f evs s).
Proof.
  intros Hnil Hcons Hstep. induction evs as [|e evs IH]; intros pre s Hr Hok Hs; cbn [fold_left].
  - rewrite Hnil, app_nil_r in *. subst. exact Hr.
  - rewrite Hcons, ?app_assoc in *. inversion Hok; subst. apply (IH (pre ++ seg e)); auto.
Qed.

Lemma fold_left_map {A B S} (f : S -> B -> S) (g : A -> B) l : forall s,
  fold_left f (map g l) s = fold_left (fun s x => f s (g x)) l s.
Proof. induction l as [|x l IH]; intro s; [reflexivity|apply IH]. Qed.

Section Scan.
Variable json_loads : bytes -> jres.

(* the scan seen forwards: pre is the part of the message already passed *)
Definition scanf (pre rest : bytes) : parsed := scan json_loads (zlen pre) (rev pre) rest.

Lemma scanf_cons pre b rest :
  scanf pre (b :: rest) =
    if byte_eqb b rbrace then
      if zlen pre >=? MAX_RESPONSE_SIZE then PNone
      else match json_loads (pre ++ [b]) with
           | JInvalid => scanf (pre ++ [b]) rest
           | JNotResp => PNone
           | JRaise => PRaise
           | JResp r => PResp r (S (length pre))
           end
    else scanf (pre ++ [b]) rest.
Proof.
  unfold scanf. cbn [scan]. rewrite rev_append_rev, app_nil_r. cbn [rev].
  rewrite rev_involutive, rev_length, rev_unit, zlen_app. reflexivity.
Qed.

Lemma scan_sound : forall rest pre msg r n,
  msg = pre ++ rest -> scanf pre rest = PResp r n ->
  (json_loads (firstn n msg) = JResp r /\ (exists p, firstn n msg = p ++ [rbrace]) /\ Z.of_nat n <= MAX_RESPONSE_SIZE) /\
  (length pre < n <= length msg)%nat.
Proof.
  induction rest as [|b rest IH]; intros pre msg r n Hm Hs; [discriminate|]. rewrite scanf_cons in Hs.
  (* it is recognised either further on or at this byte *)
  assert (Hc : scanf (pre ++ [b]) rest = PResp r n \/
               json_loads (pre ++ [b]) = JResp r /\ b = rbrace /\ zlen pre < MAX_RESPONSE_SIZE /\ n = S (length pre)).
  { destruct (byte_eqb b rbrace) eqn:Eb; [|auto]. destruct (Z.geb_spec (zlen pre) MAX_RESPONSE_SIZE); [discriminate|].
    destruct (json_loads (pre ++ [b])) eqn:Ej; try discriminate; [auto|]. inversion Hs; subst. apply byte_eqb_eq in Eb. auto. }
  destruct Hc as [Hs'|(Ej & -> & Hcap & ->)].
  - destruct (IH (pre ++ [b]) msg r n) as [A B]; [rewrite <- app_assoc; exact Hm|exact Hs'|].
    rewrite app_length in B. cbn [length] in B. split; [exact A|lia].
  - change (rbrace :: rest) with ([rbrace] ++ rest) in Hm. rewrite app_assoc in Hm. subst msg.
    rewrite firstn_app_exact', !app_length by (rewrite app_length; cbn; lia). cbn [length].
    split; [|lia]. split; [exact Ej | split; [eexists; reflexivity|]]. unfold zlen in Hcap. lia.
Qed.

(* an honest header: ends in '}', is recognised as response r at its end, and no proper prefix that ends
   in '}' is JSON at all *)
Variable hdr : bytes.
Variable r : response.
Hypothesis Hparse : json_loads hdr = JResp r.
Hypothesis Hend : exists h0, hdr = h0 ++ [rbrace].
Hypothesis Hnoprefix : forall a b, hdr = a ++ rbrace :: b -> b <> [] -> json_loads (a ++ [rbrace]) = JInvalid.
Hypothesis Hshort : zlen hdr <= MAX_RESPONSE_SIZE.

(* scanning a part of the header that is not its end recognises nothing and goes on *)
Lemma scan_in_header : forall rest1 pre rest2 t,
  hdr = pre ++ rest1 ++ rest2 -> rest2 <> [] -> scanf pre (rest1 ++ t) = scanf (pre ++ rest1) t.
Proof.
  induction rest1 as [|b rest1 IH]; intros pre rest2 t Hh Hne; [rewrite app_nil_r; reflexivity|].
  cbn [app]. rewrite scanf_cons.
  assert (Hrec : scanf (pre ++ [b]) (rest1 ++ t) = scanf (pre ++ b :: rest1) t).
  { rewrite (IH (pre ++ [b]) rest2 t), <- app_assoc; [reflexivity|rewrite <- app_assoc; exact Hh|exact Hne]. }
  destruct (byte_eqb b rbrace) eqn:Eb; [|exact Hrec]. apply byte_eqb_eq in Eb. subst b.
  destruct (Z.geb_spec (zlen pre) MAX_RESPONSE_SIZE) as [Hcap|_].
  { rewrite Hh, !zlen_app in Hshort. pose proof (zlen_nonneg (rest1 ++ rest2)). unfold zlen in *.
    cbn [length] in Hshort. lia. }
  rewrite (Hnoprefix pre (rest1 ++ rest2) Hh); [exact Hrec|]. destruct rest1; [exact Hne|discriminate].
Qed.

Lemma parse_header_prefix : forall a b, hdr = a ++ b -> b <> [] -> parse_prefix json_loads a = PNone.
Proof. intros a b Hh Hne. rewrite <- (app_nil_r a). exact (scan_in_header a [] b [] Hh Hne). Qed.

Lemma parse_header_then : forall t, parse_prefix json_loads (hdr ++ t) = PResp r (length hdr).
Proof.
  intro t. destruct Hend as [h0 Hh0]. rewrite Hh0, <- app_assoc.
  change (scanf [] (h0 ++ [rbrace] ++ t) = PResp r (length (h0 ++ [rbrace]))).
  rewrite (scan_in_header h0 [] [rbrace]); auto; [|discriminate].
  cbn [app]. rewrite scanf_cons, byte_eqb_refl, <- Hh0, Hparse.
  rewrite Hh0, zlen_app in Hshort. destruct (Z.geb_spec (zlen h0) MAX_RESPONSE_SIZE); [unfold zlen in *; cbn in *; lia|].
  f_equal. rewrite Hh0, app_length. cbn. lia.
Qed.

End Scan.

Lemma parse_prefix_consumed json_loads msg r n :
  parse_prefix json_loads msg = PResp r n -> (0 < n <= length msg)%nat.
Proof. intro Hs. exact (proj2 (scan_sound json_loads msg [] msg r n eq_refl Hs)). Qed.

Lemma parse_prefix_sound (json_loads : bytes -> jres) (msg : bytes) (r : response) (n : nat) :
  parse_prefix json_loads msg = PResp r n ->
  json_loads (firstn n msg) = JResp r /\ (exists p, firstn n msg = p ++ [rbrace]) /\ Z.of_nat n <= MAX_RESPONSE_SIZE.
Proof. intro Hs. exact (proj1 (scan_sound json_loads msg [] msg r n eq_refl Hs)). Qed.

Section Server.
Variable req_loads : bytes -> rres.
Variable store : bytes -> option bytes.
Variable completed : bytes -> bool.

Definition is_close (o : sout) : bool := match o with SClose => true | _ => false end.

Lemma srv_cap s data :
  zlen (s_buf s) + zlen data >= MAX_REQUEST_SIZE ->
  srv_data req_loads store completed s data = (mkS (s_buf s) false, [SClose]).
Proof.
  intro Hc. unfold srv_data. destruct (zlen (s_buf s) + zlen data >=? MAX_REQUEST_SIZE) eqn:E; [reflexivity|lia].
Qed.

Lemma after_last_brace_length : forall data t, after_last_brace data = Some t -> (length t < length data)%nat.
Proof.
  induction data as [|b d IH]; intros t Ht; [discriminate|].
  cbn [after_last_brace] in Ht. destruct (after_last_brace d) eqn:E.
  - inversion Ht; subst. specialize (IH _ eq_refl). simpl. lia.
  - destruct (byte_eqb b rbrace); [|discriminate]. inversion Ht; subst. simpl. lia.
Qed.

Lemma srv_buf_bounded s data s' out :
  zlen (s_buf s) < MAX_REQUEST_SIZE ->
  srv_data req_loads store completed s data = (s', out) -> zlen (s_buf s') < MAX_REQUEST_SIZE.
Proof.
  intros Hb Hs. unfold srv_data in Hs.
  destruct (zlen (s_buf s) + zlen data >=? MAX_REQUEST_SIZE) eqn:E.
  - inversion Hs; subst. exact Hb.
  - destruct data as [|b d]; [inversion Hs; subst; exact Hb|].
    destruct (after_last_brace (b :: d)) as [t|] eqn:Ea.
    + apply after_last_brace_length in Ea. unfold zlen in *.
      destruct (req_loads (s_buf s ++ b :: d)); inversion Hs; subst; cbn [s_buf]; try exact Hb; lia.
    + inversion Hs; subst. cbn [s_buf]. rewrite zlen_app. lia.
Qed.

Lemma srv_bad_json s data t :
  zlen (s_buf s) + zlen data < MAX_REQUEST_SIZE -> data <> [] ->
  after_last_brace data = Some t ->
  (req_loads (s_buf s ++ data) = RBadJson \/ req_loads (s_buf s ++ data) = RRaise \/ req_loads (s_buf s ++ data) = REmpty) ->
  exists s', srv_data req_loads store completed s data = (s', [SClose]) /\ s_open s' = false.
Proof.
  intros Hc Hne Ha Hr. unfold srv_data.
  destruct (zlen (s_buf s) + zlen data >=? MAX_REQUEST_SIZE) eqn:E; [lia|].
  destruct data as [|b d]; [congruence|]. rewrite Ha.
  destruct Hr as [Hr|[Hr|Hr]]; rewrite Hr; eexists; split; reflexivity.
Qed.

(* what may appear on the wire of one connection: headers that announce nothing, or a header announcing
   (h, length of b) for a HELD blob b = store h directly followed by exactly the bytes b; availability
   lists name blobs of the completed index only; blob bytes never appear without their header *)
Definition avail_ok (hd : header) : Prop :=
  forall l x, h_avail hd = Some l -> In x l -> completed x = true.
Inductive wire_ok : list sout -> Prop :=
| wk_nil : wire_ok []
| wk_plain hd rest : h_incoming hd = None -> avail_ok hd -> wire_ok rest -> wire_ok (SHeader hd :: rest)
| wk_blob hd h b rest : h_incoming hd = Some (h, zlen b) -> store h = Some b -> avail_ok hd ->
    wire_ok rest -> wire_ok (SHeader hd :: SBlob b :: rest)
| wk_close rest : wire_ok rest -> wire_ok (SClose :: rest)
| wk_err rest : wire_ok rest -> wire_ok (STaskError :: rest).

Lemma wire_ok_app a b : wire_ok a -> wire_ok b -> wire_ok (a ++ b).
Proof. intros Ha Hb. induction Ha; cbn [app]; try (econstructor; eassumption); assumption. Qed.

Lemma filter_avail_ok inc p (q : request_msg) a :
  avail_ok (mkHdr inc p (match q_avail q with Some l => Some (filter completed l) | None => None end) a).
Proof.
  intros l x Hl Hi. cbn in Hl. destruct (q_avail q); inversion Hl; subst.
  apply filter_In in Hi. tauto.
Qed.

Lemma handle_request_wire_ok q : wire_ok (handle_request store completed q).
Proof.
  unfold handle_request.
  destruct (q_blob q) as [[h|]|].
  - destruct (store h) as [b|] eqn:Es.
    + cbn [app]. eapply wk_blob; [reflexivity | exact Es | apply filter_avail_ok |].
      destruct (zlen b >? 0); repeat constructor.
    + destruct (q_addr q || _ || q_price q); [|constructor].
      apply wk_plain; [reflexivity | apply filter_avail_ok | constructor].
  - repeat constructor.
  - destruct (q_addr q || _ || q_price q); [|constructor].
    apply wk_plain; [reflexivity | apply filter_avail_ok | constructor].
Qed.

Lemma handle_request_announces q hd rest h l :
  handle_request store completed q = SHeader hd :: rest -> h_incoming hd = Some (h, l) ->
  q_blob q = Some (BqHash h) /\ exists b, store h = Some b /\ l = zlen b /\ exists rest', rest = SBlob b :: rest'.
Proof.
  unfold handle_request. intros He Hi.
  destruct (q_blob q) as [[h'|]|].
  - destruct (store h') as [b|] eqn:Es.
    + cbn [app] in He. inversion He; subst. cbn in Hi. inversion Hi; subst.
      split; [reflexivity|]. exists b. repeat split; auto. eexists; reflexivity.
    + destruct (q_addr q || _ || q_price q); inversion He; subst. discriminate.
  - inversion He.
  - destruct (q_addr q || _ || q_price q); inversion He; subst. discriminate.
Qed.

Lemma srv_data_wire_ok s data : wire_ok (snd (srv_data req_loads store completed s data)).
Proof.
  unfold srv_data.
  destruct (zlen (s_buf s) + zlen data >=? MAX_REQUEST_SIZE); [repeat constructor|].
  destruct data as [|b d]; [repeat constructor|].
  destruct (after_last_brace (b :: d)); [|constructor].
  destruct (req_loads (s_buf s ++ b :: d)); cbn [snd]; try (repeat constructor).
  apply handle_request_wire_ok.
Qed.

Lemma srv_run_wire_ok frags : wire_ok (snd (srv_run req_loads store completed fresh_server frags)).
Proof.
  apply (fold_left_inv _ (fun st => wire_ok (snd st))); [|constructor].
  intros [s acc] f Ha. unfold srv_step. destruct (s_open s); [|exact Ha].
  pose proof (srv_data_wire_ok s f) as Hd. destruct (srv_data _ _ _ s f) as [s' out]. apply wire_ok_app; assumption.
Qed.

Lemma srv_closed_stays : forall frags s acc, s_open s = false ->
  fold_left (srv_step req_loads store completed) frags (s, acc) = (s, acc).
Proof.
  intros frags s acc Hc. apply (fold_left_inv _ (fun st => st = (s, acc))); [|reflexivity].
  intros st f ->. unfold srv_step. rewrite Hc. reflexivity.
Qed.

Definition no_brace (f : bytes) : Prop := forall x, In x f -> x <> rbrace.

Lemma after_last_brace_none : forall d, no_brace d -> after_last_brace d = None.
Proof.
  induction d as [|b d IH]; intro Hn; [reflexivity|].
  cbn [after_last_brace]. rewrite IH by (intros x Hx; apply Hn; right; exact Hx).
  destruct (byte_eqb b rbrace) eqn:E; [|reflexivity].
  apply byte_eqb_eq in E. exfalso. apply (Hn b); [left; reflexivity | exact E].
Qed.

Lemma after_last_brace_last : forall d, after_last_brace (d ++ [rbrace]) = Some [].
Proof.
  induction d as [|b d IH]; cbn [app after_last_brace]; [rewrite byte_eqb_refl|rewrite IH]; reflexivity.
Qed.

(* an honest request (its only '}' is its last byte, shorter than the cap) however it is cut: a segment that is not the
   last has no '}' and is buffered, the last one completes the request *)
Lemma srv_fragmentation body q frags :
  no_brace body -> req_loads (body ++ [rbrace]) = RReq q ->
  zlen (body ++ [rbrace]) < MAX_REQUEST_SIZE ->
  concat frags = body ++ [rbrace] -> (forall f, In f frags -> f <> []) ->
  srv_run req_loads store completed fresh_server frags =
    (mkS [] (negb (existsb is_close (handle_request store completed q))),
     handle_request store completed q).
Proof.
  intros Hnb Hreq Hlen Hc Hne. set (final := (mkS [] _, _)).
  refine (fold_left_stream (srv_step req_loads store completed) (fun f => f) (@concat _) (fun f => f <> [])
            (fun pre rest st => st = match rest with [] => final | _ => (mkS pre true, []) end) (body ++ [rbrace])
            eq_refl (fun _ _ => eq_refl) _ frags [] (fresh_server, []) _ _ Hc);
    [|rewrite Hc; destruct body; reflexivity|apply Forall_forall, Hne].
  intros pre more st d -> Hd Hs. rewrite <- Hs, !zlen_app in Hlen. pose proof (zlen_nonneg more).
  destruct d as [|b0 d']; [congruence|]. unfold srv_step, srv_data. cbn [app s_open s_buf].
  destruct (Z.geb_spec (zlen pre + zlen (b0 :: d')) MAX_REQUEST_SIZE); [lia|].
  destruct (exists_last Hd) as [m [z Hz]]. rewrite Hz in *. clear Hz.
  destruct more as [|m0 more'].
  - rewrite app_nil_r, app_assoc in Hs. apply app_inj_tail in Hs. destruct Hs as [Hb ->].
    rewrite after_last_brace_last, app_assoc, Hb, Hreq. reflexivity.
  - destruct (@exists_last _ (m0 :: more')) as [m' [z' Hz']]; [discriminate|]. rewrite Hz', app_assoc in Hs.
    apply app_inj_tail in Hs. destruct Hs as [Hb _].
    rewrite after_last_brace_none by (intros x Hx; apply Hnb; rewrite <- Hb; auto using in_or_app). reflexivity.
Qed.

End Server.
