(* Gap-limited address chains. [wf_table] (indices contiguous from 0, every row carrying the address of its
   index) holds of every reachable table; [trailing] counts the unused rows at the end of a table, and on a
   wf table ensure_gap appends the [fresh] rows that bring that count up to the gap (ensure_gap_spec):
   everything about calls and histories follows from that. *)
From Coq Require Import Arith NArith List Lia Permutation.
From Coq.Strings Require Import Byte.
From LV Require Import Lib.Bytes Lib.Lists Lib.Isort Model.C06 Proofs.C06_Num.
Import ListNotations.
Local Open Scope N_scope.

Section Gap.
  Variable addr_of : N -> bytes.

  Definition ident (r : row) : N * bytes := (r_n r, r_addr r).
  Definition expected (i : nat) : N * bytes := (N.of_nat i, addr_of (N.of_nat i)).

  Definition wf_table (t : list row) : Prop := map ident t = map expected (seq 0 (length t)).

  Definition all_unused (l : list row) : Prop := Forall (fun r => unused r = true) l.

  Lemma wf_nil : wf_table [].
  Proof. reflexivity. Qed.

  Lemma ensure_gap_appends g v : exists ext, fst (ensure_gap addr_of g v) = v ++ ext.
  Proof.
    unfold ensure_gap. destruct (_ =? g)%nat; cbn [fst]; [exists []; rewrite app_nil_r; reflexivity | eexists; reflexivity].
  Qed.

  (* `order by n desc limit gap`: the next index is one more than that of the last row *)
  Lemma wf_start gap t : wf_table t -> (0 < gap)%nat ->
    match firstn gap (rev t) with r :: _ => r_n r + 1 | [] => 0 end = N.of_nat (length t).
  Proof.
    intros Hwf Hg. destruct gap; [lia|]. destruct t as [|r t0 _] using rev_ind; [reflexivity|].
    rewrite rev_app_distr. cbn [rev app firstn]. unfold wf_table in Hwf.
    rewrite app_length, Nat.add_comm in Hwf |- *. cbn [length Nat.add] in Hwf |- *.
    rewrite seq_S, !map_app in Hwf. apply app_inj_tail in Hwf as [_ Hl]. injection Hl as Hn _. rewrite Hn. lia.
  Qed.

  Definition fresh (L m : nat) : list row := map (fun n => mk_row n (addr_of n) 0) (map N.of_nat (seq L m)).

  Lemma fresh_length L m : length (fresh L m) = m.
  Proof. unfold fresh. rewrite !map_length. apply seq_length. Qed.

  Lemma fresh_unused L m : all_unused (fresh L m).
  Proof. unfold fresh, all_unused. rewrite Forall_map. apply Forall_forall. reflexivity. Qed.

  Lemma wf_app_fresh t m : wf_table t -> wf_table (t ++ fresh (length t) m).
  Proof.
    unfold wf_table. rewrite app_length, fresh_length, seq_app, !map_app. intros ->.
    unfold fresh. rewrite !map_map. reflexivity.
  Qed.

  Lemma seq_from L m : forall s, map (fun i => N.of_nat L + N.of_nat i) (seq s m) = map N.of_nat (seq (L + s) m).
  Proof.
    induction m as [|m IH]; intro s; [reflexivity|].
    cbn [seq map]. rewrite IH, Nat2N.inj_add, Nat.add_succ_r. reflexivity.
  Qed.

  Definition trailing (t : list row) : nat := count_leading unused (rev t).

  Lemma trailing_spec t d :
    (trailing t <= length t)%nat /\ all_unused (skipn (length t - trailing t) t) /\
    ((trailing t < length t)%nat -> unused (nth (length t - trailing t - 1) t d) = false).
  Proof.
    unfold trailing. destruct (count_leading_spec unused (rev t) d) as (Hle & Hlead & Hu).
    rewrite rev_length in Hle, Hu. rewrite firstn_rev in Hlead. apply Forall_rev in Hlead. rewrite rev_involutive in Hlead.
    repeat split; [exact Hle | exact Hlead|].
    intro Ht. rewrite <- Nat.sub_add_distr, Nat.add_1_r, <- rev_nth by exact Ht. exact (Hu Ht).
  Qed.

  Lemma trailing_app t ext : all_unused ext -> trailing (t ++ ext) = (length ext + trailing t)%nat.
  Proof.
    intro H. unfold trailing. rewrite rev_app_distr, count_leading_app, rev_length; [reflexivity | apply Forall_rev, H].
  Qed.

  Lemma trailing_ge g t : (g <= trailing t)%nat -> (g <= length t)%nat /\ all_unused (skipn (length t - g) t).
  Proof.
    destruct (trailing_spec t (mk_row 0 [] 0)) as (Hl & Hu & _). intro Hg. split; [lia|].
    replace (length t - g)%nat with ((trailing t - g) + (length t - trailing t))%nat by lia. rewrite <- skipn_skipn.
    unfold all_unused in *. rewrite Forall_forall in *. intros r Hr. exact (Hu r (In_skipn _ _ r Hr)).
  Qed.

  (* a call tops the trailing unused run up to [gap]: when the run is that long already, gap - trailing t = 0
     and nothing is appended *)
  Theorem ensure_gap_spec gap t (ext := fresh (length t) (gap - trailing t)) : wf_table t ->
    ensure_gap addr_of gap t = (t ++ ext, map r_addr ext) /\ wf_table (t ++ ext) /\
    trailing (t ++ ext) = Nat.max gap (trailing t).
  Proof.
    subst ext. intro Hwf.
    split; [|split; [apply wf_app_fresh, Hwf | rewrite trailing_app, fresh_length by apply fresh_unused; lia]].
    unfold ensure_gap. rewrite count_leading_firstn. fold (trailing t).
    destruct (Nat.eqb_spec (Nat.min gap (trailing t)) gap) as [E|E].
    - replace (gap - trailing t)%nat with 0%nat by lia. cbn. rewrite app_nil_r. reflexivity.
    - replace (gap - Nat.min gap (trailing t))%nat with (gap - trailing t)%nat by lia.
      rewrite wf_start, seq_from, Nat.add_0_r by (exact Hwf || lia). unfold fresh. rewrite !map_map. reflexivity.
  Qed.

  Theorem ensure_gap_idempotent gap t : wf_table t ->
    ensure_gap addr_of gap (fst (ensure_gap addr_of gap t)) = (fst (ensure_gap addr_of gap t), []).
  Proof.
    intro Hwf. destruct (ensure_gap_spec gap t Hwf) as (-> & Hw & Hg). cbn [fst].
    destruct (ensure_gap_spec gap _ Hw) as (-> & _). rewrite Hg, (proj2 (Nat.sub_0_le _ _) (Nat.le_max_l _ _)).
    cbn. rewrite app_nil_r. reflexivity.
  Qed.

  (* no more addresses than necessary: when something was generated, the trailing run is exactly [gap] rows,
     so either they are the whole chain or the row just below them is a used one *)
  Theorem ensure_gap_tight gap t : wf_table t -> snd (ensure_gap addr_of gap t) <> [] ->
    let t' := fst (ensure_gap addr_of gap t) in
    length t' = gap \/
    ((gap < length t')%nat /\ unused (nth (length t' - gap - 1) t' (mk_row 0 [] 0)) = false).
  Proof.
    intro Hwf. destruct (ensure_gap_spec gap t Hwf) as (-> & _ & Hg). cbn [fst snd]. intro Hne.
    set (t' := t ++ _) in *. destruct (trailing_spec t' (mk_row 0 [] 0)) as (Hl & _ & Hstop).
    replace (trailing t') with gap in Hl, Hstop by (destruct (gap - trailing t)%nat eqn:E; [destruct Hne; reflexivity | lia]).
    destruct (Nat.eq_dec (length t') gap); [left; assumption | right; split; [lia | apply Hstop; lia]].
  Qed.

  Lemma set_used_ident a k t : map ident (set_used a k t) = map ident t.
  Proof.
    unfold set_used. rewrite map_map. apply map_ext. intro r. destruct (bytes_eqb _ _); reflexivity.
  Qed.

  Lemma set_used_length a k t : length (set_used a k t) = length t.
  Proof. unfold set_used. apply map_length. Qed.

  Lemma gstep_wf t op : wf_table t -> wf_table (gstep addr_of t op).
  Proof.
    intro Hwf. destruct op as [g|n k]; cbn [gstep].
    - destruct (ensure_gap_spec g t Hwf) as (-> & Hw & _). exact Hw.
    - unfold wf_table. rewrite set_used_ident, set_used_length. exact Hwf.
  Qed.

  Lemma gstep_extends t op : wf_table t ->
    exists ext, map ident (gstep addr_of t op) = map ident t ++ map ident ext /\
                match op with GEnsure _ => gstep addr_of t op = t ++ ext | GUse _ _ => ext = [] end.
  Proof.
    intro Hwf. destruct op as [g|n k]; cbn [gstep].
    - destruct (ensure_gap_spec g t Hwf) as (-> & _). eexists. cbn [fst]. rewrite map_app. split; reflexivity.
    - exists []. rewrite set_used_ident, app_nil_r. split; reflexivity.
  Qed.

  Theorem grun_wf ops : wf_table (grun addr_of ops).
  Proof. apply (fold_left_inv (gstep addr_of) wf_table); [intros t op; apply gstep_wf | exact wf_nil]. Qed.

  Lemma wf_row t i d : wf_table t -> (i < length t)%nat -> ident (nth i t d) = expected i.
  Proof.
    intros Hwf Hi. rewrite <- (map_nth ident), Hwf, (nth_indep _ _ (expected 0)), map_nth, seq_nth
      by (rewrite ?map_length, ?seq_length; exact Hi). reflexivity.
  Qed.

  (* the same account key gives the same addresses in the same order whatever the usage history *)
  Theorem addresses_deterministic ops1 ops2 i d :
    (i < length (grun addr_of ops1))%nat -> (i < length (grun addr_of ops2))%nat ->
    ident (nth i (grun addr_of ops1) d) = ident (nth i (grun addr_of ops2) d) /\
    ident (nth i (grun addr_of ops1) d) = expected i.
  Proof.
    intros H1 H2. rewrite !wf_row by (apply grun_wf || assumption). split; reflexivity.
  Qed.

  Theorem addresses_are_prefixes ops :
    map r_addr (grun addr_of ops) = map (fun i => addr_of (N.of_nat i)) (seq 0 (length (grun addr_of ops))).
  Proof.
    pose proof (grun_wf ops) as Hwf. unfold wf_table in Hwf.
    apply (f_equal (map snd)) in Hwf. rewrite !map_map in Hwf. exact Hwf.
  Qed.

  Lemma grun_snoc ops op : grun addr_of (ops ++ [op]) = gstep addr_of (grun addr_of ops) op.
  Proof. unfold grun. rewrite fold_left_app. reflexivity. Qed.

  (* after any history, an ensure_address_gap leaves the last [gap] addresses unused, keeps every
     earlier row as it was and keeps the indices contiguous *)
  Theorem gap_maintained ops gap :
    let before := grun addr_of ops in
    let after := grun addr_of (ops ++ [GEnsure gap]) in
    (exists ext, after = before ++ ext /\ all_unused ext) /\
    wf_table after /\ (gap <= length after)%nat /\ all_unused (skipn (length after - gap) after).
  Proof.
    cbn zeta. rewrite grun_snoc. cbn [gstep].
    destruct (ensure_gap_spec gap (grun addr_of ops) (grun_wf ops)) as (-> & Hw & Hg). cbn [fst].
    split; [eexists; split; [reflexivity | apply fresh_unused] | split; [exact Hw | apply trailing_ge; rewrite Hg; apply Nat.le_max_l]].
  Qed.

  Definition row_leP (a b : row) : Prop := row_le a b = true.

  Lemma row_le_iff a b : row_le a b = true <-> r_used a < r_used b \/ (r_used a = r_used b /\ r_n a <= r_n b).
  Proof. apply lex_pair_iff. Qed.

  Lemma row_le_total a b : row_le a b = true \/ row_le b a = true.
  Proof. rewrite !row_le_iff. lia. Qed.

  Lemma row_le_trans a b c : row_le a b = true -> row_le b c = true -> row_le a c = true.
  Proof. rewrite !row_le_iff. lia. Qed.

  Inductive sorted : list row -> Prop :=
  | sorted_nil : sorted []
  | sorted_cons r l : Forall (fun x => row_le r x = true) l -> sorted l -> sorted (r :: l).

  (* get_address_records lists exactly the rows of the chain, ordered by (used_times, n) *)
  Theorem address_records_spec t :
    Permutation.Permutation (address_records t) t /\ sorted (address_records t).
  Proof.
    split; [exact (sort_perm row_le insert_row address_records (fun _ => eq_refl) (fun _ _ _ => eq_refl) eq_refl (fun _ _ => eq_refl) t)|].
    apply (sort_sorted row_le insert_row address_records (fun _ => eq_refl) (fun _ _ _ => eq_refl) eq_refl (fun _ _ => eq_refl)
      sorted sorted_nil); [|exact row_le_total | exact row_le_trans].
    intros r l. rewrite <- Forall_forall. split; [inversion 1; auto | intros []; constructor; assumption].
  Qed.
End Gap.
