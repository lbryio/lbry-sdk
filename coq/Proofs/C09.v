(* What one step does is described once ([Step]; [at_addr] for the lock and the stored history of one address), and
   every invariant over arbitrary interleavings of steps is proved from that description through [run_invariant]:
   [Inv] (rows are sound, stored histories are covered by rows), [GInv] (address gap), [HInv] (every stored history
   was some earlier server's). *)
From Coq Require Import NArith ZArith List Bool Arith Lia Permutation.
From LV Require Import Lib.Lists Model.C09.
Import ListNotations.

Lemma addr_eqb_refl a : addr_eqb a a = true.
Proof. destruct a; simpl; rewrite N.eqb_refl, ?Nat.eqb_refl; reflexivity. Qed.
Lemma addr_eqb_eq a b : addr_eqb a b = true <-> a = b.
Proof.
  split; [|intros <-; apply addr_eqb_refl]. destruct a, b; simpl; try discriminate.
  - intros [->%N.eqb_eq ->%Nat.eqb_eq]%andb_true_iff. reflexivity.
  - intros ->%N.eqb_eq. reflexivity.
Qed.
Lemma addr_eqb_spec a b : reflect (a = b) (addr_eqb a b).
Proof. apply iff_reflect. symmetry. apply addr_eqb_eq. Qed.
Lemma addr_eqb_neq a b : addr_eqb a b = false <-> a <> b.
Proof. destruct (addr_eqb_spec a b); intuition congruence. Qed.
Lemma addr_eqb_sym a b : addr_eqb a b = addr_eqb b a.
Proof. destruct (addr_eqb_spec a b), (addr_eqb_spec b a); congruence. Qed.

Lemma entry_eqb_eq (x y : entry) : entry_eqb x y = true <-> x = y.
Proof.
  destruct x, y. unfold entry_eqb. simpl. split; [intros [->%N.eqb_eq ->%Z.eqb_eq]%andb_true_iff; reflexivity|].
  intros [= <- <-]. rewrite N.eqb_refl, Z.eqb_refl. reflexivity.
Qed.
Lemma hist_eqb_eq l r : hist_eqb l r = true <-> l = r.
Proof.
  revert r. induction l as [|x l IH]; destruct r as [|y r]; simpl; split; intro H; try discriminate; auto.
  - apply andb_true_iff in H. destruct H as [H1 H2]. apply entry_eqb_eq in H1. apply IH in H2. congruence.
  - injection H as -> ->. apply andb_true_iff. split; [apply entry_eqb_eq | apply IH]; reflexivity.
Qed.

Lemma mem_entry_In e l : mem_entry e l = true <-> In e l.
Proof. apply existsb_eqb, entry_eqb_eq. Qed.
Lemma mem_id_In p l : mem_id p l = true <-> In p l.
Proof. apply existsb_eqb, N.eqb_eq. Qed.

Lemma list_eqb_eq {A} (f : A -> A -> bool) :
  (forall x y, f x y = true -> x = y) -> forall l r, list_eqb f l r = true -> l = r.
Proof.
  intros Hf. induction l as [|x l IH]; destruct r as [|y r]; simpl; intro H; try discriminate; auto.
  apply andb_true_iff in H. destruct H as [H1 H2]. apply Hf in H1. apply IH in H2. congruence.
Qed.
Lemma output_eqb_eq o o' : output_eqb o o' = true -> o = o'.
Proof.
  destruct o as [k a w p], o' as [k' a' w' p']. unfold output_eqb. simpl.
  intros [[[H ->%N.eqb_eq]%andb_true_iff ->%N.eqb_eq]%andb_true_iff ->%eqb_prop]%andb_true_iff. f_equal.
  destruct k, k'; try discriminate; [apply addr_eqb_eq in H | apply N.eqb_eq in H|]; congruence.
Qed.
Lemma tx_eqb_eq t t' : tx_eqb t t' = true -> t = t'.
Proof.
  destruct t, t'. unfold tx_eqb. simpl. intros [[->%N.eqb_eq H1]%andb_true_iff H0]%andb_true_iff.
  apply list_eqb_eq in H0; [|apply output_eqb_eq]. apply list_eqb_eq in H1; [congruence|].
  intros [] []. simpl. intros [->%N.eqb_eq ->%Nat.eqb_eq]%andb_true_iff. reflexivity.
Qed.

Lemma aget_filter {V} (l : list (addr * V)) a b :
  aget (filter (fun x => negb (addr_eqb (fst x) a)) l) b = if addr_eqb a b then None else aget l b.
Proof.
  induction l as [|[c v] l IH]; simpl; [destruct (addr_eqb a b); reflexivity|].
  destruct (addr_eqb_spec c a) as [->|N]; simpl; rewrite IH; destruct (addr_eqb_spec a b) as [E|E]; try reflexivity.
  subst b. apply addr_eqb_neq in N. rewrite N. reflexivity.
Qed.
Lemma aget_aset_if {V} (l : list (addr * V)) a b v :
  aget (aset l a v) b = if addr_eqb a b then Some v else aget l b.
Proof. unfold aset. simpl. rewrite aget_filter. destruct (addr_eqb a b); reflexivity. Qed.
Lemma aget_aset_same {V} (l : list (addr * V)) a v : aget (aset l a v) a = Some v.
Proof. rewrite aget_aset_if, addr_eqb_refl. reflexivity. Qed.
Lemma aget_aset_other {V} (l : list (addr * V)) a b v : a <> b -> aget (aset l a v) b = aget l b.
Proof. intro N. apply addr_eqb_neq in N. rewrite aget_aset_if, N. reflexivity. Qed.
Lemma aget_adel_same {V} (l : list (addr * V)) a : aget (adel l a) a = None.
Proof. unfold adel. rewrite aget_filter, addr_eqb_refl. reflexivity. Qed.
Lemma aget_adel_other {V} (l : list (addr * V)) a b : a <> b -> aget (adel l a) b = aget l b.
Proof. intro N. apply addr_eqb_neq in N. unfold adel. rewrite aget_filter, N. reflexivity. Qed.

Lemma nget_nset_same l c v : nget (nset l c v) c = v.
Proof. unfold nset. simpl. rewrite N.eqb_refl. reflexivity. Qed.
Lemma nget_nset_other l c d v : c <> d -> nget (nset l c v) d = nget l d.
Proof.
  intro N. unfold nset. simpl. apply N.eqb_neq in N. rewrite N.
  induction l as [|[x y] l IH]; simpl; auto.
  destruct (N.eqb_spec x c) as [->|]; simpl; rewrite ?N, IH; reflexivity.
Qed.
Lemma nget_notin l c : ~ In c (map fst l) -> nget l c = 0.
Proof.
  induction l as [|[d v] l IH]; simpl; intro N; auto.
  destruct (N.eqb_spec d c); [tauto|]. apply IH. tauto.
Qed.

Lemma find_tx_some S p t : find_tx S p = Some t -> t_id t = p /\ exists h, In (t, h) S.
Proof.
  unfold find_tx. destruct (find (fun x => N.eqb (t_id (fst x)) p) S) as [[t' h]|] eqn:E; intro H; inversion H; subst.
  apply find_some in E. destruct E as [E1 E2]. apply N.eqb_eq in E2. eauto.
Qed.
Lemma find_tx_none S p : find_tx S p = None -> forall t h, In (t, h) S -> t_id t <> p.
Proof.
  unfold find_tx. destruct (find (fun x => N.eqb (t_id (fst x)) p) S) eqn:E; intro H; try discriminate.
  intros t h I. apply N.eqb_neq. apply (find_none _ _ E _ I).
Qed.

Lemma ids_In S p : In p (ids S) <-> exists t h, In (t, h) S /\ t_id t = p.
Proof.
  unfold ids. rewrite in_map_iff. split.
  - intros [[t h] [A B]]. eauto.
  - intros [t [h [A B]]]. exists (t, h). auto.
Qed.

Lemma nodup_ids_NoDup l : nodup_ids l = true -> NoDup l.
Proof. exact (nodupb_NoDup l). Qed.

Lemma nodup_ids_inj S : nodup_ids (ids S) = true ->
  forall t h t' h', In (t, h) S -> In (t', h') S -> t_id t = t_id t' -> (t, h) = (t', h').
Proof.
  intros N t h t' h'. apply (NoDup_map_inj (fun x : stx => t_id (fst x)) S (t, h) (t', h')), nodup_ids_NoDup, N.
Qed.

Lemma find_tx_In S t h : nodup_ids (ids S) = true -> In (t, h) S -> find_tx S (t_id t) = Some t.
Proof.
  intros N T. destruct (find_tx S (t_id t)) as [t2|] eqn:Q; [|destruct (find_tx_none _ _ Q _ _ T eq_refl)].
  apply find_tx_some in Q. destruct Q as [Q1 [h2 Q2]].
  assert (X := nodup_ids_inj S N _ _ _ _ Q2 T Q1). congruence.
Qed.
Lemma out_at_In S t h i : nodup_ids (ids S) = true -> In (t, h) S ->
  out_at S (t_id t) i = nth_error (t_outs t) i.
Proof. intros N T. unfold out_at. rewrite (find_tx_In S t h N T). reflexivity. Qed.
Lemma out_at_some S p i o : out_at S p i = Some o ->
  exists t h, In (t, h) S /\ t_id t = p /\ nth_error (t_outs t) i = Some o.
Proof.
  unfold out_at. destruct (find_tx S p) as [t|] eqn:E; [|discriminate]. intro O.
  apply find_tx_some in E. destruct E as [E [h T]]. eauto.
Qed.

Lemma ok_parts S : server_ok_b S = true ->
  nodup_ids (ids S) = true /\ (forall t h, In (t, h) S -> t_id t <> 0%N) /\
  (forall t h inp, In (t, h) S -> In inp (t_ins t) -> fst inp = 0%N \/ In (fst inp) (ids S)).
Proof.
  unfold server_ok_b. rewrite !andb_true_iff, negb_true_iff. intros [[[N Z] C] _].
  split; [exact N|split].
  - intros t h I E. rewrite <- not_true_iff_false, mem_id_In, ids_In in Z. eauto.
  - intros t h inp I J. unfold closed_b in C. rewrite forallb_forall in C. specialize (C _ I). simpl in C.
    rewrite forallb_forall in C. specialize (C _ J). rewrite orb_true_iff, N.eqb_eq, mem_id_In in C. exact C.
Qed.

Definition InF (F : list stx) (t : tx) : Prop := exists h, In (t, h) F.
Definition sub (F S : list stx) : Prop := forall t h, In (t, h) S -> InF F t.

Lemma sub_refl S : sub S S.
Proof. intros t h J. exists h. exact J. Qed.
Lemma sub_trans S1 S2 S3 : sub S2 S1 -> sub S3 S2 -> sub S3 S1.
Proof. intros A B t h J. destruct (A _ _ J) as [h' J']. exact (B _ _ J'). Qed.

Lemma grows_sound S S' : grows_b S S' = true -> sub S' S.
Proof.
  unfold grows_b. rewrite forallb_forall. intros G t h I. specialize (G _ I). simpl in G.
  apply existsb_exists in G. destruct G as [[t' h'] [A B]]. apply tx_eqb_eq in B. simpl in B. subst. exists h'. exact A.
Qed.

Lemma common_prefix_In l : forall r e, In e (common_prefix l r) -> In e l /\ In e r.
Proof.
  induction l as [|x l IH]; destruct r as [|y r]; simpl; intros e H; try contradiction.
  destruct (entry_eqb x y) eqn:E; [|contradiction]. apply entry_eqb_eq in E. subst.
  destruct H as [H|H]; auto. apply IH in H. tauto.
Qed.

Lemma server_hist_In S a e : In e (server_hist S a) <->
  exists t h, In (t, h) S /\ touches S a t = true /\ e = (t_id t, h).
Proof.
  unfold server_hist. rewrite in_map_iff. split.
  - intros [[t h] [A B]]. apply filter_In in B. simpl in *. destruct B. exists t, h. auto.
  - intros [t [h [A [B C]]]]. exists (t, h). split; auto. apply filter_In. auto.
Qed.

Lemma pays_PKH a o : o_kind o = PKH a -> pays a o = true.
Proof. unfold pays. intros ->. apply addr_eqb_refl. Qed.
Lemma pays_inv a o : pays a o = true -> o_kind o = PKH a.
Proof. unfold pays. destruct (o_kind o); try discriminate. intro E. apply addr_eqb_eq in E. congruence. Qed.

Lemma touches_pays S a t i o : nth_error (t_outs t) i = Some o -> pays a o = true -> touches S a t = true.
Proof.
  intros N P. unfold touches. apply orb_true_iff. left. apply existsb_exists. exists o. split; auto.
  eapply nth_error_In; eauto.
Qed.

Lemma fetch_batch_In S req x : In x (fetch_batch S req) <->
  exists e, In e req /\ find_tx S (fst e) = Some (fst x) /\ snd x = snd e.
Proof.
  unfold fetch_batch. rewrite in_flat_map. split; intros [e [J1 J2]]; exists e; split; auto.
  - destruct (find_tx S (fst e)); [|contradiction]. destruct J2 as [<-|[]]. auto.
  - destruct J2 as [-> <-]. destruct x. simpl. auto.
Qed.

Lemma enum_In_gen {A} (l : list A) k x b :
  In (k, x) (combine (seq b (length l)) l) <-> (b <= k /\ nth_error l (k - b) = Some x).
Proof.
  revert b. induction l as [|y l IH]; intro b; simpl.
  - split; [tauto|]. intros [_ H]. destruct (k - b); discriminate.
  - rewrite IH. split.
    + intros [H|[H1 H2]].
      * inversion H; subst. rewrite Nat.sub_diag. auto.
      * split; [lia|]. replace (k - b) with (S (k - S b)) by lia. exact H2.
    + intros [H1 H2]. destruct (Nat.eq_dec b k) as [->|].
      * rewrite Nat.sub_diag in H2. inversion H2. auto.
      * right. split; [lia|]. replace (k - b) with (S (k - S b)) in H2 by lia. exact H2.
Qed.
Lemma enum_In {A} (l : list A) k x : In (k, x) (enum l) <-> nth_error l k = Some x.
Proof. unfold enum. rewrite enum_In_gen, Nat.sub_0_r. intuition lia. Qed.

(* The tables are lists of rows read through a key: (txid, position) for txo rows, the spent outpoint for txi rows,
   the id for transactions.  [In k (map key l)] says that slot [k] of [l] is occupied. *)
Section Table.
Context {A K : Type} (key : A -> K) (at_key : K -> A -> bool).
Hypothesis at_key_spec : forall k x, at_key k x = true <-> key x = k.

Lemma existsb_at k l : existsb (at_key k) l = true <-> In k (map key l).
Proof.
  rewrite existsb_exists, in_map_iff. split; intros [x [H1 H2]]; exists x; split; auto; apply at_key_spec; auto.
Qed.

(* what the two ways of writing a row, [ins] and [ups], have in common *)
Definition written (l rows l' : list A) : Prop :=
  (forall x, In x l' -> In x l \/ In x rows) /\
  (forall k, In k (map key l) \/ In k (map key rows) -> In k (map key l')).

Lemma written_fold (f : list A -> A -> list A) : (forall l r, written l [r] (f l r)) ->
  forall rows l, written l rows (fold_left f rows l).
Proof.
  intro W. unfold written. induction rows as [|r rows IH]; intro l; simpl.
  - split; [auto | intros k [J|[]]; exact J].
  - destruct (W l r) as [A1 B1], (IH (f l r)) as [A2 B2]. split.
    + intros x J. destruct (A2 x J) as [J1|J1]; auto. destruct (A1 x J1) as [|[<-|[]]]; auto.
    + intros k [J|[<-|J]]; apply B2; auto; left; apply B1; simpl; auto.
Qed.

(* insert or ignore, insert or replace *)
Let ins (l : list A) (r : A) : list A := if existsb (at_key (key r)) l then l else l ++ [r].
Let ups (l : list A) (r : A) : list A := filter (fun y => negb (at_key (key r) y)) l ++ [r].

Lemma ins_written l r : written l [r] (ins l r).
Proof.
  unfold ins. destruct (existsb _ l) eqn:E; split; auto.
  - intros k [J|[<-|[]]]; auto. apply existsb_at, E.
  - intros x J. apply in_app_or, J.
  - intros k J. rewrite map_app. apply in_or_app, J.
Qed.

Lemma ups_written l r : written l [r] (ups l r).
Proof.
  unfold ups. split.
  - intros x J. apply in_app_or in J. destruct J as [J|J]; auto. apply filter_In in J. tauto.
  - intros k J. rewrite map_app. apply in_or_app. destruct J as [J|J]; auto.
    apply in_map_iff in J. destruct J as [x [<- J]]. destruct (at_key (key r) x) eqn:E.
    + apply at_key_spec in E. simpl. auto.
    + left. apply in_map, filter_In. rewrite E. auto.
Qed.

Lemma fold_ins_incl rows l x : In x l -> In x (fold_left ins rows l).
Proof.
  apply fold_left_inv. intros l' r H. unfold ins. destruct (existsb _ l'); auto. apply in_or_app. auto.
Qed.

Lemma fold_ins_nodup rows l : NoDup (map key l) -> NoDup (map key (fold_left ins rows l)).
Proof.
  apply (fold_left_inv ins (fun l => NoDup (map key l))). intros l' r N. unfold ins.
  destruct (existsb _ l') eqn:E; auto. rewrite map_app. apply NoDup_app_intro; auto.
  - constructor; [intros []|constructor].
  - intros k J [<-|[]]. apply existsb_at in J. congruence.
Qed.
End Table.

Definition pair_at {A} (f : A -> N) (g : A -> nat) (k : N * nat) (x : A) : bool :=
  N.eqb (f x) (fst k) && Nat.eqb (g x) (snd k).
Lemma pair_at_spec {A} (f : A -> N) (g : A -> nat) k x : pair_at f g k x = true <-> (f x, g x) = k.
Proof.
  destruct k as [p i]. unfold pair_at. simpl. rewrite andb_true_iff, N.eqb_eq, Nat.eqb_eq.
  split; [intros [-> ->]; reflexivity | intros [= -> ->]; auto].
Qed.
Lemma existsb_key {A} (f : A -> N) (g : A -> nat) l p i :
  existsb (fun r => N.eqb (f r) p && Nat.eqb (g r) i) l = true <-> In (p, i) (map (fun r => (f r, g r)) l).
Proof. exact (existsb_at _ _ (pair_at_spec f g) (p, i) l). Qed.

Definition key (r : txo_row) : N * nat := (r_txid r, r_pos r).
Definition ikey (r : txi_row) : N * nat := (i_prev r, i_ppos r).

Lemma has_txo_key l p i : has_txo l p i = true <-> In (p, i) (map key l).
Proof. apply existsb_key. Qed.
Lemma has_txi_key l p i : has_txi l p i = true <-> In (p, i) (map ikey l).
Proof. apply existsb_key. Qed.

Lemma find_txo_some l p i r : find_txo l p i = Some r -> In r l /\ r_txid r = p /\ r_pos r = i.
Proof. unfold find_txo. intros [Hr [->%N.eqb_eq ->%Nat.eqb_eq]%andb_true_iff]%find_some. auto. Qed.

Lemma txo_written rows l : written key l rows (fold_left ins_txo rows l).
Proof. exact (written_fold key _ (ins_written key _ (pair_at_spec r_txid r_pos)) rows l). Qed.
Lemma txi_written rows l : written ikey l rows (fold_left ins_txi rows l).
Proof. exact (written_fold ikey _ (ins_written ikey _ (pair_at_spec i_prev i_ppos)) rows l). Qed.
Lemma tx_written xs l : written (fun x : stx => t_id (fst x)) l xs (fold_left upsert_tx xs l).
Proof.
  exact (written_fold _ _ (ups_written _ (fun p (x : stx) => N.eqb (t_id (fst x)) p) (fun k x => N.eqb_eq _ k)) xs l).
Qed.

Lemma new_txo_In a m t r : In r (new_txo a m t) ->
  r_txid r = t_id t /\ nth_error (t_outs t) (r_pos r) = Some (r_out r) /\ r_type r = txo_type t (r_pos r) (r_out r).
Proof.
  unfold new_txo. intro H. apply in_flat_map in H. destruct H as [[k o] [H1 H2]]. simpl in H2.
  destruct (store_out a m o); [|contradiction]. destruct H2 as [<-|[]]. apply enum_In in H1. auto.
Qed.
Lemma new_txo_complete a m t pos o : nth_error (t_outs t) pos = Some o -> pays a o = true ->
  In (mkTxo (t_id t) pos o (txo_type t pos o)) (new_txo a m t).
Proof.
  intros N P. unfold new_txo. apply in_flat_map. exists (pos, o). split; [apply enum_In; auto|].
  simpl. unfold store_out. unfold pays in P. destruct (o_kind o); try discriminate.
  rewrite P. simpl. auto.
Qed.
Lemma new_txi_In a R B txo txt t r : In r (new_txi a R B txo txt t) ->
  exists o, i_txid r = t_id t /\ nth_error (t_ins t) (i_ipos r) = Some (i_prev r, i_ppos r) /\
            resolve R B txo txt (i_prev r, i_ppos r) = Some o /\ pays a o = true /\ i_addr r = a.
Proof.
  unfold new_txi. intro H. apply in_flat_map in H. destruct H as [[k [p i]] [H1 H2]]. simpl in H2.
  destruct (resolve R B txo txt (p, i)) as [o|] eqn:E; [|contradiction].
  destruct (pays a o) eqn:P; [|contradiction]. destruct H2 as [<-|[]].
  apply enum_In in H1. exists o. auto.
Qed.
Lemma new_txi_complete a R B txo txt t k p i o : nth_error (t_ins t) k = Some (p, i) ->
  resolve R B txo txt (p, i) = Some o -> pays a o = true ->
  In (mkTxi (t_id t) k p i a) (new_txi a R B txo txt t).
Proof.
  intros N E P. unfold new_txi. apply in_flat_map. exists (k, (p, i)). split; [apply enum_In; auto|].
  simpl. rewrite E, P. simpl. auto.
Qed.

Definition mine_of (rows : list txi_row) : bool := match rows with [] => false | _ => true end.
(* a batch whose inputs were resolved beforehand ([g]) is written as three independent folds *)
Lemma save_fold_tables a (g : stx -> list txi_row) B : forall d,
  let d' := fold_left (fun d xr => save_one a d (fst xr) (snd xr)) (map (fun x => (x, g x)) B) d in
  d_txo d' = fold_left ins_txo (flat_map (fun x => new_txo a (mine_of (g x)) (fst x)) B) (d_txo d) /\
  d_txi d' = fold_left ins_txi (flat_map g B) (d_txi d) /\
  d_tx d' = fold_left upsert_tx B (d_tx d).
Proof. induction B as [|x B IH]; intro d; simpl; [auto|]. rewrite !fold_left_app. apply IH. Qed.

Lemma save_tables s a H B : let g x := new_txi a (map fst H) B (txo_t s) (tx_t s) (fst x) in
  txo_t (save s a H B) = fold_left ins_txo (flat_map (fun x => new_txo a (mine_of (g x)) (fst x)) B) (txo_t s) /\
  txi_t (save s a H B) = fold_left ins_txi (flat_map g B) (txi_t s) /\
  tx_t (save s a H B) = fold_left upsert_tx B (tx_t s).
Proof. exact (save_fold_tables a _ B (mkDb (tx_t s) (txo_t s) (txi_t s))). Qed.

Definition set_kcs (s : state) (k : list (N * nat)) : state :=
  mkState (server s) (tx_t s) (txo_t s) (txi_t s) (hists s) (pend s) (gaps s) k.

Lemma ensure_gap_kcs s c : ensure_gap s c = set_kcs s (kcs (ensure_gap s c)).
Proof. unfold ensure_gap. destruct (Nat.eqb _ _); [destruct s|]; reflexivity. Qed.
Lemma fold_gap_eq L : forall s, fold_left ensure_gap L s = set_kcs s (kcs (fold_left ensure_gap L s)).
Proof.
  induction L as [|c L IH]; intro s; simpl; [destruct s; reflexivity|].
  rewrite (IH (ensure_gap s c)), (ensure_gap_kcs s c). reflexivity.
Qed.

(* the locks set to [p], then the gap of the chains [L] ensured *)
Definition gapped (s : state) (p : list (addr * stage)) (L : list N) : state :=
  set_kcs (set_pend s p) (kcs (fold_left ensure_gap L (set_pend s p))).

Lemma ensure_gap_le s c c' : nget (kcs s) c' <= nget (kcs (ensure_gap s c)) c'.
Proof.
  unfold ensure_gap. destruct (Nat.eqb _ _); auto. cbn [kcs].
  destruct (N.eq_dec c c') as [<-|E]; [rewrite nget_nset_same; lia | rewrite nget_nset_other; auto].
Qed.
Lemma known_set_kcs s k a : (forall c, nget (kcs s) c <= nget k c) -> known s a = true -> known (set_kcs s k) a = true.
Proof. intro LE. destruct a as [c n|]; simpl; auto. rewrite !Nat.ltb_lt. specialize (LE c). lia. Qed.
Lemma known_ensure_gap s c a : known s a = true -> known (ensure_gap s c) a = true.
Proof. rewrite (ensure_gap_kcs s c). apply known_set_kcs, ensure_gap_le. Qed.
Lemma fold_gap_le L c : forall s, nget (kcs s) c <= nget (kcs (fold_left ensure_gap L s)) c.
Proof.
  induction L as [|c0 L IH]; intro s; simpl; auto. exact (Nat.le_trans _ _ _ (ensure_gap_le s c0 c) (IH _)).
Qed.
Lemma known_gapped s p L a : known s a = true -> known (gapped s p L) a = true.
Proof. apply (known_set_kcs (set_pend s p)). intro c. apply fold_gap_le. Qed.

Lemma begin_cases s a st :
  (begin s a st = s /\ (get_hist s a = st \/ incl (server_hist (server s) a) (get_hist s a))) \/
  exists req, (forall e, In e (server_hist (server s) a) -> In e (get_hist s a) \/ In e req) /\
    begin s a st = set_pend s (aset (pend s) a (Fetched (server_hist (server s) a) (fetch_batch (server s) req))).
Proof.
  unfold begin. destruct (hist_eqb (get_hist s a) st) eqn:E.
  { left. split; auto. left. apply hist_eqb_eq, E. }
  destruct (filter _ (server_hist (server s) a)) as [|e0 need] eqn:En.
  - left. split; auto. right. intros e J. apply mem_entry_In.
    destruct (mem_entry e (get_hist s a)) eqn:M; auto.
    assert (Q: In e []) by (rewrite <- En; apply filter_In; rewrite M; auto). destruct Q.
  - right. eexists. split; [|reflexivity]. intros e J.
    destruct (mem_entry e (common_prefix (get_hist s a) (server_hist (server s) a))) eqn:M.
    + left. apply mem_entry_In, common_prefix_In in M. tauto.
    + right. apply filter_In. rewrite M. auto.
Qed.

(* the three steps that ensure a gap result in [gapped], of which every field but the counters computes *)
Inductive Step (s : state) : op -> state -> Prop :=
| St_server S' : server_ok_b S' = true -> grows_b (server s) S' = true ->
    Step s (Server S') (mkState S' (tx_t s) (txo_t s) (txi_t s) (hists s) (pend s) (gaps s) (kcs s))
| St_skip a st : known s a = true -> aget (pend s) a = None ->
    get_hist s a = st \/ incl (server_hist (server s) a) (get_hist s a) -> Step s (Begin a st) s
| St_fetch a st req : known s a = true -> aget (pend s) a = None ->
    (forall e, In e (server_hist (server s) a) -> In e (get_hist s a) \/ In e req) ->
    Step s (Begin a st)
         (set_pend s (aset (pend s) a (Fetched (server_hist (server s) a) (fetch_batch (server s) req))))
| St_save a H B : aget (pend s) a = Some (Fetched H B) -> Step s (Save a) (save s a H B)
| St_sethist a H : aget (pend s) a = Some (Saved H) -> Step s (SetHist a) (set_history s a H)
| St_gap c n : aget (pend s) (W c n) = Some HistSet ->
    Step s (Gap (W c n)) (gapped s (adel (pend s) (W c n)) [c])
| St_gapchain c : Step s (GapChain c) (gapped s (pend s) [c])
| St_restart : Step s Restart (gapped s [] (map fst (gaps s))).

Lemma step_Step s o s' : step s o = Some s' -> Step s o s'.
Proof.
  destruct o as [S'|a st|a|a|a|c|]; simpl.
  3-5: destruct (aget (pend s) a) as [[H B|H|]|] eqn:P; try discriminate.
  - destruct (server_ok_b S') eqn:E1, (grows_b (server s) S') eqn:E2; try discriminate.
    intros [= <-]. constructor; auto.
  - destruct (known s a) eqn:K; [|discriminate]. destruct (aget (pend s) a) eqn:P; [discriminate|].
    intros [= <-]. destruct (begin_cases s a st) as [[E Q]|[req [Q E]]]; rewrite E; constructor; auto.
  - intros [= <-]. constructor. exact P.
  - intros [= <-]. constructor. exact P.
  - destruct a as [c n|]; [|discriminate]. intros [= <-].
    rewrite ensure_gap_kcs. constructor. exact P.
  - intros [= <-]. rewrite ensure_gap_kcs. destruct s. constructor.
  - intros [= <-]. unfold restart. rewrite fold_gap_eq. constructor.
Qed.

Lemma step_server s o s' : step s o = Some s' ->
  server s' = server s \/
  (exists S', o = Server S' /\ server s' = S' /\ server_ok_b S' = true /\ grows_b (server s) S' = true).
Proof. intro ST. destruct (step_Step _ _ _ ST); [right; eauto 6 | left; reflexivity ..]. Qed.

Lemma step_gaps s o s' : step s o = Some s' -> gaps s' = gaps s.
Proof. intro ST. destruct (step_Step _ _ _ ST); reflexivity. Qed.

Lemma step_tables s o s' : step s o = Some s' ->
  (tx_t s' = tx_t s /\ txo_t s' = txo_t s /\ txi_t s' = txi_t s) \/
  exists a H B, aget (pend s) a = Some (Fetched H B) /\ s' = save s a H B.
Proof. intro ST. destruct (step_Step _ _ _ ST); [| | |right; eauto | | | |]; left; auto. Qed.

(* what a step does to the lock and the stored history of one address [b] *)
Inductive at_addr (s : state) (b : addr) : op -> option stage -> hist -> Prop :=
| At_same o : at_addr s b o (aget (pend s) b) (get_hist s b)
| At_fetch st req : known s b = true -> aget (pend s) b = None ->
    (forall e, In e (server_hist (server s) b) -> In e (get_hist s b) \/ In e req) ->
    at_addr s b (Begin b st) (Some (Fetched (server_hist (server s) b) (fetch_batch (server s) req))) (get_hist s b)
| At_save H B : aget (pend s) b = Some (Fetched H B) -> at_addr s b (Save b) (Some (Saved H)) []
| At_sethist H : aget (pend s) b = Some (Saved H) -> at_addr s b (SetHist b) (Some HistSet) H
| At_gap : aget (pend s) b = Some HistSet -> at_addr s b (Gap b) None (get_hist s b)
| At_restart : at_addr s b Restart None (get_hist s b).

(* to use it, state the goal in terms of [aget (pend s') b] and [get_hist s' b]: destructing the instance then
   puts their values in their place in each case *)
Lemma step_at s o s' b : step s o = Some s' -> at_addr s b o (aget (pend s') b) (get_hist s' b).
Proof.
  intro ST. destruct (step_Step _ _ _ ST); unfold get_hist, adel; cbn [pend hists set_pend set_kcs gapped save set_history];
    rewrite ?aget_aset_if, ?aget_filter; try apply At_same.
  - destruct (addr_eqb_spec a b) as [<-|]; [apply At_fetch; assumption | apply At_same].
  - destruct (addr_eqb_spec a b) as [<-|]; [eapply At_save; eassumption | apply At_same].
  - destruct (addr_eqb_spec a b) as [<-|]; [apply At_sethist; assumption | apply At_same].
  - destruct (addr_eqb_spec (W c n) b) as [<-|]; [apply At_gap; assumption | apply At_same].
  - apply At_restart.
Qed.

Definition state_le (s s' : state) : Prop :=
  (forall r, In r (txo_t s) -> In r (txo_t s')) /\ (forall r, In r (txi_t s) -> In r (txi_t s')) /\
  (forall p, In p (ids (tx_t s)) -> In p (ids (tx_t s'))) /\ (forall a, known s a = true -> known s' a = true).

Lemma save_le s a H B : state_le s (save s a H B).
Proof.
  destruct (save_tables s a H B) as [E1 [E2 E3]]. repeat split; auto.
  - rewrite E1. apply (fold_ins_incl key (pair_at r_txid r_pos)).
  - rewrite E2. apply (fold_ins_incl ikey (pair_at i_prev i_ppos)).
  - rewrite E3. intros p J. apply tx_written. auto.
Qed.

Lemma step_le s o s' : step s o = Some s' -> state_le s s'.
Proof.
  intro ST. destruct (step_tables _ _ _ ST) as [[A [B C]]|[a [H [B [_ ->]]]]]; [|apply save_le].
  unfold state_le. rewrite A, B, C. repeat split; auto.
  intro b. destruct (step_Step _ _ _ ST); auto; apply known_gapped.
Qed.

Lemma run_invariant (P : state -> Prop) : (forall s o s', step s o = Some s' -> P s -> P s') ->
  forall ops s s', run s ops = Some s' -> P s -> P s'.
Proof.
  intro SP. induction ops as [|o ops IH]; simpl; intros s s' R H.
  - injection R as <-. exact H.
  - destruct (step s o) as [s1|] eqn:ST; [|discriminate]. eauto.
Qed.

Lemma run_le ops s s' : run s ops = Some s' -> state_le s s'.
Proof.
  intro R. apply (run_invariant (state_le s)) with (2 := R); [|repeat split; auto].
  intros s1 o s2 ST [A [B [C D]]]. destruct (step_le _ _ _ ST) as [A' [B' [C' D']]]. repeat split; auto.
Qed.

Lemma run_app ops1 : forall ops2 s s1 s2, run s ops1 = Some s1 -> run s1 ops2 = Some s2 -> run s (ops1 ++ ops2) = Some s2.
Proof.
  induction ops1 as [|o ops1 IH]; simpl; intros ops2 s s1 s2 R1 R2.
  - inversion R1; subst. exact R2.
  - destruct (step s o) as [s'|]; [|discriminate]. eapply IH; eauto.
Qed.

Lemma gaps_const ops : forall s s', run s ops = Some s' -> gaps s' = gaps s.
Proof.
  intros s s' R. apply (run_invariant (fun x => gaps x = gaps s)) with (2 := R); auto.
  intros s1 o s2 ST <-. apply (step_gaps _ _ _ ST).
Qed.

Lemma step_grows s o s' : step s o = Some s' ->
  (server_ok_b (server s) = true -> server_ok_b (server s') = true) /\ sub (server s') (server s).
Proof.
  intro ST. destruct (step_server _ _ _ ST) as [E|[S' [_ [E [O G]]]]]; split; rewrite E; auto using grows_sound, sub_refl.
Qed.

Lemma run_ok ops s s' : run s ops = Some s' -> server_ok_b (server s) = true -> server_ok_b (server s') = true.
Proof.
  apply (run_invariant (fun x => server_ok_b (server x) = true)). intros s1 o s2 ST. apply (step_grows _ _ _ ST).
Qed.

(* rows are sound and cover the stored histories; [F] is the server state the run ends with *)
Section Conv.
Variable F : list stx.
Hypothesis okF : server_ok_b F = true.

Lemma F_out t i : InF F t -> out_at F (t_id t) i = nth_error (t_outs t) i.
Proof. intros [h T]. apply out_at_In with h; auto. apply (ok_parts _ okF). Qed.

Definition cov (s : state) (a : addr) (t : tx) : Prop :=
  (forall pos o, nth_error (t_outs t) pos = Some o -> pays a o = true -> has_txo (txo_t s) (t_id t) pos = true) /\
  (forall inp, In inp (t_ins t) -> spends_from F a inp = true -> has_txi (txi_t s) (fst inp) (snd inp) = true).

Definition covered (s : state) (a : addr) (e : entry) : Prop := exists t, InF F t /\ t_id t = fst e /\ cov s a t.

(* every parent of [t] paying [a] is listed in [H], so the batch saved for [H] can resolve it *)
Definition closedH (a : addr) (H : hist) (t : tx) : Prop :=
  forall inp, In inp (t_ins t) -> spends_from F a inp = true -> mem_id (fst inp) (map fst H) = true.

Definition pend_ok (s : state) (a : addr) (st : stage) : Prop :=
  match st with
  | Fetched H B =>
      (forall x, In x B -> InF F (fst x)) /\
      (forall e, In e H -> (exists t h, In (t, h) B /\ t_id t = fst e /\ closedH a H t) \/ covered s a e)
  | Saved H => forall e, In e H -> covered s a e
  | HistSet => True
  end.

Definition addr_ok (s : state) (a : addr) (p : option stage) (h : hist) : Prop :=
  (forall e, In e h -> covered s a e) /\ (forall st, p = Some st -> pend_ok s a st).

Definition txo_sound (r : txo_row) : Prop :=
  exists t h, In (t, h) F /\ r_txid r = t_id t /\ nth_error (t_outs t) (r_pos r) = Some (r_out r) /\
              r_type r = txo_type t (r_pos r) (r_out r).
Definition txi_sound (i : txi_row) : Prop :=
  exists t h t' h' o, In (t, h) F /\ i_txid i = t_id t /\
    nth_error (t_ins t) (i_ipos i) = Some (i_prev i, i_ppos i) /\ In (t', h') F /\ t_id t' = i_prev i /\
    nth_error (t_outs t') (i_ppos i) = Some o /\ pays (i_addr i) o = true.
Definition sound (s : state) : Prop :=
  (forall r, In r (txo_t s) -> txo_sound r) /\ (forall i, In i (txi_t s) -> txi_sound i) /\
  (forall x, In x (tx_t s) -> InF F (fst x)).

Record Inv (s : state) : Prop := mkInv {
  inv_sub : sub F (server s);
  inv_ok : server_ok_b (server s) = true;
  inv_sound : sound s;
  inv_addr : forall a, addr_ok s a (aget (pend s) a) (get_hist s a)
}.

Lemma covered_mono s s' a e : state_le s s' -> covered s a e -> covered s' a e.
Proof.
  intros [A [B _]] [t [T [E [X Y]]]]. exists t. repeat split; auto.
  - intros. eapply existsb_incl; [exact A|]. eapply X; eauto.
  - intros. eapply existsb_incl; [exact B|]. eapply Y; eauto.
Qed.
Lemma addr_ok_mono s s' a p h : state_le s s' -> addr_ok s a p h -> addr_ok s' a p h.
Proof.
  intros L [X Y]. split; [intros e J; eapply covered_mono; eauto|].
  intros st E. specialize (Y st E). destruct st as [H B|H|]; simpl in *; auto.
  - destruct Y as [Y1 Y2]. split; auto. intros e J. destruct (Y2 e J); eauto using covered_mono.
  - intros e J. eapply covered_mono; eauto.
Qed.

(* the three places _sync looks a parent up in (the batch, the txo table, the tx table) hold server data only: what
   is found is what the server has; nothing is found only for an id outside [R] or an output that is neither in the
   batch nor in the txo table *)
Lemma resolve_spec s R B p i : sound s -> (forall x, In x B -> InF F (fst x)) ->
  resolve R B (txo_t s) (tx_t s) (p, i) = out_at F p i \/
  resolve R B (txo_t s) (tx_t s) (p, i) = None /\
    (mem_id p R = false \/ find_tx B p = None /\ has_txo (txo_t s) p i = false).
Proof.
  intros [S1 [_ S3]] HB.
  assert (FO: forall X t, (forall x, In x X -> InF F (fst x)) -> find_tx X p = Some t ->
              nth_error (t_outs t) i = out_at F p i).
  { intros X t HX E. apply find_tx_some in E. destruct E as [<- [h E]]. symmetry. apply F_out, (HX _ E). }
  unfold resolve. simpl. destruct (mem_id p R); [|auto].
  destruct (find_tx B p) as [t|] eqn:E1; [left; exact (FO B t HB E1)|].
  destruct (find_txo (txo_t s) p i) as [r|] eqn:E2.
  - left. apply find_txo_some in E2. destruct E2 as [E2 [<- <-]].
    destruct (S1 r E2) as [t [h [A [-> [C D]]]]]. rewrite F_out; [symmetry; exact C | exists h; exact A].
  - destruct (find_tx (tx_t s) p) as [t|] eqn:E3; [left; exact (FO _ t S3 E3)|].
    right. split; auto. right. split; auto. apply not_true_iff_false. intro X. apply existsb_exists in X.
    destruct X as [r [X1 X2]]. rewrite (find_none _ _ E2 _ X1) in X2. discriminate.
Qed.

Lemma resolve_complete s a H B p i o :
  sound s -> pend_ok s a (Fetched H B) -> mem_id p (map fst H) = true -> out_at F p i = Some o -> pays a o = true ->
  resolve (map fst H) B (txo_t s) (tx_t s) (p, i) = Some o.
Proof.
  intros I [HB HH] M O P. destruct (resolve_spec s (map fst H) B p i I HB) as [Q|[_ [Q|[Q1 Q2]]]]; [congruence..|].
  apply mem_id_In, in_map_iff in M. destruct M as [e [<- M]].
  destruct (HH e M) as [[t [h [T [E _]]]]|[t [T [E [J _]]]]].
  - destruct (find_tx_none _ _ Q1 _ _ T E).
  - rewrite <- E, (F_out t i T) in O. rewrite <- E, (J i o O P) in Q2. discriminate.
Qed.

Lemma closedH_server S a t h : sub F S -> server_ok_b S = true -> In (t, h) S -> closedH a (server_hist S a) t.
Proof.
  intros SB OK T inp J SP. unfold spends_from in SP.
  destruct (out_at F (fst inp) (snd inp)) as [o|] eqn:O; [|discriminate].
  destruct (ok_parts _ OK) as [_ [_ C]]. destruct (C _ _ _ T J) as [Z|Z].
  - apply out_at_some in O. destruct O as [t' [h' [T' [E _]]]].
    destruct (proj1 (proj2 (ok_parts _ okF)) _ _ T'). congruence.
  - apply ids_In in Z. destruct Z as [t3 [h3 [Z1 Z2]]]. rewrite <- Z2 in *.
    rewrite (F_out t3 _ (SB _ _ Z1)) in O.
    apply mem_id_In, in_map_iff. exists (t_id t3, h3). split; auto.
    apply server_hist_In. exists t3, h3. split; [|split]; auto. eapply touches_pays; eauto.
Qed.

Lemma fetch_ok s a req : Inv s ->
  (forall e, In e (server_hist (server s) a) -> In e (get_hist s a) \/ In e req) ->
  pend_ok s a (Fetched (server_hist (server s) a) (fetch_batch (server s) req)).
Proof.
  intros I Q. split.
  - intros x J. apply fetch_batch_In in J. destruct J as [e [_ [J _]]].
    apply find_tx_some in J. destruct J as [_ [h J]]. apply (inv_sub s I _ _ J).
  - intros e J. destruct (Q e J) as [M|M]; [right; apply (inv_addr s I a), M | left].
    assert (J' := J). apply server_hist_In in J'. destruct J' as [t0 [h0 [T0 [_ ->]]]].
    exists t0, h0. split; [|split; [reflexivity | exact (closedH_server _ a t0 h0 (inv_sub s I) (inv_ok s I) T0)]].
    apply fetch_batch_In. exists (t_id t0, h0). split; [exact M|split; auto].
    apply (find_tx_In _ _ _ (proj1 (ok_parts _ (inv_ok s I))) T0).
Qed.

Lemma save_sound s a H B : sound s -> (forall x, In x B -> InF F (fst x)) -> sound (save s a H B).
Proof.
  intros I HB. destruct (I) as [S1 [S2 S3]]. destruct (save_tables s a H B) as [E1 [E2 E3]].
  split; [|split].
  - intros r J. rewrite E1 in J. apply txo_written in J. destruct J as [J|J]; auto.
    apply in_flat_map in J. destruct J as [x [J1 J2]].
    apply new_txo_In in J2. destruct (HB _ J1) as [h T]. exists (fst x), h. auto.
  - intros r J. rewrite E2 in J. apply txi_written in J. destruct J as [J|J]; auto.
    apply in_flat_map in J. destruct J as [x [J1 J2]]. destruct (HB _ J1) as [h T].
    apply new_txi_In in J2. destruct J2 as [o [A [B' [C [D E]]]]].
    destruct (resolve_spec s (map fst H) B (i_prev r) (i_ppos r) I HB) as [X|[X _]]; rewrite X in C; [|discriminate].
    destruct (out_at_some _ _ _ _ C) as [t' [h' [T' [T2 T3]]]].
    exists (fst x), h, t', h', o. rewrite E. repeat split; assumption.
  - intros x J. rewrite E3 in J. apply tx_written in J. destruct J; auto.
Qed.

Lemma save_covers s a H B : sound s -> pend_ok s a (Fetched H B) -> pend_ok (save s a H B) a (Saved H).
Proof.
  intros I [HB HH] e J.
  destruct (HH e J) as [[t [h [Q1 [Q2 Q3]]]]|Q]; [|eapply covered_mono; eauto using save_le].
  exists t. split; [apply (HB _ Q1)|split; [exact Q2|]].
  destruct (save_tables s a H B) as [E1 [E2 _]].
  split.
  - intros pos o N P. rewrite E1. apply has_txo_key, txo_written. right.
    apply (in_map key _ (mkTxo (t_id t) pos o (txo_type t pos o))).
    apply in_flat_map. exists (t, h). split; [exact Q1 | apply new_txo_complete; auto].
  - intros [p i] N SP. assert (M := Q3 _ N SP). unfold spends_from in SP. simpl in *.
    destruct (out_at F p i) as [o|] eqn:O; [|discriminate]. apply In_nth_error in N. destruct N as [k N].
    assert (R := resolve_complete s a H B p i o I (conj HB HH) M O SP). rewrite E2.
    apply has_txi_key, txi_written. right. apply (in_map ikey _ (mkTxi (t_id t) k p i a)).
    apply in_flat_map. exists (t, h). split; [exact Q1 | apply new_txi_complete with o; auto].
Qed.

Lemma inv_step s o s' : step s o = Some s' -> sub F (server s') -> Inv s -> Inv s'.
Proof.
  intros ST SB I. assert (LE := step_le _ _ _ ST).
  constructor; auto.
  - apply (step_grows _ _ _ ST), I.
  - destruct (step_tables _ _ _ ST) as [[E1 [E2 E3]]|[a [H [B [P ->]]]]].
    + unfold sound. rewrite E1, E2, E3. apply I.
    + apply save_sound; [apply I | apply (proj2 (inv_addr s I a) _ P)].
  - intro b. destruct (inv_addr s I b) as [AH AP].
    destruct (step_at _ _ _ b ST) as [o|st req K P Q|H B P|H P|P|].
    1,2,4-6: apply (addr_ok_mono s s' b _ _ LE); split; auto; try discriminate.
    + intros st0 [= <-]. apply fetch_ok; auto.
    + apply (AP _ P).
    + intros st0 [= <-]. exact Logic.I.
    + simpl in ST. rewrite P in ST. injection ST as <-.
      split; [intros e []|]. intros st0 [= <-]. exact (save_covers s b H B (inv_sound s I) (AP _ P)).
Qed.

Lemma inv_init g : Inv (init g).
Proof.
  constructor; simpl; try reflexivity.
  - intros t h [].
  - repeat split; intros x [].
  - intro a. split; [intros e []|discriminate].
Qed.

End Conv.

(* servers only grow, so what holds relative to a later server state [F] is an invariant of the run up to it *)
Lemma inv_run ops s s' : run s ops = Some s' -> server_ok_b (server s') = true ->
  Inv (server s') s -> Inv (server s') s'.
Proof.
  intros R OK I. apply (run_invariant (fun x => sub (server s') (server x) -> Inv (server s') x)) with (2 := R);
    [|auto|apply sub_refl].
  intros s1 o s2 ST I1 SB. apply (inv_step _ OK _ _ _ ST SB), I1. exact (sub_trans _ _ _ (proj2 (step_grows _ _ _ ST)) SB).
Qed.

Lemma reach_inv g ops s : run (init g) ops = Some s -> Inv (server s) s.
Proof.
  intro R. apply (inv_run _ _ _ R); [apply (run_ok _ _ _ R); reflexivity | apply inv_init].
Qed.

Lemma rows_sound g ops s : run (init g) ops = Some s -> sound (server s) s.
Proof. intro R. apply inv_sound, reach_inv with (1 := R). Qed.

Lemma address_recorded g ops s a : run (init g) ops = Some s ->
  incl (server_hist (server s) a) (get_hist s a) ->
  (forall t h pos o, In (t, h) (server s) -> nth_error (t_outs t) pos = Some o -> o_kind o = PKH a ->
     has_txo (txo_t s) (t_id t) pos = true) /\
  (forall t h k p i t' h' o, In (t, h) (server s) -> nth_error (t_ins t) k = Some (p, i) ->
     In (t', h') (server s) -> t_id t' = p -> nth_error (t_outs t') i = Some o -> o_kind o = PKH a ->
     has_txi (txi_t s) p i = true).
Proof.
  intros R SY. assert (I := reach_inv _ _ _ R). assert (okF := inv_ok _ _ I).
  assert (C: forall t h, In (t, h) (server s) -> touches (server s) a t = true -> cov (server s) s a t).
  { intros t h T TO.
    destruct (proj1 (inv_addr _ _ I a) (t_id t, h)) as [t2 [[h2 A] [B C]]].
    { apply SY, server_hist_In. exists t, h. auto. }
    assert (Q := nodup_ids_inj _ (proj1 (ok_parts _ okF)) _ _ _ _ A T B). injection Q as -> _. exact C. }
  split.
  - intros t h pos o T N P. apply pays_PKH in P.
    destruct (C t h T (touches_pays _ _ _ _ _ N P)) as [A _]. eapply A; eauto.
  - intros t h k p i t' h' o T N T' E O P. apply pays_PKH in P. apply nth_error_In in N.
    assert (SP: spends_from (server s) a (p, i) = true).
    { unfold spends_from. simpl. rewrite <- E, (out_at_In _ _ _ _ (proj1 (ok_parts _ okF)) T'), O. exact P. }
    destruct (C t h T) as [_ B]; [|exact (B (p, i) N SP)].
    unfold touches. apply orb_true_iff. right. apply existsb_exists. eauto.
Qed.

Lemma row_mine_inv s cs r : row_mine s cs r = true ->
  exists a, o_kind (r_out r) = PKH a /\ known s a = true /\ in_chains cs a = true.
Proof.
  unfold row_mine. destruct (o_kind (r_out r)) as [a| |]; try discriminate.
  rewrite andb_true_iff. exists a. tauto.
Qed.

Lemma all_outputs_In S r : In r (all_outputs S) <-> txo_sound S r.
Proof.
  unfold all_outputs. rewrite in_flat_map. split.
  - intros [[t h] [A B]]. simpl in B. apply in_map_iff in B. destruct B as [[k o] [<- B2]].
    apply enum_In in B2. exists t, h. auto.
  - intros [t [h [A [B [C D]]]]]. exists (t, h). split; auto. simpl. apply in_map_iff.
    exists (r_pos r, r_out r). split; [|apply enum_In; exact C]. destruct r; simpl in *. subst. reflexivity.
Qed.

Lemma all_outputs_nodup S : nodup_ids (ids S) = true -> NoDup (map key (all_outputs S)).
Proof.
  induction S as [|[t h] S IH]; simpl; intro N; [constructor|].
  apply andb_true_iff in N. destruct N as [N1 N2]. apply negb_true_iff in N1.
  unfold all_outputs. simpl. rewrite map_app. apply NoDup_app_intro.
  - rewrite map_map. unfold key, enum. simpl. generalize 0.
    induction (t_outs t) as [|o l IHl]; intro b; simpl; constructor; auto.
    intro J. apply in_map_iff in J. destruct J as [[k o'] [[= <-] J2]].
    apply in_combine_l, in_seq in J2. lia.
  - apply IH. exact N2.
  - intros x J1 J2. apply in_map_iff in J1. destruct J1 as [r1 [<- B1]]. apply in_map_iff in B1.
    destruct B1 as [ko [<- _]]. apply in_map_iff in J2. destruct J2 as [r2 [A2 B2]].
    apply (all_outputs_In S) in B2. destruct B2 as [t2 [h2 [T2 [E2 _]]]].
    rewrite <- not_true_iff_false, mem_id_In, ids_In in N1. apply N1. exists t2, h2. split; auto.
    injection A2 as A2 _. simpl in A2. congruence.
Qed.

Lemma spent_in_true S p i : spent_in S p i = true <->
  exists t h k, In (t, h) S /\ nth_error (t_ins t) k = Some (p, i).
Proof.
  unfold spent_in. rewrite existsb_exists. split.
  - intros [[t h] [A B]]. apply (existsb_key fst snd), in_map_iff in B. destruct B as [[p' i'] [[= <- <-] B1]].
    apply In_nth_error in B1. destruct B1 as [k B1]. exists t, h, k. auto.
  - intros [t [h [k [A B]]]]. exists (t, h). split; auto. apply (existsb_key fst snd), in_map_iff. exists (p, i).
    split; [reflexivity | eapply nth_error_In; eauto].
Qed.

(* left to right is [inv_sound]; the converses are [address_recorded] *)
Lemma synced_rows g ops s a r : run (init g) ops = Some s -> incl (server_hist (server s) a) (get_hist s a) ->
  o_kind (r_out r) = PKH a ->
  (In r (txo_t s) <-> In r (all_outputs (server s))) /\
  (In r (all_outputs (server s)) ->
   has_txi (txi_t s) (r_txid r) (r_pos r) = spent_in (server s) (r_txid r) (r_pos r)).
Proof.
  intros R SY P. assert (I := reach_inv _ _ _ R). assert (okF := inv_ok _ _ I). destruct (inv_sound _ _ I) as [S1 [S2 _]].
  destruct (address_recorded g ops s a R SY) as [TXO TXI]. rewrite all_outputs_In. split.
  - split; [apply S1|]. intros [t [h [T [E [O TY]]]]].
    (* the slot of [r] is occupied, by a row [r'] that is a server output too: it is [r], such keys being unique *)
    destruct (proj1 (in_map_iff _ _ _) (proj1 (has_txo_key _ _ _) (TXO t h _ _ T O P))) as [r' [K R1]].
    rewrite <- E in K. replace r with r'; [exact R1|].
    apply (NoDup_map_inj key (all_outputs (server s))); [apply all_outputs_nodup, (ok_parts _ okF) | | | exact K];
      apply all_outputs_In; [apply S1, R1 | exists t, h; auto].
  - intros [t [h [T [E [O TY]]]]]. apply eq_true_iff_eq. rewrite spent_in_true. split.
    + intro X. apply has_txi_key, in_map_iff in X. destruct X as [i [[= I2 I3] I1]].
      destruct (S2 i I1) as [t3 [h3 [t4 [h4 [o4 [T3 [_ [N3 _]]]]]]]].
      exists t3, h3, (i_ipos i). split; auto. congruence.
    + intros [t2 [h2 [k [T2 N2]]]]. apply (TXI t2 h2 k _ _ t h (r_out r) T2 N2 T (eq_sym E) O P).
Qed.

Definition in_sync (s : state) : Prop :=
  forall a, known s a = true -> incl (server_hist (server s) a) (get_hist s a).

Lemma conv_utxos g ops s : run (init g) ops = Some s -> in_sync s ->
  forall cs r, In r (utxos s cs) <-> In r (spec_utxos (server s) s cs).
Proof.
  intros R SY cs r. unfold utxos, spec_utxos. rewrite !filter_In.
  split; intros [A B]; destruct (andb_prop _ _ B) as [M _]; destruct (row_mine_inv _ _ _ M) as [a [P [K _]]];
    destruct (synced_rows g ops s a r R (SY a K) P) as [E1 E2].
  - apply E1 in A. rewrite <- (E2 A). auto.
  - rewrite (E2 A). split; [apply E1, A | exact B].
Qed.

Lemma step_nodup s o s' : step s o = Some s' -> NoDup (map key (txo_t s)) -> NoDup (map key (txo_t s')).
Proof.
  intros ST N. destruct (step_tables _ _ _ ST) as [[_ [E _]]|[a [H [B [_ ->]]]]]; [rewrite E; exact N|].
  rewrite (proj1 (save_tables s a H B)). apply (fold_ins_nodup key _ (pair_at_spec r_txid r_pos)), N.
Qed.

Lemma sum_amount_perm l l' : Permutation l l' -> sum_amount l = sum_amount l'.
Proof.
  induction 1; simpl; try congruence. rewrite !N.add_assoc. f_equal. apply N.add_comm.
Qed.

(* the balances are sums over the same rows ([conv_utxos]), and neither side lists a row twice *)
Lemma balance_spec g ops s : run (init g) ops = Some s -> in_sync s -> forall cs,
  (forall f, sum_amount (filter f (utxos s cs)) = sum_amount (filter f (spec_utxos (server s) s cs))) /\
  sum_amount (utxos s cs) = sum_amount (spec_utxos (server s) s cs).
Proof.
  intros R SY cs.
  assert (N1: NoDup (utxos s cs)).
  { apply NoDup_filter, (NoDup_map_inv key), (run_invariant _ step_nodup _ _ _ R). constructor. }
  assert (N2: NoDup (spec_utxos (server s) s cs)).
  { apply NoDup_filter, (NoDup_map_inv key), all_outputs_nodup, (ok_parts _ (inv_ok _ _ (reach_inv _ _ _ R))). }
  assert (E := conv_utxos g ops s R SY cs).
  split; [intro f|]; apply sum_amount_perm, NoDup_Permutation; auto using NoDup_filter.
  intro r. rewrite !filter_In, E. tauto.
Qed.

(* [lead u k g] counts unused addresses from the last generated one downwards, at most [g] of them *)
Lemma lead_spec u : forall g k, lead u k g <= g /\ forall n, n < k -> u n = true -> n + lead u k g < k.
Proof.
  induction g as [|g IH]; intro k; destruct k as [|k]; simpl; try (split; [lia | intros; lia]).
  destruct (u k) eqn:UK; [split; [lia | intros; lia]|].
  destruct (IH k) as [A B]. split; [lia|]. intros n L U.
  assert (n <> k) by congruence. assert (n + lead u k g < k) by (apply B; [lia | exact U]). lia.
Qed.

Definition chain_full (s : state) (c : N) : Prop :=
  forall n, used s (W c n) = true -> n + nget (gaps s) c < nget (kcs s) c.

(* a chain is short of its gap only while some address of it waits for its ensure_address_gap *)
Record GInv (s : state) : Prop := mkGInv {
  g_known_pend : forall a st, aget (pend s) a = Some st -> known s a = true;
  g_known_hist : forall a, used s a = true -> known s a = true;
  g_chain : forall c n, used s (W c n) = true ->
            n + nget (gaps s) c < nget (kcs s) c \/ exists m, aget (pend s) (W c m) = Some HistSet
}.

Lemma ginv_frame s s' : kcs s' = kcs s -> gaps s' = gaps s ->
  (forall b st, aget (pend s') b = Some st -> known s b = true) ->
  (forall b, used s' b = true -> used s b = true \/ aget (pend s') b = Some HistSet) ->
  (forall c n, aget (pend s) (W c n) = Some HistSet -> aget (pend s') (W c n) = Some HistSet \/ chain_full s c) ->
  GInv s -> GInv s'.
Proof.
  intros EK EG P1 P2 P3 G.
  assert (KN: forall b, known s' b = known s b) by (intro b; unfold known; rewrite EK; reflexivity).
  constructor.
  - intros b st J. rewrite KN. eauto.
  - intros b U. rewrite KN. destruct (P2 b U) as [U0|J]; [apply (g_known_hist s G), U0 | eauto].
  - intros c n U. rewrite EK, EG. destruct (P2 _ U) as [U0|J]; [|eauto].
    destruct (g_chain s G c n U0) as [Q|[m Q]]; auto. destruct (P3 c m Q) as [J|C]; eauto.
Qed.

(* the steps that neither change the counters nor release a lock: Server, Begin, Save, SetHist *)
Lemma ginv_local s s' o : kcs s' = kcs s -> gaps s' = gaps s ->
  (forall b, at_addr s b o (aget (pend s') b) (get_hist s' b)) ->
  match o with Gap _ | Restart => False | _ => True end -> GInv s -> GInv s'.
Proof.
  intros EK EG L NG G. apply (ginv_frame s); auto.
  - intros b st. destruct (L b); try contradiction; intro J; try discriminate; eauto using g_known_pend.
  - intro b. unfold used. destruct (L b); try contradiction; auto. discriminate.
  - intros c n J. destruct (L (W c n)); try contradiction; auto; congruence.
Qed.

Lemma ginv_set_kcs s k' : (forall c, nget (kcs s) c <= nget k' c) -> GInv s -> GInv (set_kcs s k').
Proof.
  intros LE G. assert (KN := fun a => known_set_kcs s k' a LE). constructor; cbn [pend kcs gaps set_kcs].
  - intros a st J. apply KN, (g_known_pend s G a st J).
  - intros a U. apply KN, (g_known_hist s G a U).
  - intros c n U. destruct (g_chain s G c n U); auto. specialize (LE c). lia.
Qed.
Lemma chain_full_le s k' c : (forall c, nget (kcs s) c <= nget k' c) -> chain_full s c -> chain_full (set_kcs s k') c.
Proof. intros LE C n U. specialize (C n U). specialize (LE c). cbn [kcs gaps set_kcs]. lia. Qed.

(* ensure_gap generates as many addresses as the unused tail is short of the gap *)
Lemma ensure_gap_full s c : (forall a, used s a = true -> known s a = true) -> chain_full (ensure_gap s c) c.
Proof.
  intros KH n U. rewrite ensure_gap_kcs in U. change (used s (W c n) = true) in U.
  assert (K := KH _ U). simpl in K. apply Nat.ltb_lt in K.
  destruct (lead_spec (fun n => used s (W c n)) (nget (gaps s) c) (nget (kcs s) c)) as [A B].
  specialize (B n K U). unfold ensure_gap.
  destruct (Nat.eqb_spec (lead (fun n => used s (W c n)) (nget (kcs s) c) (nget (gaps s) c)) (nget (gaps s) c)) as [E|E];
    cbn [kcs gaps]; [rewrite E in B; exact B | rewrite nget_nset_same; lia].
Qed.

Lemma fold_gap_full L : forall s, (forall a, used s a = true -> known s a = true) ->
  forall c, In c L \/ chain_full s c -> chain_full (fold_left ensure_gap L s) c.
Proof.
  induction L as [|c0 L IH]; simpl; intros s KH c H; [destruct H as [[]|H]; exact H|].
  apply IH.
  - intros a U. apply known_ensure_gap, KH. rewrite ensure_gap_kcs in U. exact U.
  - destruct H as [[<-|H]|H]; auto using ensure_gap_full. right. rewrite ensure_gap_kcs.
    apply chain_full_le; [apply ensure_gap_le | exact H].
Qed.

Lemma ginv_gapped s p L : GInv s -> (forall b st, aget p b = Some st -> aget (pend s) b = Some st) ->
  (forall c n, aget (pend s) (W c n) = Some HistSet -> aget p (W c n) = Some HistSet \/ In c L \/ chain_full s c) ->
  GInv (gapped s p L).
Proof.
  intros G P1 P3. assert (G1 := ginv_set_kcs s _ (fun c => fold_gap_le L c (set_pend s p)) G).
  apply (ginv_frame _ (gapped s p L)) with (6 := G1); auto; [intros b st J; apply (g_known_pend _ G1 b st), P1, J|].
  intros c n J. destruct (P3 c n J) as [Q|Q]; auto. right.
  assert (C := fold_gap_full L (set_pend s p) (g_known_hist s G) c Q). rewrite fold_gap_eq in C. exact C.
Qed.

Lemma ginv_step s o s' : step s o = Some s' -> GInv s -> GInv s'.
Proof.
  intros ST G. assert (L := fun b => step_at s o s' b ST). destruct (step_Step _ _ _ ST).
  1-5: apply (ginv_local s) with (3 := L); [reflexivity | reflexivity | exact Logic.I | exact G].
  - apply ginv_gapped; auto.
    + intros b st. unfold adel. rewrite aget_filter. destruct (addr_eqb (W c n) b); [discriminate|auto].
    + intros c' n'. destruct (addr_eqb_spec (W c n) (W c' n')) as [[= <- <-]|N]; [simpl; auto|].
      rewrite aget_adel_other; auto.
  - apply ginv_gapped; auto.
  - apply ginv_gapped; auto; [discriminate|].
    intros c n _. right. destruct (in_dec N.eq_dec c (map fst (gaps s))) as [J|J]; auto.
    right. intros m U. rewrite (nget_notin _ _ J), Nat.add_0_r. apply Nat.ltb_lt, (g_known_hist s G _ U).
Qed.

Lemma ginv_init g : GInv (init g).
Proof. constructor; simpl; discriminate. Qed.

Lemma reach_ginv g ops s : run (init g) ops = Some s -> GInv s.
Proof. intro R. exact (run_invariant GInv ginv_step _ _ _ R (ginv_init g)). Qed.

Definition quiescent (s : state) : Prop := forall a, aget (pend s) a = None.

Lemma gap_quiescent s : GInv s -> quiescent s ->
  forall c n n', used s (W c n') = true -> n <= n' + nget (gaps s) c -> known s (W c n) = true.
Proof.
  intros G Q c n n' U L. apply Nat.ltb_lt.
  destruct (g_chain s G c n' U) as [H|[m H]]; [lia | rewrite Q in H; discriminate].
Qed.

Lemma in_sync_used s a : in_sync s -> known s a = true -> server_hist (server s) a <> [] -> used s a = true.
Proof.
  intros SY K H. unfold used. assert (J := SY _ K). destruct (server_hist (server s) a) as [|e r]; [congruence|].
  destruct (get_hist s a); auto. destruct (J e). simpl. auto.
Qed.

Lemma entry_lt_irrefl x : entry_lt x x = false.
Proof.
  unfold entry_lt. destruct (0 <? snd x)%Z; [rewrite Z.ltb_irrefl, Z.eqb_refl|]; rewrite N.ltb_irrefl; reflexivity.
Qed.
Lemma entry_lt_trans x y z : entry_lt x y = true -> entry_lt y z = true -> entry_lt x z = true.
Proof.
  unfold entry_lt.
  destruct (0 <? snd x)%Z, (0 <? snd y)%Z, (0 <? snd z)%Z; try discriminate; auto.
  - intros A B. apply orb_true_iff in A, B. apply orb_true_iff.
    destruct A as [A|A], B as [B|B]; try apply Z.ltb_lt in A; try apply Z.ltb_lt in B;
      try (apply andb_true_iff in A; destruct A as [A1 A2]; apply Z.eqb_eq in A1);
      try (apply andb_true_iff in B; destruct B as [B1 B2]; apply Z.eqb_eq in B1).
    1-3: left; apply Z.ltb_lt; lia.
    right. rewrite A1, B1, Z.eqb_refl. apply N.ltb_lt in A2, B2. apply N.ltb_lt. lia.
  - rewrite !N.ltb_lt. apply N.lt_trans.
Qed.

Fixpoint ssorted (l : hist) : Prop :=
  match l with [] => True | x :: r => (forall y, In y r -> entry_lt x y = true) /\ ssorted r end.

Lemma sorted_b_ssorted l : sorted_b l = true -> ssorted l.
Proof.
  induction l as [|x r IH]; [simpl; auto|]. destruct r as [|y r'].
  - intros _. simpl. split; [intros y []|exact Logic.I].
  - intro H. change (entry_lt x y && sorted_b (y :: r') = true) in H.
    apply andb_true_iff in H. destruct H as [H1 H2]. specialize (IH H2).
    split; auto. intros z [<-|J]; auto. eapply entry_lt_trans; [exact H1 | apply IH, J].
Qed.

Lemma ssorted_map_filter {A} (g : A -> entry) (f : A -> bool) S : ssorted (map g S) -> ssorted (map g (filter f S)).
Proof.
  induction S as [|x S IH]; simpl; auto. intros [A0 B]. destruct (f x); simpl; auto.
  split; auto. intros y J. apply A0. apply in_map_iff in J. destruct J as [z [J1 J2]]. apply filter_In in J2.
  apply in_map_iff. exists z. tauto.
Qed.

Lemma ssorted_eq : forall l1 l2, ssorted l1 -> ssorted l2 -> (forall e, In e l1 <-> In e l2) -> l1 = l2.
Proof.
  assert (NI: forall x r, (forall y, In y r -> entry_lt x y = true) -> ~ In x r).
  { intros x r A J. apply A in J. rewrite entry_lt_irrefl in J. discriminate. }
  induction l1 as [|x r1 IH]; intros l2 S1 S2 E.
  - destruct l2 as [|y r2]; auto. destruct (proj2 (E y)). simpl. auto.
  - destruct l2 as [|y r2]; [destruct (proj1 (E x)); simpl; auto|].
    simpl in S1, S2. destruct S1 as [A1 B1], S2 as [A2 B2].
    assert (x = y).
    { destruct (proj1 (E x) (or_introl eq_refl)) as [Q|Q]; [congruence|].
      destruct (proj2 (E y) (or_introl eq_refl)) as [Q'|Q']; [congruence|].
      assert (T := entry_lt_trans _ _ _ (A1 _ Q') (A2 _ Q)). rewrite entry_lt_irrefl in T. discriminate. }
    subst y. f_equal. apply IH; auto. intro e. split; intro J.
    + destruct (proj1 (E e) (or_intror J)) as [<-|Q]; auto. destruct (NI x r1 A1 J).
    + destruct (proj2 (E e) (or_intror J)) as [<-|Q]; auto. destruct (NI x r2 A2 J).
Qed.

Lemma server_hist_sorted S a : server_ok_b S = true -> ssorted (server_hist S a).
Proof.
  unfold server_ok_b. rewrite !andb_true_iff. intros [_ O]. apply ssorted_map_filter, sorted_b_ssorted, O.
Qed.

Lemma touches_mono S0 S a t :
  nodup_ids (ids S) = true -> sub S S0 ->
  touches S0 a t = true -> touches S a t = true.
Proof.
  intros N G. unfold touches at 1. rewrite orb_true_iff, !existsb_exists.
  intros [[o [J P]]|[[p i] [J1 J2]]].
  - apply In_nth_error in J. destruct J as [k J]. eapply touches_pays; eauto.
  - apply orb_true_iff. right. apply existsb_exists. exists (p, i). split; auto.
    unfold spends_from in *. simpl in *. destruct (out_at S0 p i) as [o|] eqn:O; [|discriminate].
    apply out_at_some in O. destruct O as [t0 [h0 [T0 [<- O]]]]. destruct (G _ _ T0) as [h1 T1].
    rewrite (out_at_In S t0 h1 _ N T1), O. exact J2.
Qed.

Lemma hist_stable S0 S a : server_ok_b S0 = true -> server_ok_b S = true -> sub S S0 ->
  incl (server_hist S a) (server_hist S0 a) -> server_hist S a = server_hist S0 a.
Proof.
  intros O0 O G I. destruct (ok_parts _ O0) as [N0 _]. destruct (ok_parts _ O) as [N _].
  (* heights change from S0 to S and with them the order of the transactions: the lists are equal because both are
     in the canonical order and hold the same entries *)
  apply ssorted_eq; try apply server_hist_sorted; auto.
  (* S has the transaction of an entry (t, h) of S0 with some height h'; by the inclusion S0 lists (t, h') too, and
     has t once: h' = h *)
  intro e. split; [apply I|]. intro J. apply server_hist_In in J. destruct J as [t [h [T [TO ->]]]].
  destruct (G _ _ T) as [h' T'].
  assert (J': In (t_id t, h') (server_hist S a)).
  { apply server_hist_In. exists t, h'. split; [|split]; auto. eapply touches_mono; eauto. }
  assert (J2 := I _ J'). apply server_hist_In in J2. destruct J2 as [t2 [h2 [T2 [_ E2]]]].
  injection E2 as E3 E4.
  assert (X := nodup_ids_inj S0 N0 _ _ _ _ T T2 E3). injection X as _ ->. subst. exact J'.
Qed.

Definition from_server (s : state) (a : addr) (l : hist) : Prop :=
  exists S0, server_ok_b S0 = true /\ sub (server s) S0 /\ l = server_hist S0 a.

Lemma from_server_grow s s' a l : sub (server s') (server s) -> from_server s a l -> from_server s' a l.
Proof. intros G [S0 [A [B C]]]. exists S0. split; [|split]; auto. exact (sub_trans _ _ _ B G). Qed.
Lemma from_server_nil s a : from_server s a [].
Proof. exists []. split; [reflexivity|split]. intros t h []. reflexivity. Qed.

(* the history an address holds once the update in flight for it, if any, has run to its end *)
Definition eventual (p : option stage) (h : hist) : hist :=
  match p with Some (Fetched H _) | Some (Saved H) => H | _ => h end.

Record HInv (s : state) : Prop := mkHInv {
  h_ok : server_ok_b (server s) = true;
  h_addr : forall a, from_server s a (get_hist s a) /\ from_server s a (eventual (aget (pend s) a) (get_hist s a))
}.

Lemma hinv_step s o s' : step s o = Some s' -> HInv s -> HInv s'.
Proof.
  intros ST I. destruct (step_grows _ _ _ ST) as [OK GR]. constructor; [apply OK, I|].
  intro b. destruct (h_addr s I b) as [A B]. apply (from_server_grow s s' b _ GR) in A, B.
  destruct (step_at _ _ _ b ST) as [o|st req K P Q|H B0 P|H P|P|]; try rewrite P in B; simpl in *; auto.
  - split; auto. exists (server s). split; [apply I|auto].
  - split; auto. apply from_server_nil.
Qed.

Lemma hinv_init g : HInv (init g).
Proof. constructor; [reflexivity|]. intro a. split; apply from_server_nil. Qed.

(* the stored history of [a] is the current server's, or will be once the update in flight has finished *)
Definition good (s : state) (a : addr) : Prop :=
  eventual (aget (pend s) a) (get_hist s a) = server_hist (server s) a.

Definition is_server (o : op) : bool := match o with Server _ => true | Restart => true | _ => false end.
Definition no_server (ops : list op) : Prop := forallb (fun o => negb (is_server o)) ops = true.

Lemma step_good_keep s o s' a : step s o = Some s' -> is_server o = false ->
  server s' = server s /\ (good s a -> good s' a).
Proof.
  unfold good. intros ST NS.
  destruct (step_server _ _ _ ST) as [E|[S' [-> _]]]; [rewrite E|discriminate]. split; [reflexivity|].
  destruct (step_at _ _ _ a ST) as [o|st req K P Q|H B0 P|H P|P|]; try rewrite P; auto. discriminate.
Qed.

(* an update notified of the current status either fetches the current history, or rightly concludes that
   the stored one is current: equal status, or nothing new and then [hist_stable] *)
Lemma step_begin_good s a s' : HInv s -> step s (Begin a (server_hist (server s) a)) = Some s' -> good s' a.
Proof.
  intros HI ST. apply step_Step in ST. unfold good.
  inversion ST as [|a0 st K P Q|a0 st req K P Q| | | | |]; subst.
  - rewrite P. simpl. destruct Q as [Q|Q]; auto.
    destruct (h_addr s' HI a) as [[S0 [O0 [G0 E0]]] _]. rewrite E0 in *. symmetry.
    apply hist_stable; auto. apply (h_ok s' HI).
  - cbn [pend set_pend server]. rewrite aget_aset_same. reflexivity.
Qed.

Lemma run_good ops : forall s s' a, HInv s -> run s ops = Some s' -> no_server ops ->
  good s a \/ In (Begin a (server_hist (server s) a)) ops -> server s' = server s /\ good s' a.
Proof.
  unfold no_server. induction ops as [|o ops IH]; simpl; intros s s' a HI R NS H.
  - injection R as <-. destruct H as [H|[]]. auto.
  - destruct (step s o) as [s1|] eqn:ST; [|discriminate].
    apply andb_true_iff in NS. destruct NS as [N1 N2]. apply negb_true_iff in N1.
    destruct (step_good_keep _ _ _ a ST N1) as [ES GK].
    assert (G1: good s1 a \/ In (Begin a (server_hist (server s1) a)) ops).
    { destruct H as [H|[H|H]].
      - left. apply GK, H.
      - left. subst o. eapply step_begin_good; eauto.
      - right. rewrite ES. exact H. }
    destruct (IH _ _ _ (hinv_step _ _ _ ST HI) R N2 G1) as [A B]. split; auto. congruence.
Qed.

Lemma reach_hinv g ops s : run (init g) ops = Some s -> HInv s.
Proof. intro R. exact (run_invariant HInv hinv_step _ _ _ R (hinv_init g)). Qed.

Lemma history_synced ops s s' a : HInv s -> run s ops = Some s' -> no_server ops ->
  In (Begin a (server_hist (server s) a)) ops ->
  server s' = server s /\
  (aget (pend s') a = Some HistSet \/ aget (pend s') a = None -> get_hist s' a = server_hist (server s') a).
Proof.
  intros HI R NS B. destruct (run_good ops s s' a HI R NS (or_intror B)) as [E G]. split; [exact E|].
  unfold good in G. intros [P|P]; rewrite P in G; exact G.
Qed.

Lemma all_synced ops s s' : HInv s -> run s ops = Some s' -> no_server ops -> quiescent s' ->
  (forall a, known s' a = true -> In (Begin a (server_hist (server s) a)) ops) ->
  in_sync s' /\ forall a, known s' a = true -> get_hist s' a = server_hist (server s') a.
Proof.
  intros HI R NS Q B.
  assert (X: forall a, known s' a = true -> get_hist s' a = server_hist (server s') a).
  { intros a K. apply (history_synced ops s s' a HI R NS (B a K)). right. apply Q. }
  split; [|exact X]. intros a K. rewrite (X a K). apply incl_refl.
Qed.

(* a concrete interleaved run (non-vacuity) *)
Definition ex_t1 : tx := mkTx 1 [(0%N, 0)] [mkOut (PKH (W 0 0)) 1000 0 false; mkOut (SH 9) 5 0 false].
Definition ex_t2 : tx := mkTx 2 [(1%N, 0)] [mkOut (PKH (W 0 1)) 600 0 false; mkOut (PKH (W 0 0)) 300 1 false;
                                             mkOut (PKH (X 7)) 50 0 false].
Definition ex_S : list stx := [(ex_t1, 5%Z); (ex_t2, 0%Z)].
Definition ex_ops : list op :=
  [GapChain 0; Server ex_S;
   Begin (W 0 1) [(2%N, 0%Z)]; Begin (W 0 0) [(1%N, 5%Z); (2%N, 0%Z)];
   Save (W 0 1); Save (W 0 0); SetHist (W 0 0); SetHist (W 0 1); Gap (W 0 1);
   Begin (W 0 2) []; Gap (W 0 0); Begin (W 0 3) []].
Definition incl_b (l r : hist) : bool := forallb (fun e => mem_entry e r) l.
Definition ex_report (s : state) :=
  (balance s [0%N], claims_total s [0%N], map key (utxos s [0%N]), map key (spec_utxos (server s) s [0%N]),
   nget (kcs s) 0, length (pend s),
   forallb (fun n => incl_b (server_hist (server s) (W 0 n)) (get_hist s (W 0 n))) (seq 0 4)).

Lemma chunks_fuel_flat {A V} (status : A -> V) b : 0 < b -> forall f l, length l <= f ->
  flat_map (fun batch => combine batch (map status batch)) (chunks_fuel f b l) = map (fun a => (a, status a)) l.
Proof.
  intro B. induction f as [|f IH]; intros l L.
  - destruct l; [reflexivity|simpl in L; lia].
  - destruct l as [|x r]; [reflexivity|].
    change (chunks_fuel (S f) b (x :: r)) with (firstn b (x :: r) :: chunks_fuel f b (skipn b (x :: r))).
    cbn [flat_map]. rewrite combine_map_self. rewrite IH.
    + rewrite <- map_app. rewrite firstn_skipn. reflexivity.
    + rewrite skipn_length. cbn [length] in *. lia.
Qed.

(* subscribe_addresses: whatever the batch size, every address gets exactly one update task, with its own status *)
Lemma subscribe_all b status addrs : 0 < b ->
  subscribe_plan b addrs (map status) = map (fun a => (a, status a)) addrs.
Proof. intro B. unfold subscribe_plan, chunks. apply chunks_fuel_flat; auto. Qed.
