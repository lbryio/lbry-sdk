(* A whole object on the wire (Model.C16_All): the round trip is env_roundtrip followed by tree_roundtrip, and
   injectivity of the encoding is read off the round trip. *)
From Coq Require Import NArith List Bool.
From LV Require Import Model.C16_Env Model.C16_Wire Model.C16_All Proofs.C16_Env Proofs.C16_Wire.
Import ListNotations.

Lemma mk_env_wf sig p : sig_wf sig -> env_wf (mk_env sig p).
Proof. destruct sig as [[h s]|]; cbn; auto. Qed.

Lemma mk_env_payload sig p : env_payload (mk_env sig p) = p.
Proof. destruct sig as [[h s]|]; reflexivity. Qed.

Lemma all_roundtrip sch d m sig fs : sig_wf sig -> tfields_ok sch m fs = true -> (fdepth fs <= d)%nat ->
  decode_all sch d m (encode_all sig fs) = (EnvOk (mk_env sig (ser_tree fs)), WOk fs).
Proof.
  intros Hs Hok Hd. unfold decode_all, encode_all.
  rewrite env_roundtrip by (apply mk_env_wf; exact Hs).
  rewrite mk_env_payload. rewrite tree_roundtrip by assumption. reflexivity.
Qed.

Lemma purchase_all_roundtrip sch d m fs : tfields_ok sch m fs = true -> (fdepth fs <= d)%nat ->
  purchase_decode_all sch d m (purchase_encode_all fs) = Some (WOk fs).
Proof.
  intros Hok Hd. unfold purchase_decode_all, purchase_encode_all. rewrite purchase_roundtrip.
  rewrite tree_roundtrip by assumption. reflexivity.
Qed.

Lemma encode_all_inj sch d m sig1 fs1 sig2 fs2 :
  sig_wf sig1 -> sig_wf sig2 -> tfields_ok sch m fs1 = true -> tfields_ok sch m fs2 = true ->
  (fdepth fs1 <= d)%nat -> (fdepth fs2 <= d)%nat ->
  encode_all sig1 fs1 = encode_all sig2 fs2 -> sig1 = sig2 /\ fs1 = fs2.
Proof.
  intros W1 W2 O1 O2 D1 D2 E.
  pose proof (all_roundtrip sch d m sig1 fs1 W1 O1 D1) as R1.
  pose proof (all_roundtrip sch d m sig2 fs2 W2 O2 D2) as R2.
  rewrite E, R2 in R1. inversion R1 as [[He Hf]]. split; [|reflexivity].
  destruct sig1 as [[h1 s1]|], sig2 as [[h2 s2]|]; cbn [mk_env] in He; congruence.
Qed.

(* legacy v1 claims: the payload the signature covers is the message without its signature field *)
Lemma drop_field_spec k fs f : In f (drop_field k fs) <-> In f fs /\ fst f <> k.
Proof. unfold drop_field. rewrite filter_In, negb_true_iff, N.eqb_neq. reflexivity. Qed.

Lemma drop_field_ok k fs : forallb field_ok fs = true -> forallb field_ok (drop_field k fs) = true.
Proof. rewrite !forallb_forall. intros H f Hf. apply H, (drop_field_spec k), Hf. Qed.

Lemma drop_field_absent k fs : (forall f, In f fs -> fst f <> k) -> drop_field k fs = fs.
Proof.
  unfold drop_field. induction fs as [|f fs IH]; intro H; [reflexivity|]. cbn [filter].
  rewrite (proj2 (N.eqb_neq _ _) (H f (or_introl eq_refl))). cbn [negb]. f_equal. apply IH. intros g Hg. apply H. right. exact Hg.
Qed.

(* for every canonical v1 message: the unsigned payload is the encoding of the same fields without the
   signature field, it parses back to exactly those fields, and it is the message itself when unsigned *)
Lemma v1_unsigned_payload_spec fs : forallb field_ok fs = true ->
  v1_unsigned_payload (ser_fields fs) = WOk (ser_fields (drop_field V1_SIGNATURE_FIELD fs)) /\
  wire_parse (ser_fields (drop_field V1_SIGNATURE_FIELD fs)) = WOk (drop_field V1_SIGNATURE_FIELD fs) /\
  ((forall f, In f fs -> fst f <> V1_SIGNATURE_FIELD) ->
     v1_unsigned_payload (ser_fields fs) = WOk (ser_fields fs)).
Proof.
  intro H. unfold v1_unsigned_payload. rewrite wire_roundtrip by exact H. split; [reflexivity|]. split.
  - apply wire_roundtrip, drop_field_ok, H.
  - intro Ha. rewrite drop_field_absent by exact Ha. reflexivity.
Qed.
