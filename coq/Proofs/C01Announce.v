(* C01 announce clause: a hash is handed to the announcer only if add_blobs(..., finished=True) was called for it,
   i.e. only if the completion callback of a BlobFile fired for it (and, by Props C01 theorem 1, such a blob holds
   bytes of the announced length hashing to its name). *)
From Coq Require Import NArith List Bool.
From LV Require Import Model.C01Announce.
Import ListNotations.
Local Open Scope N_scope.

(* every finished row was reported finished *)
Definition fin_ok (done : list N) (t : table) : Prop :=
  forall r, In r t -> is_fin r = true -> In (r_hash r) done.

Fixpoint completed_of (ops : list aop) : list N :=
  match ops with
  | [] => []
  | AAdd h true :: r => h :: completed_of r
  | _ :: r => completed_of r
  end.

Lemma completed_app a b : completed_of (a ++ b) = completed_of a ++ completed_of b.
Proof. induction a as [|o a IH]; simpl; auto. destruct o; simpl; auto. destruct finished; simpl; congruence. Qed.

Lemma fin_ok_mono d d' t : (forall x, In x d -> In x d') -> fin_ok d t -> fin_ok d' t.
Proof. intros M F r Hin Hf. apply M. eapply F; eauto. Qed.

Lemma fin_ok_upd h f d t : (forall r, r_hash (f r) = r_hash r) ->
  (forall r, is_fin (f r) = true -> is_fin r = true \/ In h d) -> fin_ok d t -> fin_ok d (upd_rows h f t).
Proof.
  intros Hh Hf F r Hin Fr. apply in_map_iff in Hin. destruct Hin as (r0 & E & Hin).
  destruct (N.eqb_spec (r_hash r0) h) as [Eh|]; subst r; [|eauto]. rewrite Hh.
  destruct (Hf r0 Fr) as [F0|X]; [apply (F r0); auto|rewrite Eh; auto].
Qed.

Lemma fin_ok_step o d t : fin_ok d t -> fin_ok (d ++ completed_of [o]) (astep o t).
Proof.
  intros F. assert (F' : fin_ok (d ++ completed_of [o]) t) by (eapply fin_ok_mono; [|exact F]; intros; apply in_or_app; auto).
  destruct o; simpl in *; try (apply fin_ok_upd; auto; fail).
  - (* add_blobs: the row it may insert is finished only if reported finished *)
    assert (F1 : fin_ok (d ++ (if finished then [h] else []))
                   (if has h t then t else t ++ [mkR h (if finished then AFinished else APending) false false 0])).
    { destruct (has h t); auto. intros r Hin Fr. apply in_app_or in Hin. destruct Hin as [Hin|[<-|[]]]; auto.
      destruct finished; [apply in_or_app; right; simpl; auto|discriminate]. }
    unfold add_blob. destruct finished; auto. apply fin_ok_upd; auto. intros; right; apply in_or_app; simpl; auto.
  - apply fin_ok_upd; auto; intros r; destruct (is_fin r) eqn:E; auto; congruence.
  - apply fin_ok_upd; auto. intros; discriminate.
  - intros r Hin. apply filter_In in Hin. apply F'; apply Hin.
Qed.

Lemma fin_ok_run ops : forall d t, fin_ok d t -> fin_ok (d ++ completed_of ops) (arun ops t).
Proof.
  induction ops as [|o ops IH]; intros d t F.
  - simpl. rewrite app_nil_r; auto.
  - change (o :: ops) with ([o] ++ ops). rewrite completed_app, app_assoc. apply IH, fin_ok_step, F.
Qed.

Lemma in_to_announce head now t h :
  In h (to_announce head now t) <->
  exists r, In r t /\ r_hash r = h /\ (r_next r <? now) = true /\ is_fin r = true
            /\ negb head || r_should r || r_single r = true.
Proof.
  unfold to_announce. rewrite in_map_iff. split; intros (r & A & B); exists r.
  - apply filter_In in B. rewrite !andb_true_iff in B. tauto.
  - rewrite filter_In, !andb_true_iff. tauto.
Qed.

Lemma announce_only_completed ops head now h :
  In h (to_announce head now (arun ops [])) -> In h (completed_of ops).
Proof.
  intros Hin. apply in_to_announce in Hin. destruct Hin as (r & Hin & <- & _ & Hf & _).
  apply (fin_ok_run ops [] []); auto. intros r0 [].
Qed.

Lemma head_only_subset now t h : In h (to_announce true now t) -> In h (to_announce false now t).
Proof. rewrite !in_to_announce. intros (r & A & B & C & D & _). exists r. auto. Qed.

(* a blob only known from a stream descriptor, or whose download failed, is never handed out: its row is pending *)
Lemma pending_not_announced head now t h :
  (forall r, In r t -> r_hash r = h -> is_fin r = false) -> ~ In h (to_announce head now t).
Proof. intros P Hin. apply in_to_announce in Hin. destruct Hin as (r & Hin & E & _ & Hf & _). rewrite (P r Hin E) in Hf. discriminate. Qed.
