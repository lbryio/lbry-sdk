(* One call of the decoder on bencode(v) followed by anything returns v and what followed (bdec_benc).  The decoder
   does not look past what it consumes, except that a string's slice clamps at the end of the input: a call that
   succeeds succeeds the same way when bytes are appended (bdec_ext).  So on a proper prefix of bencode(v) a success
   that could be extended would contradict the round trip on the whole, and the decoder is rejected there
   (bdec_prefix; decoder as repaired by 67aa5e2: a dictionary's end marker is consumed). *)
From Coq Require Import ZArith List Lia.
From LV Require Import Lib.Bytes Model.C17 Proofs.C17_Bencode.
Import ListNotations.
Local Open Scope N_scope.

(* the decoder failed, or it swallowed the whole input (a cut-off string is read as a shorter string: slices
   clamp) -- in both cases the enclosing list / dictionary loop finds nothing left and fails *)
Definition stuck (r : res (bval * bytes)) : Prop :=
  match r with Err _ => True | Ok (_, rest) => rest = [] end.
Definition is_err {A} (r : res A) : Prop :=
  match r with Err _ => True | Ok _ => False end.

Lemma is_err_stuck r : is_err r -> stuck r.
Proof. destruct r as [[v rest]|e]; simpl; [contradiction | trivial]. Qed.

Section Codec.
  Variable A : Type.
  Variable enc : A -> bytes.
  Variable dec : bytes -> res (A * bytes).
  Variable bound : nat.

  (* what a loop needs to know of its element decoder, for one element a with encoding [enc a] *)
  Definition RT (a : A) : Prop :=
    (length (enc a) <= bound)%nat -> forall T, dec (enc a ++ T) = Ok (a, T).

  Variables (Acc : Type) (add : Acc -> A -> Acc) (fin : Acc -> bval).
  Hypothesis enc_head : forall a, not_end (enc a).

  Lemma loop_spec l : forall acc st T,
    Forall RT l -> (length (concat (map enc l)) < st <= bound)%nat ->
    loop dec add fin st (concat (map enc l) ++ c_e :: T) acc = Ok (fin (fold_left add l acc), T).
  Proof.
    induction l as [|x r IH]; intros acc st T Hl Hs; (destruct st as [|st]; [lia|]).
    - apply loop_end.
    - inversion Hl as [|? ? Hx Hr]; subst.
      cbn [map concat] in *. rewrite app_length in Hs. pose proof (enc_head x) as Hh.
      rewrite <- app_assoc, loop_step, Hx, IH
        by (apply not_end_app, Hh || assumption || (destruct (enc x); [contradiction | cbn [length] in *; lia])).
      reflexivity.
  Qed.
End Codec.

Lemma pair_RT dec1 bound k x : hashable k = true ->
  RT _ benc dec1 bound k -> RT _ benc dec1 bound x -> RT _ benc_kv (pair_dec dec1) bound (k, x).
Proof.
  intros Hk Hrk Hrx. unfold RT, benc_kv, pair_dec in *. cbn [fst snd]. intros Hlen T.
  rewrite app_length in Hlen. rewrite <- app_assoc, Hrk, Hrx, Hk by lia. reflexivity.
Qed.

Lemma pydict_set_new acc k v r : keys_nodup (acc ++ (k, v) :: r) -> pydict_set acc k v = acc ++ [(k, v)].
Proof.
  induction acc as [|[k' v'] acc IH]; intro H; [reflexivity|]. destruct H as [Ha Hn].
  apply Forall_app in Ha as [_ Ha]. inversion Ha as [|? ? Hk _]; subst. cbn [fst] in Hk.
  cbn [pydict_set app]. rewrite Hk, (IH Hn). reflexivity.
Qed.

Lemma pydict_fold d : forall acc, keys_nodup (acc ++ d) ->
  fold_left (fun acc p => pydict_set acc (fst p) (snd p)) d acc = acc ++ d.
Proof.
  induction d as [|[k x] r IH]; intros acc Hn; [symmetry; apply app_nil_r|].
  cbn [fold_left fst snd]. rewrite (pydict_set_new acc k x r Hn), IH, <- app_assoc; [reflexivity|].
  rewrite <- app_assoc. exact Hn.
Qed.

Lemma fold_left_cons {A} (l : list A) : forall acc, fold_left (fun a v => v :: a) l acc = rev l ++ acc.
Proof.
  induction l as [|x l IH]; intro acc; [reflexivity|]. cbn [fold_left rev]. rewrite IH, <- app_assoc. reflexivity.
Qed.

(* by induction over the nesting bound, which is what bdec recurses on: the parts of a value within the bound are
   within the bound less one *)
Theorem bdec_benc : forall v, wfv v -> forall steps depth T,
  (depth_of v <= depth)%nat -> (length (benc v) <= steps)%nat ->
  bdec steps depth (benc v ++ T) = Ok (v, T).
Proof.
  intros v Hw steps depth. revert v Hw.
  induction depth as [|dp IH]; intros v Hw T Hdep; [destruct v; inversion Hdep|].
  assert (Hel : forall x, wfv x -> (depth_of x < depth_of v)%nat -> RT _ benc (bdec steps dp) steps x).
  { intros x Hx Hd Hlen T'. apply IH; [exact Hx | lia | exact Hlen]. }
  inversion Hw as [z Hz|s Hs|l Hwl|d Hwd Hks Hkn]; subst.
  - intros _. cbn [benc app]. rewrite bdec_i, <- app_assoc. apply dec_int_benc. exact Hz.
  - intros _. rewrite benc_BStr_app, bdec_dec. apply dec_str_benc. exact Hs.
  - assert (Hl : Forall (RT _ benc (bdec steps dp) steps) l).
    { rewrite Forall_forall in *. intros x Hx. exact (Hel x (Hwl x Hx) (depth_of_elt l x Hx)). }
    rewrite benc_BList. cbn [app length]. rewrite app_length. cbn [length]. intro Hlen.
    rewrite bdec_l, list_loop_eq, <- app_assoc. cbn [app].
    rewrite (loop_spec _ _ _ steps), fold_left_cons, app_nil_r, rev_involutive by (exact not_end_benc || exact Hl || lia).
    reflexivity.
  - assert (Hl : Forall (RT _ benc_kv (pair_dec (bdec steps dp)) steps) d).
    { rewrite Forall_forall in *. intros [k x] Hin. destruct (Hwd _ Hin) as [Hk Hx]. cbn [fst snd] in *.
      destruct (depth_of_item d k x Hin Hk) as [Dk Dx].
      exact (pair_RT _ _ k x (key_ok_hashable k Hk) (Hel k (key_ok_wfv k Hk) Dk) (Hel x Hx Dx)). }
    rewrite (benc_BDict d Hks). cbn [app length]. rewrite app_length. cbn [length]. intro Hlen.
    rewrite bdec_d, dict_loop_eq, <- app_assoc. cbn [app].
    rewrite (loop_spec _ _ _ steps), pydict_fold
      by ((intro kx; apply not_end_app, not_end_benc) || exact Hl || exact Hkn || lia).
    reflexivity.
Qed.

(* a string that leaves nothing may have been cut short by the end of the input; every other result is final *)
Definition final (v : bval) (rest : bytes) : Prop :=
  match v with BStr _ => rest <> [] | _ => True end.

Definition extends {A} (dec dec' : bytes -> res (A * bytes)) : Prop :=
  forall cur a rest q, dec cur = Ok (a, rest) -> rest <> [] -> dec' (cur ++ q) = Ok (a, rest ++ q).

Lemma dec_int_ext rest v r q : dec_int rest = Ok (v, r) -> dec_int (rest ++ q) = Ok (v, r ++ q).
Proof.
  unfold dec_int. destruct (find_split 101 rest) as [[num after]|] eqn:E; [|discriminate].
  apply find_split_inv in E as (x & -> & Ha & Hx).
  rewrite <- app_assoc. cbn [app]. rewrite (find_split_app _ _ _ _ Ha Hx).
  destruct (strict_int num); [|discriminate]. intro H. inversion H. reflexivity.
Qed.

Lemma dec_str_ext data v r q : dec_str data = Ok (v, r) -> final v r -> dec_str (data ++ q) = Ok (v, r ++ q).
Proof.
  unfold dec_str. destruct (find_split 58 data) as [[num after]|] eqn:E; [|discriminate].
  apply find_split_inv in E as (x & -> & Ha & Hx).
  rewrite <- app_assoc. cbn [app]. rewrite (find_split_app _ _ _ _ Ha Hx).
  destruct (strict_len num) as [z|]; [|discriminate].
  destruct (z <? 0)%Z; [discriminate|]. rewrite !take_clamped_firstn. intros H Hr. inversion H; subst. cbn [final] in Hr.
  (* something is left, so the slice ends inside [after] *)
  destruct (Nat.lt_ge_cases (N.to_nat (Z.to_N z)) (length after)) as [L|L]; [|rewrite skipn_all2 in Hr by exact L; contradiction].
  rewrite firstn_app, skipn_app. replace (N.to_nat (Z.to_N z) - length after)%nat with 0%nat by lia.
  cbn [firstn skipn]. rewrite app_nil_r. reflexivity.
Qed.

Section LoopExt.
  Variables A Acc : Type.
  Variables dec dec' : bytes -> res (A * bytes).
  Variable add : Acc -> A -> Acc.
  Variable fin : Acc -> bval.
  Hypothesis dec_ext : extends dec dec'.

  Lemma loop_nil st acc : is_err (loop dec add fin st [] acc).
  Proof. destruct st; exact I. Qed.

  (* an element that leaves nothing makes the loop fail, so every element read in a successful run left something *)
  Lemma loop_ext : forall st st' cur acc v rest q,
    loop dec add fin st cur acc = Ok (v, rest) -> (st <= st')%nat ->
    loop dec' add fin st' (cur ++ q) acc = Ok (v, rest ++ q).
  Proof.
    induction st as [|st IH]; intros st' cur acc v rest q H Hs; [discriminate|].
    destruct st' as [|st']; [lia|]. destruct cur as [|c cur']; [discriminate|]. cbn [loop app] in *.
    destruct (isb 101 c); [inversion H; reflexivity|].
    destruct (dec (c :: cur')) as [[a cur2]|e] eqn:E; [|discriminate].
    assert (Hc : cur2 <> []).
    { intro Z. subst. pose proof (loop_nil st (add acc a)) as N. rewrite H in N. exact N. }
    rewrite (dec_ext (c :: cur') a cur2 q E Hc : dec' (c :: cur' ++ q) = _). apply IH; [exact H | lia].
  Qed.
End LoopExt.

Lemma pair_ext dec1 dec1' : extends dec1 dec1' -> is_err (dec1 []) -> extends (pair_dec dec1) (pair_dec dec1').
Proof.
  intros Hext Hnil cur a rest q. unfold pair_dec.
  destruct (dec1 cur) as [[k c2]|e] eqn:E1; [|discriminate]. destruct (dec1 c2) as [[v c3]|e] eqn:E2; [|discriminate].
  destruct (hashable k) eqn:Hk; [|discriminate]. intros H Hr. inversion H; subst.
  rewrite (Hext _ _ _ q E1), (Hext _ _ _ q E2), Hk; [reflexivity | exact Hr |].
  intro Z. subst. rewrite E2 in Hnil. exact Hnil.
Qed.

Theorem bdec_ext : forall depth steps steps' data v rest q,
  bdec steps depth data = Ok (v, rest) -> final v rest -> (steps <= steps')%nat ->
  bdec steps' depth (data ++ q) = Ok (v, rest ++ q).
Proof.
  induction depth as [|d IH]; intros steps steps' data v rest q H Hf Hs; [discriminate|].
  destruct data as [|b data]; [discriminate|]. cbn [app]. rewrite bdec_S in *.
  assert (Hel : extends (bdec steps d) (bdec steps' d)).
  { intros cur a r q' E Hr. apply (IH steps); [exact E | destruct a; try exact I; exact Hr | exact Hs]. }
  destruct (isb 105 b); [apply dec_int_ext; exact H|].
  destruct (isb 108 b); [rewrite list_loop_eq in *; exact (loop_ext _ _ _ _ _ _ Hel _ _ _ _ _ _ q H Hs)|].
  destruct (isb 100 b).
  { rewrite dict_loop_eq in *. refine (loop_ext _ _ _ _ _ _ (pair_ext _ _ Hel _) _ _ _ _ _ _ q H Hs). destruct d; exact I. }
  apply (dec_str_ext (b :: data)); assumption.
Qed.

(* the decoder on a proper prefix of bencode(v), with any loop budget: it fails, unless v is a string, whose cut-off
   encoding may be read as a shorter string *)
Theorem bdec_prefix : forall v, wfv v -> forall steps depth p q,
  p ++ q = benc v -> q <> [] -> (depth_of v <= depth)%nat ->
  match v with
  | BStr _ => stuck (bdec steps depth p)
  | _ => is_err (bdec steps depth p)
  end.
Proof.
  intros v Hw steps depth p q H Hq Hd.
  destruct (bdec steps depth p) as [[v' rest]|e] eqn:E; [|destruct v; exact I].
  (* extended by q the call leaves rest ++ q, the round trip on the whole leaves nothing *)
  assert (Hno : ~ final v' rest).
  { intro Hf. pose proof (bdec_ext depth steps _ p v' rest q E Hf (Nat.le_max_l _ (length (benc v)))) as X.
    pose proof (bdec_benc v Hw _ depth [] Hd (Nat.le_max_r steps _)) as Y.
    rewrite app_nil_r in Y. rewrite H, Y in X. injection X as _ Hr.
    symmetry in Hr. apply app_eq_nil in Hr as [_ Hr]. exact (Hq Hr). }
  destruct v' as [|s'| |]; try (exfalso; exact (Hno I)).
  destruct rest; [|exfalso; apply Hno; discriminate].
  (* a string that took all there was: not what a call on 'i...', 'l...' or 'd...' returns *)
  destruct p as [|b p']; [destruct depth; discriminate|]. apply bdec_first_byte in E as (Ei & El & Ed).
  destruct v as [z|s|l|d]; [|reflexivity | |]; injection H as -> _; discriminate.
Qed.

(* the weaker verdict that does not tell integers from strings *)
Corollary bdec_prefix_stuck v : wfv v -> forall steps depth p q,
  p ++ q = benc v -> q <> [] -> (depth_of v <= depth)%nat ->
  match v with BList _ | BDict _ => is_err (bdec steps depth p) | _ => stuck (bdec steps depth p) end.
Proof.
  intros Hw steps depth p q H Hq Hd. pose proof (bdec_prefix v Hw steps depth p q H Hq Hd) as R.
  destruct v; try exact R. apply is_err_stuck, R.
Qed.

Corollary bdecode_benc d fuel :
  wfv (BDict d) -> (depth_of (BDict d) <= fuel)%nat -> bdecode fuel (benc (BDict d)) = Ok d.
Proof.
  intros Hw Hf. unfold bdecode.
  pose proof (bdec_benc (BDict d) Hw (S (length (benc (BDict d)))) fuel [] Hf (Nat.le_succ_diag_r _)) as H.
  rewrite app_nil_r in H. rewrite H. reflexivity.
Qed.

Corollary bdecode_prefix d fuel p q :
  wfv (BDict d) -> (depth_of (BDict d) <= fuel)%nat -> p ++ q = benc (BDict d) -> q <> [] ->
  exists e, bdecode fuel p = Err e.
Proof.
  intros Hw Hf H Hq. unfold bdecode. destruct p as [|b r]; [exists EDecode; reflexivity|].
  pose proof (bdec_prefix (BDict d) Hw (S (length (b :: r))) fuel (b :: r) q H Hq Hf) as R.
  cbn beta iota in R. destruct (bdec (S (length (b :: r))) fuel (b :: r)) as [[v rest]|e]; [contradiction|].
  exists e. reflexivity.
Qed.
