(* The server's idle and transfer timers: a deadline that no event re-arms closes the connection once it has passed
   ([deadline_closes]), for either timer. *)
From Coq Require Import NArith ZArith List Bool Lia.
From LV Require Import Lib.Bytes Lib.Lists Model.C10.
Import ListNotations.
Local Open Scope Z_scope.

Section Timers.
Variable idleT transT : Z.
Hypothesis HidleT : 0 < idleT.
Hypothesis HtransT : 0 < transT.

Fixpoint total (dts : list Z) : Z := match dts with [] => 0 | dt :: r => Z.max dt 0 + total r end.
Lemma total_nonneg dts : 0 <= total dts.
Proof. induction dts; cbn; lia. Qed.

(* an in-progress transfer is not closed by anything before its own deadline, in particular not by the idle timer *)
Lemma transfer_survives : forall dts s d,
  t_mode s = TmTransfer d -> t_now s + total dts < d ->
  tsrv_run idleT transT s (map TvAdvance dts) = mkT (t_now s + total dts) (TmTransfer d).
Proof.
  induction dts as [|dt dts IH]; intros s d Hm Hlt.
  - cbn. destruct s; cbn in *. subst. f_equal. lia.
  - cbn [map total] in *. unfold tsrv_run in *. cbn [fold_left].
    pose proof (total_nonneg dts).
    assert (Hs : tsrv_step idleT transT s (TvAdvance dt) = mkT (t_now s + Z.max dt 0) (TmTransfer d)).
    { unfold tsrv_step. rewrite Hm. destruct (d <=? t_now s + Z.max dt 0) eqn:E; [lia|reflexivity]. }
    rewrite Hs. rewrite (IH _ d); cbn; [f_equal; lia|reflexivity|lia].
Qed.

Theorem transfer_not_cut_by_idle s d dts :
  t_mode s = TmIdle d -> total dts < transT ->
  tsrv_run idleT transT (tsrv_step idleT transT s TvStart) (map TvAdvance dts)
    = mkT (t_now s + total dts) (TmTransfer (t_now s + transT)).
Proof.
  intros Hm Hlt. unfold tsrv_step at 1. rewrite Hm.
  rewrite (transfer_survives dts _ (t_now s + transT)); cbn; [reflexivity|reflexivity|lia].
Qed.

Theorem transfer_done_rearms s d dts :
  t_mode s = TmIdle d -> total dts < transT ->
  tsrv_step idleT transT (tsrv_run idleT transT (tsrv_step idleT transT s TvStart) (map TvAdvance dts)) TvDone
    = mkT (t_now s + total dts) (TmIdle (t_now s + total dts + idleT)).
Proof. intros Hm Hlt. rewrite (transfer_not_cut_by_idle s d dts Hm Hlt). reflexivity. Qed.

(* every connection is closed once its current deadline has passed: invariant over ALL event sequences *)
Definition live (s : tsrv) : Prop :=
  match t_mode s with TmIdle d | TmTransfer d => t_now s < d | TmClosed => True end.
Lemma live_step s e : live s -> live (tsrv_step idleT transT s e).
Proof.
  unfold live, tsrv_step. intro Hl.
  destruct e; destruct (t_mode s) as [d|d|] eqn:Em; cbn; rewrite ?Em; auto; try lia;
    match goal with |- context[?a <=? ?b] => destruct (a <=? b) eqn:E; cbn; auto; lia end.
Qed.
Lemma live_run : forall evs s, live s -> live (tsrv_run idleT transT s evs).
Proof. intro evs. apply fold_left_inv. intros s e. apply live_step. Qed.
Lemma live_fresh now : live (tsrv_fresh idleT now).
Proof. unfold live, tsrv_fresh. cbn. lia. Qed.

(* the deadline never lies further ahead than max(idle, transfer) timeout *)
Definition near (s : tsrv) : Prop :=
  match t_mode s with TmIdle d => d <= t_now s + idleT | TmTransfer d => d <= t_now s + transT | TmClosed => True end.
Lemma near_step s e : near s -> near (tsrv_step idleT transT s e).
Proof.
  unfold near, tsrv_step. intro Hl.
  destruct e; destruct (t_mode s) as [d|d|] eqn:Em; cbn; rewrite ?Em; auto; try lia;
    match goal with |- context[?a <=? ?b] => destruct (a <=? b) eqn:E; cbn; auto; lia end.
Qed.

Definition quiet (e : tev) : Prop := match e with TvAdvance _ | TvOther => True | _ => False end.
Fixpoint elapsed_t (evs : list tev) : Z :=
  match evs with [] => 0 | TvAdvance dt :: r => Z.max dt 0 + elapsed_t r | _ :: r => elapsed_t r end.
Lemma elapsed_t_nonneg evs : 0 <= elapsed_t evs.
Proof. induction evs as [|[] r]; cbn; lia. Qed.

Lemma closed_stays : forall evs s, t_mode s = TmClosed -> t_mode (tsrv_run idleT transT s evs) = TmClosed.
Proof.
  intro evs. apply (fold_left_inv _ (fun s => t_mode s = TmClosed)). intros s e Hm.
  unfold tsrv_step. rewrite Hm. destruct e; cbn; auto.
Qed.

(* a deadline d of mode m that none of the events re-arms (they only move the clock) closes the connection once it
   has passed *)
Lemma deadline_closes (m : Z -> tmode) (ok : tev -> Prop) :
  (forall s d e, t_mode s = m d -> ok e ->
     tsrv_step idleT transT s e =
       match e with
       | TvAdvance dt => mkT (t_now s + Z.max dt 0) (if d <=? t_now s + Z.max dt 0 then TmClosed else m d)
       | _ => s
       end) ->
  forall evs s d, Forall ok evs -> t_mode s = m d -> t_now s < d -> d <= t_now s + elapsed_t evs ->
  t_mode (tsrv_run idleT transT s evs) = TmClosed.
Proof.
  intros Hstep. induction evs as [|e evs IH]; intros s d Hq Hm Hl He; [cbn in He; lia|].
  inversion Hq as [|? ? Hqe Hqr]; subst. unfold tsrv_run in *. cbn [fold_left]. rewrite (Hstep s d e Hm Hqe).
  destruct e; cbn [elapsed_t] in He; try (apply (IH s d); assumption).
  destruct (Z.leb_spec d (t_now s + Z.max dt 0)); [apply closed_stays; reflexivity|].
  apply (IH _ d); cbn; auto; lia.
Qed.

Theorem silent_peer_closed : forall evs s d,
  Forall quiet evs -> t_mode s = TmIdle d -> live s -> d <= t_now s + elapsed_t evs ->
  t_mode (tsrv_run idleT transT s evs) = TmClosed.
Proof.
  intros evs s d Hq Hm Hl. apply (deadline_closes TmIdle quiet); auto; [|unfold live in Hl; rewrite Hm in Hl; exact Hl].
  intros s' d' e Hm' Hok. unfold tsrv_step. rewrite Hm'. destruct e; try contradiction; reflexivity.
Qed.

Definition unfinished (e : tev) : Prop := match e with TvDone => False | _ => True end.
Theorem stalled_transfer_closed : forall evs s d,
  Forall unfinished evs -> t_mode s = TmTransfer d -> live s -> d <= t_now s + elapsed_t evs ->
  t_mode (tsrv_run idleT transT s evs) = TmClosed.
Proof.
  intros evs s d Hq Hm Hl. apply (deadline_closes TmTransfer unfinished); auto; [|unfold live in Hl; rewrite Hm in Hl; exact Hl].
  intros s' d' e Hm' Hok. unfold tsrv_step. rewrite Hm'. destruct e; try contradiction; reflexivity.
Qed.

End Timers.

Lemma nth_set_nth_other : forall (ws : list writer) i j w, i <> j -> nth_error (set_nth i w ws) j = nth_error ws j.
Proof.
  induction ws as [|x r IH]; intros i j w Hne; [destruct i; reflexivity|].
  destruct i, j; cbn; try reflexivity; [congruence|]. apply IH. congruence.
Qed.
Lemma nth_set_nth_same : forall (ws : list writer) i w x, nth_error ws i = Some x -> nth_error (set_nth i w ws) i = Some w.
Proof.
  induction ws as [|y r IH]; intros i w x Hn; [destruct i; discriminate|].
  destruct i; cbn in *; [reflexivity|]. eapply IH; eassumption.
Qed.

Theorem failing_writer_leaves_others H hash len ws i data w j :
  nth_error ws i = Some w ->
  w_fin (fst (writer_write H hash len w data)) <> WResult -> i <> j ->
  nth_error (blob_write H hash len ws i data) j = nth_error ws j.
Proof.
  intros Hn Hf Hne. unfold blob_write. rewrite Hn. unfold finished_callback.
  rewrite (nth_set_nth_same ws i _ w Hn).
  destruct (w_fin (fst (writer_write H hash len w data))) eqn:E; try congruence; apply nth_set_nth_other; exact Hne.
Qed.

Theorem closing_writer_verified H hash L data w :
  w_fin w = WPending -> w_closed w = false ->
  w_fin (fst (writer_write H hash (Some L) w data)) = WResult ->
  H (w_data w ++ data) = hash /\ zlen (w_data w ++ data) = L.
Proof.
  intros Hp Hc. unfold writer_write. destruct (L =? 0); cbn; [congruence|]. rewrite Hc, Hp.
  destruct (zlen (w_data w ++ data) >? L); cbn; [discriminate|].
  destruct (zlen (w_data w ++ data) =? L) eqn:E; cbn; [|congruence].
  destruct (bytes_eqb (H (w_data w ++ data)) hash) eqn:Eh; cbn; [|discriminate].
  intros _. apply bytes_eqb_eq in Eh. split; [exact Eh|lia].
Qed.

Theorem memory_only_serves_once store completed q h :
  q_blob q = Some (BqHash h) ->
  let store' := snd (mem_handle_request store completed q) in
  store' h = None /\
  forall q', q_blob q' = Some (BqHash h) ->
    forall o, In o (handle_request store' completed q') ->
      match o with SHeader hd => h_incoming hd = None | SBlob _ => False | _ => True end.
Proof.
  intros Hq store'. unfold store', mem_handle_request. rewrite Hq. cbn [snd].
  assert (Hf : forget store h h = None) by (unfold forget; rewrite bytes_eqb_refl; reflexivity).
  split; [exact Hf|].
  intros q' Hq' o Hin. unfold handle_request in Hin. rewrite Hq', Hf in Hin.
  destruct (q_addr q' || _ || q_price q'); [|contradiction].
  destruct Hin as [<-|[]]. reflexivity.
Qed.
