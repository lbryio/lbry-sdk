(* str.split and str.join over any separator test: joining good words (non-empty, free of separators) and
   splitting gives the words back, and a split yields good words whose concatenation is the input without its
   separators. The whitespace collapse, the CJK rule and what reaches PBKDF2 are read off these. *)
From Coq Require Import NArith List Bool.
From LV Require Import Model.C06.
Import ListNotations.
Local Open Scope N_scope.

Section SplitJoin.
  Context {A : Type} (sp : A -> bool) (sep : A).
  Hypothesis sep_is_space : sp sep = true.

  Definition sp_free (w : list A) : Prop := Forall (fun c => sp c = false) w.
  Definition goodw (w : list A) : Prop := w <> [] /\ sp_free w.

  Lemma splitg_go_word w s : sp_free w ->
    splitg_go sp (w ++ s) = (w ++ fst (splitg_go sp s), snd (splitg_go sp s)).
  Proof.
    induction 1 as [|c r Hc _ IH]; cbn [app]; [destruct (splitg_go sp s); reflexivity|].
    cbn [splitg_go]. rewrite IH, Hc. reflexivity.
  Qed.

  Lemma splitg_go_sep s : splitg_go sp (sep :: s) = ([], splitg sp s).
  Proof. cbn [splitg_go]. unfold splitg. rewrite sep_is_space. destruct (splitg_go sp s). reflexivity. Qed.

  Lemma splitg_alt s : splitg sp s = match fst (splitg_go sp s) with [] => snd (splitg_go sp s) | w => w :: snd (splitg_go sp s) end.
  Proof. unfold splitg. destruct (splitg_go sp s) as [w ws]. cbn [fst snd]. destruct w; reflexivity. Qed.

  Lemma splitg_joing ws : Forall goodw ws -> splitg sp (joing sep ws) = ws.
  Proof.
    induction 1 as [|w r [Hne Hsf] Hr IH]; [reflexivity|].
    cbn [joing]. destruct r as [|w2 r'].
    - pose proof (splitg_go_word w [] Hsf) as E. rewrite app_nil_r in E. cbn [splitg_go fst snd] in E.
      rewrite app_nil_r in E. rewrite splitg_alt, E. cbn [fst snd]. destruct w; [congruence | reflexivity].
    - rewrite splitg_alt, splitg_go_word, splitg_go_sep by assumption. cbn [fst snd].
      rewrite app_nil_r, IH. destruct w; [congruence | reflexivity].
  Qed.

  (* the word being read is free of separators, the finished words are good, and nothing but separators is lost *)
  Lemma splitg_go_spec s (w := fst (splitg_go sp s)) (ws := snd (splitg_go sp s)) :
    sp_free w /\ Forall goodw ws /\ w ++ concat ws = filter (fun c => negb (sp c)) s.
  Proof.
    subst w ws. induction s as [|c r (IH1 & IH2 & IH3)]; cbn [splitg_go filter]; [repeat split; constructor|].
    destruct (splitg_go sp r) as [w ws]. cbn [fst snd] in *. rewrite <- IH3.
    destruct (sp c) eqn:E; cbn [fst snd negb].
    - repeat split; [constructor | | destruct w; reflexivity]. destruct w as [|x w']; [exact IH2|].
      constructor; [split; [discriminate | exact IH1] | exact IH2].
    - repeat split; [constructor; assumption | exact IH2].
  Qed.

  Lemma splitg_good s : Forall goodw (splitg sp s).
  Proof.
    rewrite splitg_alt. destruct (splitg_go_spec s) as (H1 & H2 & _).
    destruct (fst (splitg_go sp s)) as [|x w] eqn:E; [exact H2|].
    constructor; [split; [discriminate | exact H1] | exact H2].
  Qed.

  Lemma splitg_concat s : concat (splitg sp s) = filter (fun c => negb (sp c)) s.
  Proof. rewrite <- (proj2 (proj2 (splitg_go_spec s))), splitg_alt. destruct (fst (splitg_go sp s)); reflexivity. Qed.

  Lemma in_joing x ws : In x (joing sep ws) -> x = sep \/ In x (concat ws).
  Proof.
    induction ws as [|w r IH]; [intros []|]. cbn [joing concat]. rewrite in_app_iff. destruct r as [|w2 r']; [auto|].
    intro H. apply in_app_iff in H as [H|[<-|H]]; [auto | auto | destruct (IH H); auto].
  Qed.

  (* ' '.join(s.split()) keeps the words of s *)
  Lemma split_collapse s : splitg sp (joing sep (splitg sp s)) = splitg sp s.
  Proof. apply splitg_joing. apply splitg_good. Qed.
End SplitJoin.

Lemma is_ws_32 : is_ws_cp 32 = true.
Proof. vm_compute. reflexivity. Qed.

Theorem collapse_ws_words s : splitg is_ws_cp (collapse_ws s) = splitg is_ws_cp s.
Proof. unfold collapse_ws. apply split_collapse. exact is_ws_32. Qed.

Theorem collapse_ws_idempotent s : collapse_ws (collapse_ws s) = collapse_ws s.
Proof. unfold collapse_ws at 1. rewrite collapse_ws_words. reflexivity. Qed.

(* the CJK rule only ever deletes ASCII whitespace: all other characters survive, in order *)
Theorem rm_cjk_spaces_content s : forall prev,
  filter (fun c => negb (is_ascii_ws c)) (rm_cjk_spaces prev s) = filter (fun c => negb (is_ascii_ws c)) s.
Proof.
  induction s as [|c r IH]; intro prev; [reflexivity|].
  cbn [rm_cjk_spaces]. rewrite filter_app, IH. cbn [filter].
  destruct (is_ascii_ws c) eqn:E; cbn [andb negb].
  - destruct (_ && _); cbn [filter app]; rewrite ?E; reflexivity.
  - cbn [filter]. rewrite E. reflexivity.
Qed.

Lemma rm_cjk_spaces_incl x s : forall prev, In x (rm_cjk_spaces prev s) -> In x s.
Proof.
  induction s as [|c r IH]; intros prev H; [exact H|].
  cbn [rm_cjk_spaces] in H. apply in_app_iff in H as [H|H]; [|right; exact (IH _ H)].
  destruct (_ && _ && _); [destruct H | left; destruct H as [<-|[]]; reflexivity].
Qed.

Section Normalize.
  Variable nfkd : list N -> list N.
  Variable lower : list N -> list N.
  Variable combining : N -> bool.

  (* the whitespace and CJK steps only delete characters or insert U+0020: every other character of the result is a
     non-combining character of lower(nfkd s) *)
  Theorem normalize_no_combining s c : In c (normalize_text nfkd lower combining s) -> c <> 32 ->
    combining c = false /\ In c (lower (nfkd s)).
  Proof.
    unfold normalize_text, collapse_ws. intros Hin Hc.
    apply rm_cjk_spaces_incl, in_joing in Hin. destruct Hin as [|Hin]; [contradiction|].
    rewrite splitg_concat in Hin. apply filter_In, proj1, filter_In in Hin as [Hl Hnc].
    split; [apply negb_true_iff; exact Hnc | exact Hl].
  Qed.
End Normalize.
