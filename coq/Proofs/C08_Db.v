(* C08: the stored row always carries the verdict of the LATEST verification, and (as long as headers are
   only appended) a row flagged verified checks against the header the wallet holds at the row's height. *)
From Coq Require Import List Bool.
From LV Require Import Lib.Bytes Lib.Lists Model.C08 Model.C08_Cache Model.C08_Db Proofs.C08 Proofs.C08_Cache.
Import ListNotations.

Section Db.
Variable dsha : bytes -> bytes.

Lemma row_lookup_replace k v r : row_lookup k (row_replace k v r) = Some v.
Proof.
  induction r as [|[k' v'] t IH]; cbn [row_replace row_lookup].
  - now rewrite bytes_eqb_refl.
  - destruct (bytes_eqb k k') eqn:E; cbn [row_lookup]; rewrite ?bytes_eqb_refl, ?E; [reflexivity | exact IH].
Qed.

(* the row read back after a sync that ran to its end is exactly what maybe_verify_transaction produced
   from a fresh transaction at the height the server reported: no memory of earlier verdicts *)
Theorem row_is_latest_verdict s key raw h arg net :
  let r := maybe_verify dsha (d_headers s) (fresh h) raw h arg net in
  (mv_outcome r = RetTx \/ mv_outcome r = RetNone) ->
  row_lookup key (d_rows (dstep dsha s (DSync key raw h arg net))) =
  Some {| c_raw := raw; c_resp := effective arg net; c_st := mv_state r |}.
Proof.
  cbv zeta. intros [E|E]; cbn [dstep]; rewrite E; apply row_lookup_replace.
Qed.

(* hence: a re-sync at a height without header, or with a proof that does not lead to that header's
   root, leaves the row unverified at the new height, whatever the row said before *)
Theorem resync_without_proof_unverifies s key raw h arg net :
  let r := maybe_verify dsha (d_headers s) (fresh h) raw h arg net in
  (mv_outcome r = RetTx \/ mv_outcome r = RetNone) ->
  ~ (in_range (d_headers s) h /\ proof_checks dsha (d_headers s) raw h (effective arg net)) ->
  exists e, row_lookup key (d_rows (dstep dsha s (DSync key raw h arg net))) = Some e /\
            t_verified (c_st e) = false /\ t_height (c_st e) = h.
Proof.
  cbv zeta. intros Ho Hn. eexists. split; [apply row_is_latest_verdict, Ho|]. cbn [c_st].
  split; [|apply height_recorded]. apply not_true_is_false. contradict Hn. now apply verified_iff in Hn.
Qed.

Definition rows_ok (s : dstate) : Prop := Forall (fun kv => entry_ok dsha (d_headers s) (snd kv)) (d_rows s).

Lemma row_lookup_ok (P : centry -> Prop) r k e : Forall (fun kv => P (snd kv)) r -> row_lookup k r = Some e -> P e.
Proof.
  induction 1 as [|[k' v] t Hv _ IH]; cbn [row_lookup]; [discriminate|].
  destruct (bytes_eqb k k'); [|exact IH]. intro L. injection L as <-. exact Hv.
Qed.

Lemma row_replace_ok headers r k v : Forall (fun kv => entry_ok dsha headers (snd kv)) r -> entry_ok dsha headers v ->
  Forall (fun kv => entry_ok dsha headers (snd kv)) (row_replace k v r).
Proof.
  intros H Hv. induction H as [|[k' v'] t Hv' Ht IH]; cbn [row_replace]; [|destruct (bytes_eqb k k')];
    constructor; auto.
Qed.

Lemma dstep_ok s op : rows_ok s -> rows_ok (dstep dsha s op).
Proof.
  intro H. destruct op as [key raw h arg net | newh | ]; cbn [dstep]; [| |exact H].
  - destruct (mv_outcome _); try exact H; unfold rows_ok; cbn [d_headers d_rows];
      (apply row_replace_ok; [exact H | apply fetched_entry_ok]).
  - refine (Forall_impl _ _ H). intros [k e]. apply entry_ok_app.
Qed.

(* for EVERY sequence of history syncs, header extensions and restarts from an empty table: a row flagged
   verified has a header at its height and its stored proof leads to that header's root *)
Theorem db_rows_sound headers0 ops key e :
  let s := drun dsha {| d_headers := headers0; d_rows := [] |} ops in
  row_lookup key (d_rows s) = Some e -> t_verified (c_st e) = true ->
  in_range (d_headers s) (t_height (c_st e)) /\
  proof_checks dsha (d_headers s) (c_raw e) (t_height (c_st e)) (c_resp e).
Proof.
  cbv zeta. apply (row_lookup_ok (entry_ok dsha _)), (fold_left_inv _ rows_ok);
    [intros a b; apply dstep_ok | constructor].
Qed.

End Db.
