(* The transaction id of legacy and witness-carrying encodings; the reader on arbitrary bytes, whose
   totality (the fuel always suffices) and soundness both come from one pass of [yields] facts along
   the reader (deserialize_spec). The round trip of both encodings is Wire.Tx.deserialize_framed. *)
From Coq Require Import NArith List Bool Lia.
From LV Require Import Lib.Bytes Wire.CompactSize Wire.Tx Model.C05.
Import ListNotations.
Local Open Scope N_scope.

(* the witness-carrying encoding is the second layout of Wire.Tx.deserialize_framed *)
Lemma segwit_parse t flag wits rest : wf_tx t -> wf_wits t wits -> 0 < flag < 256 ->
  deserialize (serialize_segwit t flag wits ++ rest) = ROk (lift_with flag (concat wits) t).
Proof.
  intros H (Hlen & Hw) Hf. exact (deserialize_framed t _ _ _ rest H (framing_segwit _ flag wits Hf Hlen Hw)).
Qed.

Lemma deserialize_legacy t : wf_tx t -> deserialize (serialize t) = ROk (lift t).
Proof. intro H. rewrite <- (app_nil_r (serialize t)). apply deserialize_serialize, H. Qed.

Section Id.
  Variable sha256 : bytes -> bytes.

  Lemma build_ok t : wf_tx t ->
    build_raw t = ROk (serialize t) /\ build_id sha256 t = ROk (rev (sha256 (sha256 (serialize t)))).
  Proof.
    intro H. unfold build_id, build_raw. rewrite pser_lift by exact H. split; reflexivity.
  Qed.

  Lemma txid_legacy t : wf_tx t ->
    txid_of_raw sha256 (serialize t) = ROk (rev (sha256 (sha256 (serialize t)))).
  Proof.
    intro H. unfold txid_of_raw. rewrite deserialize_legacy by exact H. reflexivity.
  Qed.

  (* the flag is set: the id is hashed from what the writer makes of the parsed fields *)
  Lemma txid_segwit t flag wits rest : wf_tx t -> wf_wits t wits -> 0 < flag < 256 ->
    txid_of_raw sha256 (serialize_segwit t flag wits ++ rest) = ROk (rev (sha256 (sha256 (serialize t)))).
  Proof.
    intros H Hw Hf. unfold txid_of_raw. rewrite (segwit_parse t flag wits rest H Hw Hf).
    unfold id_of_parsed. cbn [bind p_flag lift_with].
    rewrite truthy_pos, pser_lift_with by (exact H || lia). reflexivity.
  Qed.
End Id.

(* read(32) returned a whole hash unless the stream ended there, and then the index is None;
   likewise for a script that took the rest of a 2^63-byte stream and the sequence number *)
Definition good_in (i : pin) : Prop :=
  (pi_index i <> None -> length (pi_hash i) = 32%nat) /\
  (pi_seq i <> None -> N.of_nat (length (pi_script i)) < MAXSIZE1).

Lemma parse_in_spec s : yields (parse_in s) (fun '(i, r) =>
  (length r < length s)%nat /\ good_in i).
Proof.
  unfold parse_in. destruct (take 32 s) as [h s1] eqn:T. apply take_spec in T as (-> & _ & Hh).
  eapply yields_bind; [apply read_uint_spec|]. intros [idx s2] (L1 & Z1 & _).
  eapply yields_bind; [apply read_string_spec|]. intros [scr s3] (L2 & Hs).
  eapply yields_bind; [apply read_uint_spec|]. intros [sq s4] (L3 & Z3 & _).
  cbn. rewrite app_length. split; [lia|]. split; cbn; intro Hn.
  - destruct Hh as [Hh| ->]; [change 32 with (N.of_nat 32) in Hh; lia | destruct (Hn (Z1 eq_refl))].
  - destruct Hs as [Hs| ->]; [exact Hs | destruct (Hn (Z3 eq_refl))].
Qed.

Lemma parse_out_spec s : yields (parse_out s) (fun '(o, r) =>
  (length r < length s)%nat /\ (length (po_script o) <= length s)%nat).
Proof.
  unfold parse_out.
  eapply yields_bind; [apply read_uint_spec|]. intros [amt s1] (L1 & _).
  eapply yields_bind; [apply read_string_spec|]. intros [scr s2] (L2 & _).
  cbn. lia.
Qed.

(* every element consumes a byte, so fuel above the length of the input is never used up; [L] bounds
   the inputs on which the element reader is known to behave *)
Lemma parse_many_spec {A} (f : bytes -> res (A * bytes)) (P : A -> Prop) (L : nat) :
  (forall s, (length s <= L)%nat -> yields (f s) (fun '(x, r) => (length r < length s)%nat /\ P x)) ->
  forall fuel n s, (length s < fuel)%nat -> (length s <= L)%nat ->
  yields (parse_many f fuel n s) (fun '(l, r) =>
    (length r <= length s)%nat /\ N.of_nat (length l) = n /\ Forall P l).
Proof.
  intro Hf. induction fuel as [|fuel IH]; intros n s Hs HL; [lia|].
  cbn [parse_many]. destruct (N.eqb_spec n 0) as [->|Hn].
  - cbn. split; [lia|]. split; [reflexivity | constructor].
  - eapply yields_bind; [apply Hf, HL|]. intros [x r] (Hr & Hx).
    eapply yields_bind; [apply (IH (N.pred n) r); lia|]. intros [l r'] (Hr' & Hl & HP).
    cbn. split; [lia|]. split; [lia | constructor; assumption].
Qed.

Lemma parse_witness_spec fuel0 s : (length s < fuel0)%nat ->
  yields (parse_witness fuel0 s) (fun '(_, r) => (length r < length s)%nat).
Proof.
  intro Hs. unfold parse_witness.
  eapply yields_bind; [apply read_cs_spec|]. intros [[k|] r0] (L0 & _); [|discriminate].
  eapply yields_weaken.
  - apply (parse_many_spec read_string (fun _ => True) (length r0)); [|lia|lia].
    intros s' _. eapply yields_weaken; [apply read_string_spec|]. intros [a r] (L & _). split; [lia | exact I].
  - intros [l r] (L & _). lia.
Qed.

Lemma deserialize_spec raw : yields (deserialize raw) (fun p =>
  wf_vec good_in (p_ins p) /\ wf_vec (fun o => (length (po_script o) <= length raw)%nat) (p_outs p)).
Proof.
  unfold deserialize.
  eapply yields_bind; [apply read_uint_spec|]. intros [ver s1] (L1 & _).
  eapply yields_bind; [apply read_cs_spec|]. intros [ic0 s2] (L2 & B2).
  eapply yields_bind with (P := fun '((_, ic), s3) =>
    (length s3 <= length s2)%nat /\ forall n, ic = Some n -> n < 18446744073709551616).
  { destruct (is_zero ic0); [|cbn; split; [lia | exact B2]].
    eapply yields_bind; [apply read_uint_spec|]. intros [f a] (La & _).
    eapply yields_bind; [apply read_cs_spec|]. intros [ic1 b] (Lb & Bb). cbn. split; [lia | exact Bb]. }
  intros [[f [n|]] s3] (L3 & B3); cbn [fst snd]; [|discriminate].
  eapply yields_bind.
  { apply (parse_many_spec parse_in good_in (length raw)); [|lia|lia]. intros s _. apply parse_in_spec. }
  intros [ins s4] (L4 & Ni & Gi).
  eapply yields_bind; [apply read_cs_spec|]. intros [[m|] s5] (L5 & B5); [|discriminate].
  eapply yields_bind.
  { apply (parse_many_spec parse_out (fun o => (length (po_script o) <= length raw)%nat) (length raw));
      [|lia|lia].
    intros s Hs. eapply yields_weaken; [apply parse_out_spec|]. intros [o r] (Lr & Lo). split; lia. }
  intros [outs s6] (L6 & No & Go).
  eapply yields_bind with (P := fun _ => True).
  { destruct (truthy f); [|exact I].
    eapply yields_bind; [|intros [ws r] _; exact I].
    apply (parse_many_spec (parse_witness (S (length raw))) (fun _ => True) (length raw)); [|lia|lia].
    intros s Hs. eapply yields_weaken; [apply parse_witness_spec; lia|]. intros [w r] Lr. split; [exact Lr | exact I]. }
  intros [wits s7] _.
  eapply yields_bind; [apply read_uint_spec|]. intros [lt s8] _.
  cbn. unfold wf_vec. rewrite Ni, No. split; (split; [|assumption]); [apply B3 | apply B5]; reflexivity.
Qed.

Theorem deserialize_total raw : deserialize raw <> RErr EOutOfFuel.
Proof. exact (yields_total (deserialize_spec raw)). Qed.

(* what the success of the Python-faithful writer on [i], with output [b], means *)
Definition writes {A B} (W : A -> Prop) (lf : A -> B) (ser : A -> bytes) (i : B) (b : bytes) : Prop :=
  exists x, W x /\ lf x = i /\ b = ser x.

Lemma pser_in_spec i : good_in i -> yields (pser_in i) (writes wf_in lift_in ser_in i).
Proof.
  destruct i as [h idx scr sq]. intros (Gh & Gs). unfold pser_in. cbn [pi_index pi_seq] in *.
  eapply yields_bind; [apply enc_uint_spec|]. intros a (v1 & -> & Hr1 & ->).
  eapply yields_bind; [apply enc_uint_spec|]. intros c (v2 & -> & Hr2 & ->).
  exists (mk_txin h v1 scr v2). split; [|split; reflexivity].
  split; [apply Gh; discriminate|]. split; [exact Hr1|]. split; [apply Gs; discriminate | exact Hr2].
Qed.

Lemma pser_out_spec o : N.of_nat (length (po_script o)) < MAXSIZE1 ->
  yields (pser_out o) (writes wf_out lift_out ser_out o).
Proof.
  destruct o as [amt scr]. intro G. unfold pser_out. cbn [po_amount].
  eapply yields_bind; [apply enc_uint_spec|]. intros a (v & -> & Hr & ->).
  exists (mk_txout v scr). split; [split; assumption | split; reflexivity].
Qed.

Lemma pser_list_spec {A B} (f : B -> res bytes) (G : B -> Prop) (W : A -> Prop) lf ser :
  (forall x, G x -> yields (f x) (writes W lf ser x)) ->
  forall l, Forall G l ->
  yields (pser_list f l) (writes (Forall W) (map lf) (fun l' => concat (map ser l')) l).
Proof.
  intro Hf. induction l as [|x l IH]; intro HG.
  - exists []. split; [constructor | split; reflexivity].
  - inversion HG; subst. cbn [pser_list].
    eapply yields_bind; [apply Hf; assumption|]. intros a (y & W1 & <- & ->).
    eapply yields_bind; [apply IH; assumption|]. intros c (l' & W2 & <- & ->).
    exists (y :: l'). split; [constructor; assumption | split; reflexivity].
Qed.

(* the writer on parsed fields that are as the reader leaves them *)
Lemma pser_spec p : wf_vec good_in (p_ins p) ->
  wf_vec (fun o => N.of_nat (length (po_script o)) < MAXSIZE1) (p_outs p) -> p_ins p <> [] ->
  yields (pser p) (writes wf_tx
    (fun t => (Some (tx_version t), map lift_in (tx_ins t), map lift_out (tx_outs t), Some (tx_locktime t)))
    serialize (p_version p, p_ins p, p_outs p, p_locktime p)).
Proof.
  destruct p as [ver fl ins outs wits lt]. unfold pser. cbn [p_version p_ins p_outs p_locktime].
  intros (Ni & Gi) (No & Go) Hne.
  eapply yields_bind; [apply enc_uint_spec|]. intros v (v1 & -> & Hr1 & ->).
  eapply yields_bind; [apply (pser_list_spec _ _ _ _ _ pser_in_spec), Gi|]. intros bi (ins' & Wi & <- & ->).
  eapply yields_bind; [apply (pser_list_spec _ _ _ _ _ pser_out_spec), Go|]. intros bo (outs' & Wo & <- & ->).
  eapply yields_bind; [apply enc_uint_spec|]. intros l (v4 & -> & Hr4 & ->).
  rewrite !map_length in *.
  exists (mk_tx v1 ins' outs' v4). split; [|split; reflexivity].
  split; [exact Hr1|]. split; [exact Hr4|]. split; [destruct ins'; [destruct (Hne eq_refl) | discriminate]|].
  split; [exact Ni|]. split; [exact No|]. split; assumption.
Qed.

(* Soundness of the reader: whatever it returns that the writer accepts IS a well-formed transaction, and
   the writer emits that transaction's canonical legacy encoding.  The id of ANY accepted input is taken
   over the bytes as given when the flag is falsy, over that encoding when the flag is truthy. *)
Theorem reader_sound (sha256 : bytes -> bytes) raw p b : N.of_nat (length raw) < MAXSIZE1 ->
  deserialize raw = ROk p -> p_ins p <> [] -> pser p = ROk b ->
  (exists t, wf_tx t /\ b = serialize t /\
             p_version p = Some (tx_version t) /\ p_ins p = map lift_in (tx_ins t) /\
             p_outs p = map lift_out (tx_outs t) /\ p_locktime p = Some (tx_locktime t) /\
             deserialize b = ROk (lift t)) /\
  txid_of_raw sha256 raw = ROk (rev (sha256 (sha256 (if truthy (p_flag p) then b else raw)))).
Proof.
  intros Hraw D Hne H. split.
  2:{ unfold txid_of_raw. rewrite D. cbn [bind]. unfold id_of_parsed.
      destruct (truthy (p_flag p)); [rewrite H|]; reflexivity. }
  destruct (yields_ok (deserialize_spec raw) _ D) as (Gi & No & Go).
  assert (Go' : wf_vec (fun o => N.of_nat (length (po_script o)) < MAXSIZE1) (p_outs p)).
  { split; [exact No|]. eapply Forall_impl; [|exact Go]. cbv beta. intros o Ho. lia. }
  destruct (yields_ok (pser_spec p Gi Go' Hne) _ H) as (t & WF & [= Ev Ei Eo El] & ->).
  exists t. do 2 (split; [auto|]). do 4 (split; [auto|]). exact (deserialize_legacy t WF).
Qed.

(* why a transaction needs an input: the legacy encoding of a transaction without inputs starts
   with the segwit marker and is read as something else *)
Lemma no_input_ambiguous :
  deserialize (serialize no_input_tx) <> ROk (lift no_input_tx).
Proof. vm_compute. discriminate. Qed.

Lemma sample_wf : wf_tx sample_tx /\ wf_wits sample_tx sample_wits.
Proof. repeat constructor. discriminate. Qed.

(* the hypotheses of reader_sound are inhabited by an input that is NOT of the form [serialize t]:
   a segwit encoding followed by a trailing byte *)
Lemma sample_reader_sound_hyps :
  let raw := serialize_segwit sample_tx 1 sample_wits ++ [byte_of_N 9] in
  let p := lift_with 1 (concat sample_wits) sample_tx in
  N.of_nat (length raw) < MAXSIZE1 /\ deserialize raw = ROk p /\ p_ins p <> [] /\
  pser p = ROk (serialize sample_tx) /\ raw <> serialize sample_tx.
Proof.
  destruct sample_wf as [Ht Hw]. cbv zeta. split; [reflexivity|].
  split; [apply segwit_parse; [exact Ht | exact Hw | lia]|]. split; [discriminate|].
  split; [apply pser_lift_with, Ht|]. vm_compute. discriminate.
Qed.
