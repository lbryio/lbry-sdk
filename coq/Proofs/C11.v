(* A history keeps the table well-formed ([run_from_inv], from [add_peer_outcome] and [remove_peer_spec]); what
   Props/C11.v says of one operation or query is read off [outcome] or the sorted candidate list. *)
From Coq Require Import NArith ZArith List Bool Lia Permutation.
From LV Require Import Lib.Lists Model.C11 Model.C11Spec Proofs.C11Base Proofs.C11Join Proofs.C11Add Proofs.C11Sys.
Import ListNotations.
Local Open Scope N_scope.

Lemma init_wf own : WF own init.
Proof.
  constructor.
  - split; [reflexivity |]. split; [apply M_pos | reflexivity].
  - constructor; [| constructor]. split; [constructor | apply Nat.le_0_l].
  - constructor.
  - constructor.
Qed.

Lemma FUEL_ge : (386 <= FUEL)%nat.
Proof. apply Nat.leb_le. reflexivity. Qed.

Lemma step_inv own t o :
  WF own t -> own < M -> op_valid o ->
  WF own (fst (step true own t o)) /\ out_ok (snd (step true own t o)) /\
  (op_nofail o -> joined t -> joined (fst (step true own t o))).
Proof.
  intros W Ho V. destruct o as [p e | | p |]; cbn [step].
  - pose proof (add_peer_outcome own e p FUEL t W Ho V FUEL_ge) as H.
    destruct (add_peer true own e FUEL t p) as [[r pr] t']. cbn [fst snd]. destruct H as (O & J).
    destruct (outcome_res O) as (W' & _ & [(v & ->) | (-> & q & _ & Pq & _)]).
    + split; [exact W' |]. split; [exact I |]. intros _. apply J. reflexivity.
    + split; [exact W' |]. split; [exact I |]. intros NF. destruct (NF q Pq).
  - cbn [fst snd]. split; [exact W |]. split; [exact I | auto].
  - destruct (remove_peer_spec own t p W) as (t' & -> & W' & _ & J); [apply dist_lt_M; assumption |].
    cbn [fst snd]. split; [exact W' |]. split; [exact I | auto].
  - cbn [fst snd]. split; [exact W |]. split; [exact I | auto].
Qed.

Lemma run_from_inv own ops : forall t,
  WF own t -> own < M -> Forall op_valid ops ->
  WF own (fst (run_from true own t ops)) /\ Forall out_ok (snd (run_from true own t ops)) /\
  (Forall op_nofail ops -> joined t -> joined (fst (run_from true own t ops))).
Proof.
  induction ops as [| o r IH]; intros t W Ho V; cbn [run_from].
  - cbn [fst snd]. split; [exact W |]. split; [constructor | auto].
  - apply Forall_cons_iff in V. destruct V as (Vo & Vr).
    destruct (step_inv own t o W Ho Vo) as (W' & O' & J'). destruct (step true own t o) as [t' x].
    cbn [fst snd] in W', O', J'. destruct (IH t' W' Ho Vr) as (W'' & O'' & J'').
    destruct (run_from true own t' r) as [t'' xs]. cbn [fst snd] in *.
    split; [exact W'' |]. split; [constructor; assumption |].
    intros NF J. apply Forall_cons_iff in NF. destruct NF. auto.
Qed.

Lemma run_wf own ops : own < M -> Forall op_valid ops -> WF own (run own ops).
Proof. intros Ho V. apply (run_from_inv own ops init (init_wf own) Ho V). Qed.

Lemma no_error own ops : own < M -> Forall op_valid ops -> Forall out_ok (outs own ops).
Proof. intros Ho V. apply (run_from_inv own ops init (init_wf own) Ho V). Qed.

Lemma no_empty_bucket own ops :
  own < M -> Forall op_valid ops -> Forall op_nofail ops -> joined (run own ops).
Proof.
  intros Ho V NF. apply (run_from_inv own ops init (init_wf own) Ho V); [exact NF | left; apply le_n].
Qed.

(* What follows holds of every well-formed table; Props/C11.v takes it at the table of a history. *)
Lemma wf_fields own t :
  WF own t ->
  chain 0 t M /\ Forall (bucket_ok own) t /\ NoDup (map pid (contacts t)) /\ NoDup (map pkey (contacts t)).
Proof. intros []. auto. Qed.

Lemma chain_covering lo t hi d :
  chain lo t hi -> covering t d = if (lo <=? d) && (d <? hi) then 1%nat else 0%nat.
Proof.
  revert lo. induction t as [| b r IH]; intros lo; cbn.
  - intros ->. destruct (N.leb_spec hi d), (N.ltb_spec d hi); cbn; try reflexivity; lia.
  - intros (E1 & E2 & C). unfold covering in *. cbn [filter]. specialize (IH _ C).
    pose proof (chain_le _ _ _ C) as Le. subst lo.
    destruct (N.leb_spec (blo b) d), (N.ltb_spec d (bhi b)), (N.ltb_spec d hi),
      (N.leb_spec (bhi b) d); cbn in *; try lia; rewrite IH; reflexivity.
Qed.

Lemma covered_once own t d : WF own t -> covering t d = if d <? M then 1%nat else 0%nat.
Proof.
  intros [C _ _ _]. rewrite (chain_covering 0 _ M d C).
  replace (0 <=? d) with true; [reflexivity | symmetry; apply N.leb_le, N.le_0_l].
Qed.

Lemma fuel_suffices own t p e fuel :
  WF own t -> own < M -> pid p < M -> (386 <= fuel)%nat ->
  exists r probed t', add_peer true own e fuel t p = (r, probed, t') /\ r <> ErrFuel /\ r <> ErrIndex /\
    ((forall q, probe e q <> PLocalFail) -> exists v, r = Ret v).
Proof.
  intros W Ho Hp Fu. pose proof (add_peer_outcome own e p fuel t W Ho Hp Fu) as H.
  destruct (add_peer true own e fuel t p) as [[r pr] t']. destruct H as (O & _).
  exists r, pr, t'. split; [reflexivity |].
  destruct (outcome_res O) as (_ & _ & [(v & ->) | (-> & q & _ & Pq & _)]).
  - split; [discriminate |]. split; [discriminate | eauto].
  - split; [discriminate |]. split; [discriminate |]. intros NF. destruct (NF q Pq).
Qed.

Lemma step_add own t p e :
  WF own t -> own < M -> pid p < M ->
  exists r pr t', step true own t (Add p e) = (t', OAdd r pr) /\ outcome own e p t r pr t'.
Proof.
  intros W Ho Hp. cbn [step]. pose proof (add_peer_outcome own e p FUEL t W Ho Hp FUEL_ge) as H.
  destruct (add_peer true own e FUEL t p) as [[r pr] t']. exists r, pr, t'. split; [reflexivity | apply H].
Qed.

Lemma displaced_only_if_probed own t p e x :
  WF own t -> own < M -> pid p < M ->
  In x (contacts t) -> pid x <> pid p -> pkey x <> pkey p ->
  match step true own t (Add p e) with
  | (t', OAdd _ probed) => In x (contacts t') \/ (In x probed /\ probe e x = PDead)
  | _ => False
  end.
Proof.
  intros W Ho Hp Hx Ni Nk. destruct (step_add own t p e W Ho Hp) as (r & pr & t' & -> & O).
  destruct O as [pr t' _ _ _ Keep _ Dead | r pr t' _ _ _ (_ & Keep) _]; [| left; apply Keep; assumption].
  destruct (Keep x Hx Ni Nk) as [Hpr | H]; [right | left; exact H]. split; [exact Hpr |].
  rewrite Forall_forall in Dead. exact (Dead x Hpr).
Qed.

Lemma live_contact_kept own t p e x :
  WF own t -> own < M -> pid p < M ->
  In x (contacts t) -> pid x <> pid p -> pkey x <> pkey p -> probe e x <> PDead ->
  In x (contacts (fst (step true own t (Add p e)))).
Proof.
  intros W Ho Hp Hx Ni Nk Pr. pose proof (displaced_only_if_probed own t p e x W Ho Hp Hx Ni Nk) as D.
  destruct (step true own t (Add p e)) as [t' [r pr | ok]]; [| destruct D].
  destruct D as [H | (_ & H)]; [exact H | contradiction].
Qed.

Lemma closer_admitted own t p e :
  WF own t -> own < M -> pid p < M ->
  (at_least_as_close own t p < K)%nat ->
  exists probed, snd (step true own t (Add p e)) = OAdd (Ret true) probed /\
                 In p (contacts (fst (step true own t (Add p e)))).
Proof.
  intros W Ho Hp Cn. destruct (step_add own t p e W Ho Hp) as (r & pr & t' & -> & O). cbn [fst snd].
  destruct O as [pr t' _ Hin _ _ _ _ | r pr t' _ Nc _ _ _]; [| destruct (Nc Cn)].
  exists pr. split; [reflexivity | exact Hin].
Qed.

Lemma single_probe own t p e :
  WF own t -> own < M -> pid p < M ->
  match snd (step true own t (Add p e)) with
  | OAdd _ probed => (length probed <= 1)%nat
  | _ => False
  end.
Proof.
  intros W Ho Hp. destruct (step_add own t p e W Ho Hp) as (r & pr & t' & -> & O). apply (outcome_res O).
Qed.

Lemma rejected_unchanged own t p e probed :
  WF own t -> own < M -> pid p < M ->
  snd (step true own t (Add p e)) = OAdd (Ret false) probed ->
  let t' := fst (step true own t (Add p e)) in
  (forall x, In x (contacts t') -> pid x <> pid p) /\ upto p t t'.
Proof.
  intros W Ho Hp. destruct (step_add own t p e W Ho Hp) as (r & pr & t' & -> & O). cbn [fst snd].
  intros E. injection E as -> _. apply (outcome_refused O). discriminate.
Qed.

(* the probe could not even be sent (local failure): the exception leaves add_peer, the newcomer is not inserted,
   nothing new appears and every contact at another address keeps its place -- nobody is displaced *)
Lemma local_failure_displaces_nobody own t p e probed :
  WF own t -> own < M -> pid p < M ->
  snd (step true own t (Add p e)) = OAdd ErrProbe probed ->
  let t' := fst (step true own t (Add p e)) in
  (exists q, probed = [q] /\ probe e q = PLocalFail /\ In q (contacts t')) /\
  (forall x, In x (contacts t') -> pid x <> pid p) /\ upto p t t'.
Proof.
  intros W Ho Hp. destruct (step_add own t p e W Ho Hp) as (r & pr & t' & -> & O). cbn [fst snd].
  intros E. injection E as -> ->. split; [| apply (outcome_refused O); discriminate].
  destruct (outcome_res O) as (_ & _ & [(v & Ev) | (_ & H)]); [discriminate Ev | exact H].
Qed.

Lemma remove_exact own t p :
  WF own t -> own < M -> pid p < M ->
  snd (step true own t (Remove p)) = ORemove true /\
  forall x, In x (contacts (fst (step true own t (Remove p)))) <-> In x (contacts t) /\ x <> p.
Proof.
  intros W Ho Hp. cbn [step].
  destruct (remove_peer_spec own t p W) as (t' & -> & _ & Ex & _); [apply dist_lt_M; assumption |].
  cbn [fst snd]. split; [reflexivity | exact Ex].
Qed.

Lemma get_peer_exact own t id :
  WF own t -> own < M -> id < M ->
  exists r, get_peer own t id = Some r /\
    match r with
    | Some q => In q (contacts t) /\ pid q = id
    | None => forall q, In q (contacts t) -> pid q <> id
    end.
Proof.
  intros [C OK _ _] Ho Hi. unfold get_peer.
  destruct (find_bucket_chain own id 0 t M C) as (pre & b & post & -> & R & ->).
  { split; [lia | apply dist_lt_M; assumption]. }
  eexists. split; [reflexivity |].
  destruct (find (fun q => pid q =? id) (bpeers b)) as [q |] eqn:Fd.
  - apply find_some in Fd. destruct Fd as (Hq & Eq). apply N.eqb_eq in Eq. split; [| exact Eq].
    apply in_contacts_mid. exact Hq.
  - intros q Hq Eq. rewrite <- Eq in R. pose proof (in_bucket_at own 0 pre b post M q C OK R Hq) as Hb.
    pose proof (find_none _ _ Fd q Hb) as Hn. cbn in Hn. apply N.eqb_neq in Hn. contradiction.
Qed.

Lemma candidates_iff own sender t q : In q (candidates own sender t) <-> eligible own sender t q.
Proof.
  unfold candidates, eligible, excluded. rewrite filter_In, negb_true_iff, orb_false_iff, N.eqb_neq.
  split.
  - intros (H1 & H2 & H3). split; [exact H1 |]. split; [exact H2 |]. intros s ->. apply N.eqb_neq. exact H3.
  - intros (H1 & H2 & H3). split; [exact H1 |]. split; [exact H2 |]. destruct sender as [s |]; [| reflexivity].
    apply N.eqb_neq. apply H3. reflexivity.
Qed.

(* distinct ids are at distinct distances, so sorted by distance is strictly ascending *)
Lemma sorted_ascending key l :
  sorted (fun q => dist key (pid q)) l -> NoDup (map pid l) -> ascending key l.
Proof.
  induction l as [| x r IH]; cbn; [auto |]. intros (F & S) N. inversion N; subst. split; [| auto].
  rewrite Forall_forall in *. intros y Hy. specialize (F y Hy).
  assert (dist key (pid x) <> dist key (pid y)).
  { intros E. apply dist_inj in E. apply H1. rewrite E. apply in_map. exact Hy. }
  lia.
Qed.

Lemma ascending_sub key l' l : sub l' l -> ascending key l -> ascending key l'.
Proof.
  induction 1; cbn; auto.
  - tauto.
  - intros (F & S). split; [eapply sub_Forall; eauto | auto].
Qed.

Lemma ascending_firstn_skipn key s n x y :
  ascending key s -> In x (firstn n s) -> In y (skipn n s) -> dist key (pid x) < dist key (pid y).
Proof.
  revert n. induction s as [| z r IH]; intros [| n]; cbn; try tauto.
  intros (F & S) [-> | Hx] Hy.
  - rewrite Forall_forall in F. apply F. eapply In_skipn. exact Hy.
  - eauto.
Qed.

(* Sorting the candidates by distance and cutting gives the [n] nearest, in order. Buckets play no part: of the
   table only its contacts and the distinctness of their ids are used. *)
Lemma firstn_closest own sender t key n :
  NoDup (map pid (contacts t)) ->
  exact_closest own sender t key n (firstn n (sort_by (fun q => dist key (pid q)) (candidates own sender t))).
Proof.
  intros I. set (cands := candidates own sender t). set (s := sort_by (fun q => dist key (pid q)) cands).
  assert (Ps : Permutation s cands) by apply sort_by_perm.
  assert (NDc : NoDup (map pid cands)) by (apply NoDup_map_filter; exact I).
  assert (As : ascending key s).
  { apply sorted_ascending; [apply sort_by_sorted | eapply NoDup_map_perm; [symmetry; exact Ps | exact NDc]]. }
  split; [eapply ascending_sub; [apply firstn_sub | exact As] |].
  split; [intros q Hq; apply candidates_iff, (Permutation_in q Ps); eapply In_firstn; exact Hq |]. split.
  - intros q y Eq Nq Hy. apply candidates_iff, (Permutation_in q (Permutation_sym Ps)) in Eq.
    rewrite <- (firstn_skipn n s) in Eq.
    apply in_app_or in Eq. destruct Eq as [Hq | Hq]; [contradiction |].
    exact (ascending_firstn_skipn key s n y q As Hy Hq).
  - exists cands. split; [eapply NoDup_map_inv; exact NDc |]. split; [intros q; apply candidates_iff |].
    rewrite firstn_length, (Permutation_length Ps). reflexivity.
Qed.

Lemma py_prefix_nonneg l c : (0 <= c)%Z -> py_prefix l c = firstn (Z.to_nat c) l.
Proof.
  intros Hc. unfold py_prefix. replace (0 <=? Z.min c (Z.of_nat (length l)))%Z with true by (symmetry; apply Z.leb_le; lia).
  replace (Z.to_nat (Z.min c (Z.of_nat (length l)))) with (Nat.min (Z.to_nat c) (length l)) by lia.
  rewrite <- firstn_firstn, firstn_all. reflexivity.
Qed.

Lemma find_close_exact own t key count sender :
  WF own t -> (0 <= count)%Z ->
  exact_closest own sender t key (if (count =? 0)%Z then K else Z.to_nat count) (find_close own t key count sender).
Proof.
  intros W Hc. unfold find_close. rewrite py_prefix_nonneg by (destruct (count =? 0)%Z; [discriminate | exact Hc]).
  destruct (count =? 0)%Z; [rewrite Nat2Z.id |]; apply firstn_closest, W.
Qed.

(* find_close_peers already returns at most K contacts: the two truncations of the RPC layer cut nothing *)
Lemma rpc_exact own t key requester :
  WF own t ->
  exact_closest own (Some requester) t key K (rpc_find_node own t key requester) /\
  exact_closest own (Some requester) t key K (rpc_find_value_contacts own t key requester).
Proof.
  intros W. pose proof (find_close_exact own t key 0%Z (Some requester) W (Z.le_refl 0)) as E.
  cbn [Z.eqb] in E.
  assert (L : (length (find_close own t key 0 (Some requester)) <= K)%nat).
  { destruct E as (_ & _ & _ & cands & _ & _ & ->). apply Nat.le_min_l. }
  assert (E1 : rpc_find_node own t key requester = find_close own t key 0 (Some requester)).
  { unfold rpc_find_node. apply firstn_all2. unfold K in *. lia. }
  assert (E2 : rpc_find_value_contacts own t key requester = find_close own t key 0 (Some requester)).
  { unfold rpc_find_value_contacts. rewrite E1. apply firstn_all2. exact L. }
  rewrite E1, E2. split; exact E.
Qed.

Lemma sys_wf own sops : own < M -> Forall sop_valid sops -> WF own (s_tab (sys_run own sops)).
Proof. intros Ho V. destruct (pm_refines own sops V) as (ops & Vo & -> & _). apply run_wf; assumption. Qed.

(* reached only through the protocol, a failed local send of the probe does not leave add_peer as an exception, so
   the table never keeps an empty bucket among several *)
Lemma sys_no_empty_bucket own sops :
  own < M -> Forall sop_valid sops -> Forall sop_proto sops -> joined (s_tab (sys_run own sops)).
Proof.
  intros Ho V P. destruct (pm_refines own sops V) as (ops & Vo & -> & NF). apply no_empty_bucket; auto.
Qed.

(* when routing_table_task pops a queued contact that is closer than the K-th closest known one, it is admitted *)
Lemma queued_closer_admitted own s p pr w :
  WF own (s_tab s) -> own < M -> pid p < M ->
  In p (s_pending s) -> (at_least_as_close own (s_tab s) p < K)%nat ->
  In p (contacts (s_tab (fst (sys_step true own s (SDrainPick p pr w))))).
Proof.
  intros W Ho Hp Pend Cn. rewrite sys_step_tab. cbn [table_op]. rewrite (proj2 (existsb_peer_eqb p _) Pend).
  destruct (closer_admitted own _ p (env_of_pm (s_pm s) (s_now s) (proto_probe pr)) W Ho Hp Cn) as (_ & _ & H). exact H.
Qed.

(* _join_buckets before fa89d19 (range_max = midpoint - 1): a history after which one distance is in no bucket. *)
Definition env0 : env := mkEnv (fun _ => false) (fun _ => Stale) (fun _ => PReply).
Definition pk (id n : N) : peer := mkPeer id (184549377 + n) 4444.
Definition gap_ops : list op :=
  [Add (pk 1 1) env0; Add (pk 2 2) env0; Add (pk 3 3) env0; Add (pk 4 4) env0;
   Add (pk (2 ^ 382 + 5) 5) env0;
   Add (pk (2 ^ 383 + 1) 6) env0; Add (pk (2 ^ 383 + 2) 7) env0; Add (pk (2 ^ 383 + 3) 8) env0;
   Add (pk (2 ^ 383 + 9) 9) env0;
   Add (pk 10 10) env0; Add (pk 11 11) env0; Add (pk 12 12) env0; Add (pk 20 13) env0;
   Remove (pk (2 ^ 382 + 5) 5)].
Definition gap_d : N := 2 ^ 382 + 2 ^ 381 - 1.

Lemma join_gap_refuted :
  let t := fst (run_from false 0 init gap_ops) in
  Forall op_valid gap_ops /\ gap_d < M /\
  covering t gap_d = 0%nat /\
  snd (step false 0 t (Add (pk gap_d 14) env0)) = OAdd ErrIndex [] /\
  covering (run 0 gap_ops) gap_d = 1%nat /\
  snd (step true 0 (run 0 gap_ops) (Add (pk gap_d 14) env0)) = OAdd (Ret true) [].
Proof.
  cbv zeta. split; [unfold gap_ops; repeat constructor |]. split; [reflexivity |].
  split; [vm_compute; reflexivity |]. split; [vm_compute; reflexivity |].
  split; vm_compute; reflexivity.
Qed.
