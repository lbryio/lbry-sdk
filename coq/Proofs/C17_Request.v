(* Requests that decode but are not valid protocol requests; which error texts are valid UTF-8 (every ASCII text;
   the text that answers an unknown method, cut by characters); the LRU cache that holds the failure records. *)
From Coq Require Import ZArith List Bool Lia.
From LV Require Import Lib.Bytes Lib.Lists Model.C17.
Import ListNotations.
Local Open Scope N_scope.

Section RequestFacts.
  Variables Routing Store Other Addr : Type.
  Notation state := (node_state Routing Store Other Addr).
  Variable usable : Addr -> bool.
  Variable note_request : Other -> Addr -> Other.
  Variable error_reply : Other -> Addr -> rawmsg -> Other.
  Variable serve : state -> Addr -> rawmsg -> state.
  Variable process_other : state -> Addr -> rawmsg -> state.

  Let handle := handle_request Routing Store Other Addr usable note_request error_reply serve.
  Let receive := node_receive Routing Store Other Addr usable note_request error_reply serve process_other.

  (* the datagram counts against its sender, and neither the routing table (with its queues) nor the data store
     has changed *)
  Definition refused (st st' : state) (sender : Addr) : Prop :=
    routing _ _ _ _ st' = routing _ _ _ _ st /\ store _ _ _ _ st' = store _ _ _ _ st
    /\ failures _ _ _ _ st' = sender :: failures _ _ _ _ st.

  (* a request that is not valid is answered with an error (or, from an address that cannot be a contact, not at
     all): EXACTLY one failure for the datagram's sender *)
  Lemma invalid_request_effect own st sender m :
    request_valid own m = false -> refused st (handle own st sender m) sender.
  Proof.
    intro H. unfold refused, handle, handle_request. destruct (usable sender); cbn [negb].
    - rewrite H. cbn. repeat split.
    - cbn. repeat split.
  Qed.

  Lemma unusable_sender_effect own st sender m :
    usable sender = false ->
    let st' := handle own st sender m in
    routing _ _ _ _ st' = routing _ _ _ _ st /\ store _ _ _ _ st' = store _ _ _ _ st
    /\ failures _ _ _ _ st' = sender :: failures _ _ _ _ st.
  Proof. intro H. unfold handle, handle_request. rewrite H. cbn. repeat split. Qed.

  Definition is_request (m : rawmsg) : bool := match m with RReq _ _ _ _ => true | _ => false end.

  (* for ALL byte strings: a datagram that cannot be decoded, or that decodes to a request that is not a valid
     protocol request, never changes the routing table (with its queues) or the data store and records exactly
     one failure for the address it came from *)
  Theorem not_a_valid_request_leaves_routing own fuel st sender data :
    match decode_datagram fuel data with
    | inr _ => True
    | inl m => is_request m = true /\ request_valid own m = false
    end ->
    refused st (receive own fuel st sender data) sender.
  Proof.
    intro H. unfold receive, node_receive, datagram_received.
    destruct (decode_datagram fuel data) as [m|e].
    - destruct H as [Hr Hv]. destruct m; try discriminate.
      cbn [process_message]. apply invalid_request_effect. exact Hv.
    - cbn. repeat split.
  Qed.
End RequestFacts.

Lemma unknown_method_invalid own rpc node method args :
  bytes_eqb method s_ping = false -> bytes_eqb method s_store = false ->
  bytes_eqb method s_findNode = false -> bytes_eqb method s_findValue = false ->
  request_valid own (RReq rpc node (BStr method) args) = false.
Proof.
  intros H1 H2 H3 H4. unfold request_valid. destruct args; try reflexivity.
  rewrite H1, H2, H3, H4. apply andb_false_r.
Qed.

Lemma non_bytes_method_invalid own rpc node method args :
  (forall s, method <> BStr s) -> request_valid own (RReq rpc node method args) = false.
Proof. intro H. destruct method; try reflexivity. exfalso. apply (H s). reflexivity. Qed.

Lemma own_id_invalid own rpc method args : request_valid own (RReq rpc own method args) = false.
Proof.
  unfold request_valid. destruct method; try reflexivity. destruct args; try reflexivity.
  rewrite bytes_eqb_refl. reflexivity.
Qed.

Lemma short_key_invalid own rpc node key rest :
  blen key <> 48 ->
  request_valid own (RReq rpc node (BStr s_findNode) (BList (BStr key :: rest ++ [pv_dict]))) = false
  /\ request_valid own (RReq rpc node (BStr s_findValue) (BList (BStr key :: rest ++ [pv_dict]))) = false.
Proof.
  intro H. apply N.eqb_neq in H.
  assert (Hp : removelast (BStr key :: rest ++ [pv_dict]) = BStr key :: rest).
  { change (BStr key :: rest ++ [pv_dict]) with ((BStr key :: rest) ++ [pv_dict]). apply removelast_last. }
  unfold request_valid. rewrite Hp. cbn [hash_key_ok]. unfold HASH_LENGTH. rewrite H.
  split.
  - change (bytes_eqb s_findNode s_ping) with false.
    change (bytes_eqb s_findNode s_store) with false.
    rewrite bytes_eqb_refl. apply andb_false_r.
  - change (bytes_eqb s_findValue s_ping) with false.
    change (bytes_eqb s_findValue s_store) with false.
    change (bytes_eqb s_findValue s_findNode) with false.
    rewrite bytes_eqb_refl. cbn [andb]. apply andb_false_r.
Qed.

Definition request_servable (r : request) : Prop :=
  match r with
  | Ping => True
  | Store h _ p => blen h = 48 /\ (1024 <= p <= 65535)%Z
  | FindNode k => blen k = 48
  | FindValue k _ => blen k = 48
  end.

(* every request built by make_ping / make_store / make_find_node / make_find_value from another node is valid *)
Lemma protocol_requests_valid own rpc node r :
  node <> own -> request_servable r -> request_valid own (raw_of_message (Request rpc node r)) = true.
Proof.
  intros Hn Hr. apply bytes_eqb_neq in Hn.
  destruct r as [|h t p|k|k page]; cbn [raw_of_message method_of args_of request_servable] in *;
    unfold request_valid; rewrite Hn; cbn [negb andb].
  - reflexivity.
  - destruct Hr as [Hh Hp].
    change (bytes_eqb s_store s_ping) with false. rewrite bytes_eqb_refl.
    cbn [removelast nth length hash_key_ok rpc_port_ok]. unfold HASH_LENGTH. rewrite Hh.
    replace ((1024 <=? p) && (p <=? 65535))%Z with true by (symmetry; apply andb_true_iff; split; apply Z.leb_le; lia).
    reflexivity.
  - change (bytes_eqb s_findNode s_ping) with false.
    change (bytes_eqb s_findNode s_store) with false. rewrite bytes_eqb_refl.
    cbn [removelast hash_key_ok]. unfold HASH_LENGTH. rewrite Hr. reflexivity.
  - change (bytes_eqb s_findValue s_ping) with false.
    change (bytes_eqb s_findValue s_store) with false.
    change (bytes_eqb s_findValue s_findNode) with false. rewrite bytes_eqb_refl.
    cbn [removelast hash_key_ok last]. unfold HASH_LENGTH. rewrite Hr. reflexivity.
Qed.

Lemma utf8_valid_ascii_app a s : Forall (fun b => N_of_byte b <= 127) a -> utf8_valid (a ++ s) = utf8_valid s.
Proof.
  induction 1 as [|b r Hb Hr IH]; [reflexivity|].
  cbn [app utf8_valid]. replace (N_of_byte b <=? 127) with true by (symmetry; apply N.leb_le; exact Hb). exact IH.
Qed.

Lemma ascii_utf8 s : Forall (fun b => N_of_byte b <= 127) s -> utf8_valid s = true.
Proof. intro H. rewrite <- (app_nil_r s), utf8_valid_ascii_app by exact H. reflexivity. Qed.

Lemma utf8_take_prefix n : forall s, exists t, s = utf8_take n s ++ t.
Proof.
  induction n as [|n IH]; intro s; [exists s; reflexivity|].
  destruct s as [|a r]; [exists []; reflexivity|]. cbn [utf8_take].
  destruct (IH (skipn (utf8_seq_len a) (a :: r))) as [t Ht].
  exists t. rewrite <- app_assoc, <- Ht. symmetry. apply firstn_skipn.
Qed.

Lemma utf8_take_length n : forall s, (length (utf8_take n s) <= 4 * n)%nat.
Proof.
  induction n as [|n IH]; intro s; [simpl; lia|].
  destruct s as [|a r]; [simpl; lia|]. cbn [utf8_take]. rewrite app_length.
  specialize (IH (skipn (utf8_seq_len a) (a :: r))).
  assert (length (firstn (utf8_seq_len a) (a :: r)) <= 4)%nat.
  { rewrite firstn_length. unfold utf8_seq_len.
    destruct (N_of_byte a <=? 127); [lia|]. destruct (N_of_byte a <=? 223); [lia|].
    destruct (N_of_byte a <=? 239); lia. }
  lia.
Qed.

Lemma in_rng_true lo hi a : in_rng lo hi a = true -> lo <= N_of_byte a <= hi.
Proof. unfold in_rng. now destruct (range_spec lo hi (N_of_byte a)). Qed.

(* the first character of a valid text has the length utf8_seq_len says *)
Lemma utf8_first a r : utf8_valid (a :: r) = true ->
  utf8_valid (skipn (utf8_seq_len a) (a :: r)) = true
  /\ forall t, utf8_valid (firstn (utf8_seq_len a) (a :: r) ++ t) = utf8_valid t.
Proof.
  cbn [utf8_valid]. unfold utf8_seq_len.
  destruct (N_of_byte a <=? 127) eqn:E1.
  { intro H. split; [exact H|]. intro t. cbn [firstn app utf8_valid]. rewrite E1. reflexivity. }
  destruct (in_rng 194 223 a) eqn:E2.
  { apply in_rng_true in E2 as R. destruct (N.leb_spec (N_of_byte a) 223) as [L|L]; [|lia].
    destruct r as [|b r]; [discriminate|]. intro H. apply andb_true_iff in H as [H Hr].
    split; [exact Hr|]. intro t. cbn [firstn app utf8_valid]. rewrite E1, E2, H. reflexivity. }
  destruct (in_rng 224 239 a) eqn:E3.
  { apply in_rng_true in E3 as R. destruct (N.leb_spec (N_of_byte a) 223) as [L|L]; [lia|].
    destruct (N.leb_spec (N_of_byte a) 239) as [L'|L']; [|lia].
    destruct r as [|b [|c r]]; try discriminate. intro H. apply andb_true_iff in H as [H Hr].
    split; [exact Hr|]. intro t. cbn [firstn app utf8_valid]. rewrite E1, E2, E3, H. reflexivity. }
  destruct (in_rng 240 244 a) eqn:E4; [|discriminate].
  apply in_rng_true in E4 as R. destruct (N.leb_spec (N_of_byte a) 223) as [L|L]; [lia|].
  destruct (N.leb_spec (N_of_byte a) 239) as [L'|L']; [lia|].
  destruct r as [|b [|c [|d r]]]; try discriminate. intro H. apply andb_true_iff in H as [H Hr].
  split; [exact Hr|]. intro t. cbn [firstn app utf8_valid]. rewrite E1, E2, E3, E4, H. reflexivity.
Qed.

Lemma utf8_take_valid n : forall s, utf8_valid s = true -> utf8_valid (utf8_take n s) = true.
Proof.
  induction n as [|n IH]; intros s H; [reflexivity|].
  destruct s as [|a r]; [reflexivity|]. cbn [utf8_take].
  destruct (utf8_first a r H) as [Hr Ht]. rewrite Ht. apply IH. exact Hr.
Qed.

(* the text echoed for an unknown method (any valid UTF-8 name, any length) is valid UTF-8, so building the
   ErrorDatagram cannot fail, it is a prefix of the full text and at most 1024 bytes long *)
Theorem invalid_method_text_ok method :
  utf8_valid method = true ->
  utf8_valid (invalid_method_text method) = true
  /\ (length (invalid_method_text method) <= 1024)%nat
  /\ exists t, s_invalid_method ++ method = invalid_method_text method ++ t.
Proof.
  intro H. unfold invalid_method_text. split; [|split].
  - apply utf8_take_valid. rewrite utf8_valid_ascii_app; [exact H|].
    unfold s_invalid_method. repeat constructor; vm_compute; discriminate.
  - pose proof (utf8_take_length ERROR_TEXT_LIMIT (s_invalid_method ++ method)). unfold ERROR_TEXT_LIMIT in *. lia.
  - apply utf8_take_prefix.
Qed.

(* lbry.utils.LRUCache, which holds PeerManager's failure records *)
Section LRUFacts.
  Variables K V : Type.
  Variable keqb : K -> K -> bool.
  Hypothesis keqb_spec : forall a b, keqb a b = true <-> a = b.

  Lemma find_none_app (f : K * V -> bool) (c : list (K * V)) x :
    (forall p, In p c -> f p = false) -> f x = true -> find f (c ++ [x]) = Some x.
  Proof.
    intros Hc Hx. induction c as [|p r IH]; cbn [app find].
    - rewrite Hx. reflexivity.
    - rewrite (Hc p (or_introl eq_refl)). apply IH. intros q Hq. apply Hc. right. exact Hq.
  Qed.

  Lemma remove_no_key c k p : In p (lru_remove K V keqb c k) -> keqb (fst p) k = false.
  Proof. unfold lru_remove. intro H. apply filter_In in H as [_ H]. apply negb_true_iff in H. exact H. Qed.

  Lemma has_false_no_key c k p : lru_has K V keqb c k = false -> In p c -> keqb (fst p) k = false.
  Proof.
    unfold lru_has. intros H Hp. destruct (keqb (fst p) k) eqn:E; [|reflexivity].
    assert (existsb (fun q => keqb (fst q) k) c = true) by (apply existsb_exists; exists p; split; assumption).
    congruence.
  Qed.

  Lemma In_tl {A} (l : list A) x : In x (tl l) -> In x l.
  Proof. destruct l; simpl; [trivial | intro H; right; exact H]. Qed.

  (* the key that was just set is present, with the value that was set -- whatever the capacity and however
     full the cache is (the seeded 'simplification' that evicts the newest entry of a full cache breaks this) *)
  Theorem lru_set_peek cap c k v : lru_peek K V keqb (lru_set K V keqb cap c k v) k = Some v.
  Proof.
    unfold lru_peek, lru_set.
    rewrite (find_none_app (fun p => keqb (fst p) k) _ (k, v)); [reflexivity | | apply keqb_spec; reflexivity].
    intros p Hp. destruct (lru_has K V keqb c k) eqn:E.
    - eapply remove_no_key. exact Hp.
    - apply (has_false_no_key c k p E). destruct (cap <=? length c)%nat; [apply In_tl|]; exact Hp.
  Qed.

  Lemma has_true_remove_shorter c k : lru_has K V keqb c k = true -> (length (lru_remove K V keqb c k) < length c)%nat.
  Proof.
    unfold lru_has, lru_remove. induction c as [|p r IH]; cbn [existsb filter length]; intro H; [discriminate|].
    destruct (keqb (fst p) k) eqn:E; cbn [negb].
    - pose proof (filter_length_le (fun p0 : K * V => negb (keqb (fst p0) k)) r). lia.
    - cbn [orb] in H. specialize (IH H). cbn [length]. lia.
  Qed.

  Theorem lru_set_length cap c k v : (1 <= cap)%nat -> (length c <= cap)%nat ->
    (length (lru_set K V keqb cap c k v) <= cap)%nat.
  Proof.
    intros Hc Hl. unfold lru_set. rewrite app_length. cbn [length].
    destruct (lru_has K V keqb c k) eqn:E.
    - pose proof (has_true_remove_shorter c k E). lia.
    - destruct (cap <=? length c)%nat eqn:E2.
      + apply Nat.leb_le in E2. destruct c; cbn [tl length] in *; lia.
      + apply Nat.leb_gt in E2. lia.
  Qed.

  Lemma find_app_miss (f : K * V -> bool) c x : f x = false -> find f (c ++ [x]) = find f c.
  Proof.
    intro Hx. induction c as [|p r IH]; cbn [app find]; [rewrite Hx; reflexivity|].
    destruct (f p); [reflexivity | exact IH].
  Qed.

  Lemma find_filter (f g : K * V -> bool) c : (forall p, f p = true -> g p = true) -> find f (filter g c) = find f c.
  Proof.
    intro H. induction c as [|p r IH]; [reflexivity|]. cbn [filter find].
    destruct (f p) eqn:E; [rewrite (H p E); cbn [find]; rewrite E; reflexivity|].
    destruct (g p); [cbn [find]; rewrite E|]; exact IH.
  Qed.

  (* the disjunction: nothing has to be evicted *)
  Theorem lru_set_other cap c k v k' : k' <> k ->
    (lru_has K V keqb c k = true \/ (length c < cap)%nat) ->
    lru_peek K V keqb (lru_set K V keqb cap c k v) k' = lru_peek K V keqb c k'.
  Proof.
    intros Hk Hroom. unfold lru_peek, lru_set.
    rewrite find_app_miss by (apply not_true_is_false; intro E; apply keqb_spec in E; exact (Hk (eq_sym E))).
    destruct (lru_has K V keqb c k) eqn:E.
    - unfold lru_remove. rewrite find_filter; [reflexivity|].
      intros p Hp. apply keqb_spec in Hp. rewrite Hp. apply negb_true_iff, not_true_is_false.
      intro E'. apply keqb_spec in E'. exact (Hk E').
    - destruct Hroom as [H|H]; [discriminate|].
      replace (cap <=? length c)%nat with false by (symmetry; apply Nat.leb_gt; exact H). reflexivity.
  Qed.

End LRUFacts.

Section FailureTable.
  Variable K : Type.
  Variable keqb : K -> K -> bool.
  Hypothesis keqb_spec : forall a b, keqb a b = true <-> a = b.

  (* PeerManager.report_failure: afterwards the sender has a failure record whose newest entry is [now] and whose
     older entry is the previous newest one -- also when the table is FULL of other senders *)
  Theorem report_failure_recorded cap (c : lru K (option N * option N)) addr now :
    lru_peek K _ keqb (report_failure keqb cap c addr now) addr
    = Some (match lru_peek K _ keqb c addr with Some (_, last) => last | None => None end, Some now).
  Proof. unfold report_failure. apply lru_set_peek. exact keqb_spec. Qed.

  Theorem report_failure_bounded cap (c : lru K (option N * option N)) addr now :
    (1 <= cap)%nat -> (length c <= cap)%nat -> (length (report_failure keqb cap c addr now) <= cap)%nat.
  Proof.
    intros H1 H2. unfold report_failure. apply lru_set_length; [exact keqb_spec | exact H1 |].
    pose proof (filter_length_le (fun p => negb (keqb (fst p) addr)) c). unfold lru_remove. lia.
  Qed.
End FailureTable.
