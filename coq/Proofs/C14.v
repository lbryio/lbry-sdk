(* One invariant of the interleaved builds ([Inv]: the books are kept by outpoint, reserved in the wallet iff held by
   some build), preserved by every step of every build, hence by every schedule.  A step is one of three moves
   ([move_inv], [reserve_inv], [drop_held_inv]). *)
From Coq Require Import NArith ZArith List Bool Arith Lia.
From LV Require Import Lib.Lists Model.C03 Model.C14 Proofs.C03.
Import ListNotations.

Lemma in_spend u f ids w : In (u, f) (spend ids w) <-> In (u, f) w /\ ~ In (uid u) ids.
Proof. unfold spend. rewrite filter_In. simpl. rewrite negb_true_iff, mem_id_false. tauto. Qed.
Lemma reserved_spend ids w i : In i (reserved_ids (spend ids w)) <-> In i (reserved_ids w) /\ ~ In i ids.
Proof.
  rewrite !in_reserved_ids. split.
  - intros [u [Hu E]]. apply in_spend in Hu. destruct Hu as [Hu Hn]. subst. eauto.
  - intros [[u [Hu E]] Hn]. exists u. split; [apply in_spend; subst; auto | assumption].
Qed.

Section Inv.
  Variable n : nat.
  Variable choose : nat -> nat -> list utxo -> list utxo.
  Variable more : nat -> nat -> list utxo -> bool.
  Variable finish : nat -> bool.
  Variable pre : nat -> list utxo.
  Variable start : nat -> bool.
  Variable quits : nat -> nat -> bool.
  Variable can_sign : nat -> list utxo -> bool.
  Hypothesis pre_nd : forall b, NoDup (map uid (pre b)).
  (* holds of the real chooser: [c03_choose_ok] *)
  Hypothesis choose_ok : forall b r l,
    NoDup (map uid l) -> incl (choose b r l) l /\ NoDup (map uid (choose b r l)).
  Variable w0 : wallet.

  (* the rows a build is about to act on, as it read or chose them under the lock: they must still be free *)
  Definition pending (B : build) : list utxo :=
    match ph B with PSelect => snap B | PReserve => sel B | _ => [] end.
  Lemma pending_outside B : crit (ph B) = false -> pending B = [].
  Proof. unfold pending. destruct (ph B); easy. Qed.

  Record Inv (st : state) : Prop := {
    I_nodup : NoDup (ids_of (wal st));
    I_crit : forall b, crit (ph (bs st b)) = true -> lock st = Some b;
    I_res : forall i, In i (reserved_ids (wal st)) <-> exists b, In i (held_ids st b);
    I_held_nd : forall b, NoDup (held_ids st b);
    I_disj : forall b1 b2 i, b1 <> b2 -> In i (held_ids st b1) -> In i (held_ids st b2) -> False;
    I_pend : forall b, free_in (wal st) (pending (bs st b));
    I_out : forall b, n <= b -> bs st b = init_build;
    I_fin : forall b, finished (ph (bs st b)) = true -> held (bs st b) = [];
    I_same : (forall b, b < n -> ph (bs st b) <> PDone Broadcast) -> map fst (wal st) = map fst w0
  }.

  Lemma free_not_held st u b : Inv st -> In (u, false) (wal st) -> ~ In (uid u) (held_ids st b).
  Proof. intros I Hu Hb. apply (free_not_reserved _ u (I_nodup st I) Hu), (I_res st I). exists b. exact Hb. Qed.

  Lemma upd_same f b x : upd f b x b = x.
  Proof. unfold upd. rewrite Nat.eqb_refl. reflexivity. Qed.
  Lemma upd_other f b x i : i <> b -> upd f b x i = f i.
  Proof. unfold upd. intro H. apply Nat.eqb_neq in H. rewrite H. reflexivity. Qed.

  (* is build [i] the one that was updated? *)
  Ltac split_b b i :=
    destruct (Nat.eq_dec i b) as [->|?]; [rewrite ?upd_same in * | rewrite ?upd_other in * by assumption].

  Lemma init_inv : NoDup (ids_of w0) -> (forall e, In e w0 -> snd e = false) -> Inv (init w0).
  Proof.
    intros N F. constructor; unfold held_ids; simpl; try discriminate; try reflexivity; try assumption.
    - intro i. split; [|intros [b []]]. intro Hi. apply in_reserved_ids in Hi. destruct Hi as [u [Hu _]].
      apply F in Hu. discriminate.
    - intros; constructor.
    - intros _ _ _ _ [].
    - intros; apply free_in_nil.
  Qed.

  (* First: the build goes on to phase [p], possibly taking or giving back the lock, and neither the wallet nor what
     it holds changes. *)
  Lemma move_inv st b lk p r sn sl :
    Inv st -> b < n -> finished (ph (bs st b)) = false -> finished p = false ->
    (crit p = true -> lk = Some b) -> (forall i, i <> b -> lock st = Some i -> lk = Some i) ->
    (p = PSelect -> free_in (wal st) sn) -> (p = PReserve -> free_in (wal st) sl) ->
    Inv (mkS (wal st) lk (upd (bs st) b (mkB p r sn sl (held (bs st b))))).
  Proof.
    intros I Hb Hf Hp Hc Hl Hsn Hsl.
    assert (Hheld : forall i, held_ids (mkS (wal st) lk (upd (bs st) b (mkB p r sn sl (held (bs st b))))) i = held_ids st i).
    { intro i. unfold held_ids; simpl. split_b b i; reflexivity. }
    constructor; simpl.
    - apply (I_nodup st I).
    - intros i. split_b b i; simpl; [assumption|]. intro Hi. apply Hl, (I_crit st I), Hi. assumption.
    - intro i. rewrite (I_res st I i). split; intros [j Hj]; exists j; rewrite Hheld in *; assumption.
    - intro i. rewrite Hheld. apply (I_held_nd st I).
    - intros b1 b2 i. rewrite !Hheld. apply (I_disj st I).
    - intros i. split_b b i; [|apply (I_pend st I)]. unfold pending; simpl. destruct p; auto using free_in_nil.
    - intros i Hi. rewrite upd_other by lia. apply (I_out st I); assumption.
    - intros i. split_b b i; simpl; [congruence | apply (I_fin st I)].
    - intros Hall. apply (I_same st I). intros i Hi. specialize (Hall i Hi). split_b b i; [|assumption].
      intro E. rewrite E in Hf. discriminate.
  Qed.

  (* Second: the build, inside the lock, reserves rows that are free and adds them to its inputs.  Nobody
     else is between Read and Reserve, so no snapshot goes stale. *)
  Lemma reserve_inv st b p l :
    Inv st -> b < n -> lock st = Some b -> finished (ph (bs st b)) = false ->
    crit p = true -> p <> PSelect -> p <> PReserve -> free_in (wal st) l ->
    Inv (mkS (reserve l (wal st)) (lock st)
             (upd (bs st) b (mkB p (rnd (bs st b)) (snap (bs st b)) (sel (bs st b)) (held (bs st b) ++ l)))).
  Proof.
    intros I Hb Hlock Hf Hp Hp1 Hp2 [S1 S2].
    assert (Hnew : forall i j, In i (map uid l) -> ~ In i (held_ids st j)).
    { intros i j Hi. apply in_map_iff in Hi. destruct Hi as [u [<- Hu]]. apply free_not_held; auto. }
    assert (Hout : forall i, i <> b -> crit (ph (bs st i)) = true -> False).
    { intros i Hi C. apply (I_crit st I) in C. congruence. }
    constructor; unfold held_ids; simpl.
    - unfold reserve. rewrite ids_set_reserved. apply (I_nodup st I).
    - intros i. split_b b i; simpl; [intros _; assumption | apply (I_crit st I)].
    - intro i. rewrite reserved_reserve, (I_res st I i).
      2:{ intros u Hu. apply S1 in Hu. apply (in_map (fun e : utxo * bool => uid (fst e))) in Hu. exact Hu. }
      split.
      + intros [[j Hj]|Hi]; [exists j; split_b b j | exists b; rewrite upd_same]; simpl; rewrite ?map_app, ?in_app_iff; auto.
      + intros [j Hj]. revert Hj. split_b b j; simpl; [rewrite map_app, in_app_iff; intros [H|H]; [left; exists b|right] | left; exists j]; assumption.
    - intros i. split_b b i; simpl; [|apply (I_held_nd st I)].
      rewrite map_app. apply NoDup_app_intro; [apply (I_held_nd st I) | assumption|].
      intros x Hx1 Hx2. exact (Hnew x b Hx2 Hx1).
    - intros b1 b2 i Hne. split_b b b1; split_b b b2; simpl; try congruence; rewrite ?map_app, ?in_app_iff.
      + intros [H1|H1] H2; [exact (I_disj st I b b2 i Hne H1 H2) | exact (Hnew i b2 H1 H2)].
      + intros H1 [H2|H2]; [exact (I_disj st I b1 b i Hne H1 H2) | exact (Hnew i b1 H2 H1)].
      + apply (I_disj st I); assumption.
    - intros i. split_b b i; [unfold pending; simpl; destruct p; try congruence; apply free_in_nil|].
      destruct (crit (ph (bs st i))) eqn:C; [exfalso; eapply Hout; eassumption|].
      rewrite pending_outside by assumption. apply free_in_nil.
    - intros i Hi. rewrite upd_other by lia. apply (I_out st I); assumption.
    - intros i. split_b b i; simpl; [destruct p; discriminate | apply (I_fin st I)].
    - intros Hall. unfold reserve. rewrite fst_set_reserved. apply (I_same st I). intros i Hi. specialize (Hall i Hi).
      split_b b i; [|assumption]. intro E. rewrite E in Hf. discriminate.
  Qed.

  (* Third: the build ends and its inputs leave the reserved set, released or spent. *)
  Lemma drop_held_inv st b (w' : wallet) p :
    Inv st -> b < n -> finished (ph (bs st b)) = false -> finished p = true ->
    (p = PDone Broadcast \/ map fst w' = map fst (wal st)) ->
    NoDup (ids_of w') ->
    (forall i, In i (reserved_ids w') <-> In i (reserved_ids (wal st)) /\ ~ In i (held_ids st b)) ->
    (forall u f, In (u, f) (wal st) -> ~ In (uid u) (held_ids st b) -> In (u, f) w') ->
    Inv (mkS w' (lock st) (upd (bs st) b (mkB p (rnd (bs st b)) [] [] []))).
  Proof.
    intros I Hb Hnf Hp Hfst Hnd Hres Hkeep.
    constructor; unfold held_ids; simpl.
    - assumption.
    - intros i. split_b b i; simpl; [destruct p; discriminate | apply (I_crit st I)].
    - intro i. rewrite Hres, (I_res st I i). split.
      + intros [[j Hj] Hn]. exists j. split_b b j; [contradiction | assumption].
      + intros [j Hj]. revert Hj. split_b b j; simpl; [intros []|]. intro Hj.
        split; [exists j; assumption | intro Hi; eapply (I_disj st I j b i); eassumption].
    - intros i. split_b b i; simpl; [constructor | apply (I_held_nd st I)].
    - intros b1 b2 i Hne. split_b b b1; simpl; [intros []|]. split_b b b2; simpl; [intros _ []|].
      apply (I_disj st I); assumption.
    - intros i. split_b b i; [destruct p; try discriminate; apply free_in_nil|].
      destruct (I_pend st I i) as [S1 S2]. split; [|assumption].
      intros u Hu. apply S1 in Hu. apply Hkeep; [assumption | apply free_not_held; assumption].
    - intros i Hi. rewrite upd_other by lia. apply (I_out st I); assumption.
    - intros i. split_b b i; simpl; [reflexivity | apply (I_fin st I)].
    - intros Hall. destruct Hfst as [->|Hfst].
      + exfalso. apply (Hall b Hb). rewrite upd_same. reflexivity.
      + rewrite Hfst. apply (I_same st I). intros i Hlt Hi. apply (Hall i Hlt).
        split_b b i; [|assumption]. rewrite Hi in Hnf. discriminate.
  Qed.

  (* release_tx, after a failure or when the finished transaction is abandoned *)
  Lemma release_inv st b s :
    Inv st -> b < n -> finished (ph (bs st b)) = false ->
    Inv (mkS (release (map uid (held (bs st b))) (wal st)) (lock st)
             (upd (bs st) b (mkB (PDone s) (rnd (bs st b)) [] [] []))).
  Proof.
    intros I Hb Hf. apply drop_held_inv; auto.
    - right. apply fst_set_reserved.
    - unfold release. rewrite ids_set_reserved. apply (I_nodup st I).
    - intro i. apply reserved_release.
    - intros u f Hu Hn. apply in_set_reserved. left. auto.
  Qed.

  (* a build's pre-chosen wallet outputs are unreserved at the moment it reserves them *)
  Definition fresh (st : state) (b : nat) : Prop :=
    ph (bs st b) = PPre -> forall u, In u (pre b) -> In (u, false) (wal st).

  Lemma step_inv st b : Inv st -> fresh st b -> Inv (step true true n choose more finish pre start quits can_sign st b).
  Proof.
    intros I Hfresh. unfold step. destruct (n <=? b) eqn:Hn; [assumption|]. apply Nat.leb_gt in Hn.
    pose proof (I_crit st I b) as Hlock. pose proof (I_pend st I b) as Hpend. unfold pending in Hpend.
    destruct (ph (bs st b)) eqn:P; simpl in Hlock.
    - (* PreLock *) destruct (lock st) eqn:L; [assumption|]. apply move_inv; rewrite ?P; try easy; congruence.
    - (* Pre *) specialize (Hlock eq_refl). apply reserve_inv; rewrite ?P; try easy. split; [apply Hfresh; assumption | apply pre_nd].
    - (* PreUnlock *)
      specialize (Hlock eq_refl).
      destruct (start b); [|destruct (can_sign _ _)]; apply move_inv; rewrite ?P; try easy; congruence.
    - (* Lock *)
      destruct (quits b (rnd (bs st b))); [apply move_inv; rewrite ?P; easy|].
      destruct (lock st) eqn:L; [assumption|]. apply move_inv; rewrite ?P; try easy; congruence.
    - (* Read *)
      specialize (Hlock eq_refl). apply move_inv; rewrite ?P; try easy. intros _. split.
      + intros u Hu. apply in_unreserved; assumption.
      + apply NoDup_unreserved, (I_nodup st I).
    - (* Select *)
      specialize (Hlock eq_refl). destruct Hpend as [S1 S2].
      destruct (choose_ok b (rnd (bs st b)) (snap (bs st b)) S2) as [C1 C2].
      apply move_inv; rewrite ?P; try easy. intros _. split; [|assumption]. intros u Hu. apply S1, C1; assumption.
    - (* Reserve *)
      specialize (Hlock eq_refl). rewrite reserve_nonempty. apply reserve_inv; rewrite ?P; easy.
    - (* Unlock *)
      specialize (Hlock eq_refl).
      destruct (nonempty _); [destruct (more _ _ _); [|destruct (can_sign _ _)]|]; apply move_inv; rewrite ?P; try easy; congruence.
    - (* Abort *) apply release_inv; rewrite ?P; easy.
    - (* Finish *)
      destruct (quits b (rnd (bs st b))); [apply move_inv; rewrite ?P; easy|].
      destruct (finish b); [|apply release_inv; rewrite ?P; easy].
      apply drop_held_inv; rewrite ?P; auto.
      + apply (NoDup_map_filter (fun e : utxo * bool => uid (fst e))), (I_nodup st I).
      + intro i. apply reserved_spend.
      + intros u f Hu Hi. apply in_spend. auto.
    - assumption.
  Qed.

  Fixpoint fresh_sched (sched : list nat) (st : state) : Prop :=
    match sched with
    | [] => True
    | b :: s => fresh st b /\ fresh_sched s (step true true n choose more finish pre start quits can_sign st b)
    end.

  Lemma run_inv sched : forall st, Inv st -> fresh_sched sched st ->
    Inv (run true true n choose more finish pre start quits can_sign sched st).
  Proof.
    induction sched as [|b s IH]; intros st I F; simpl; [assumption|]. destruct F as [F1 F2].
    apply IH; [apply step_inv; assumption | assumption].
  Qed.

  Lemma fresh_sched_nil_pre sched : (forall b, pre b = []) -> forall st, fresh_sched sched st.
  Proof.
    intro Hn. induction sched as [|b s IH]; intro st; simpl; [exact I|]. split; [|apply IH].
    intros _ u Hu. rewrite Hn in Hu. destruct Hu.
  Qed.

  Hypothesis w0_nodup : NoDup (ids_of w0).
  Hypothesis w0_free : forall e, In e w0 -> snd e = false.

  Theorem exclusive sched :
    fresh_sched sched (init w0) ->
    let st := run true true n choose more finish pre start quits can_sign sched (init w0) in
    (forall b1 b2 i, b1 <> b2 -> In i (held_ids st b1) -> In i (held_ids st b2) -> False) /\
    (forall b, NoDup (held_ids st b)) /\
    (forall i, In i (reserved_ids (wal st)) <-> exists b, b < n /\ In i (held_ids st b)) /\
    (forall b u, In u (held (bs st b)) -> ~ In u (unreserved (wal st))).
  Proof.
    intros F st. assert (I : Inv st) by (apply run_inv; [apply init_inv; assumption | assumption]).
    split; [|split; [|split]].
    - intros b1 b2 i. apply (I_disj st I).
    - apply (I_held_nd st I).
    - intro i. rewrite (I_res st I i). split; intros [b Hb]; exists b; [split; [|assumption] | apply Hb].
      destruct (le_lt_dec n b) as [Hle|]; [|assumption]. unfold held_ids in Hb. rewrite (I_out st I b Hle) in Hb. destruct Hb.
    - intros b u Hu Hfree. apply in_unreserved in Hfree. apply (free_not_held st u b I Hfree), in_map, Hu.
  Qed.

  Lemma all_false_eq (w w' : wallet) :
    map fst w = map fst w' -> (forall e, In e w -> snd e = false) -> (forall e, In e w' -> snd e = false) -> w = w'.
  Proof.
    revert w'; induction w as [|[u f] w IH]; intros [|[u' f'] w']; simpl; intros E F F'; try discriminate; [reflexivity|].
    inversion E; subst.
    assert (f = false) by (apply (F (u', f)); left; reflexivity).
    assert (f' = false) by (apply (F' (u', f')); left; reflexivity). subst.
    f_equal. apply IH; auto.
  Qed.

  Theorem all_released sched :
    fresh_sched sched (init w0) ->
    let st := run true true n choose more finish pre start quits can_sign sched (init w0) in
    (forall b, b < n -> finished (ph (bs st b)) = true) ->
    reserved_ids (wal st) = [] /\
    ((forall b, b < n -> ph (bs st b) <> PDone Broadcast) -> wal st = w0).
  Proof.
    intros F st Hfin. assert (I : Inv st) by (apply run_inv; [apply init_inv; assumption | assumption]).
    assert (Hnone : forall i, ~ In i (reserved_ids (wal st))).
    { intros i Hi. apply (I_res st I) in Hi. destruct Hi as [b Hb]. unfold held_ids in Hb.
      destruct (le_lt_dec n b) as [Hle|Hlt].
      - rewrite (I_out st I b Hle) in Hb. destruct Hb.
      - rewrite (I_fin st I b (Hfin b Hlt)) in Hb. destruct Hb. }
    split.
    - destruct (reserved_ids (wal st)) as [|i l]; [reflexivity|]. destruct (Hnone i). left; reflexivity.
    - intro Hnb. apply all_false_eq; [| |assumption].
      + apply (I_same st I), Hnb.
      + intros [u [|]] He; [|reflexivity]. destruct (Hnone (uid u)). apply in_reserved_ids. eauto.
  Qed.
End Inv.

Section WithC03.
  Variable fpb : Z.
  Variable shuffle : list utxo -> list utxo.
  Hypothesis shuffle_perm : forall l, Permutation.Permutation l (shuffle l).
  Hypothesis fpb_nonneg : (0 <= fpb)%Z.
  Variable strat : nat -> strategy.
  Variable amount : nat -> nat -> Z.

  Lemma c03_choose_ok b r l :
    NoDup (map uid l) ->
    incl (c03_choose fpb shuffle strat amount b r l) l /\ NoDup (map uid (c03_choose fpb shuffle strat amount b r l)).
  Proof.
    intro Hl. unfold c03_choose.
    destruct (sound_plain _ _ _ _ (choose_from_sound fpb shuffle shuffle_perm fpb_nonneg (strat b) l (amount b r))) as [_ [A [B _]]].
    split; auto.
  Qed.
End WithC03.

Definition first_one : nat -> nat -> list utxo -> list utxo := fun _ _ l => firstn 1 l.
Lemma first_one_ok b r l : NoDup (map uid l) -> incl (first_one b r l) l /\ NoDup (map uid (first_one b r l)).
Proof.
  intros _. unfold first_one. destruct l as [|x l]; simpl.
  - split; [intros ? [] | constructor].
  - split; [intros ? [<-|[]]; left; reflexivity | constructor; [intros [] | constructor]].
Qed.
Definition demo_wallet : wallet := [(mkU 1 500000 5 true true 1, false)].
Definition demo_sched : list nat := [0; 0; 0; 1; 1; 1; 0; 0; 1; 1; 1; 0; 0; 0; 1; 1]%nat.

Lemma lock_needed :
  exists n choose more finish pre start quits can_sign w0 sched,
    (forall b, pre b = []) /\
    (forall b r l, NoDup (map uid l) -> incl (choose b r l) l /\ NoDup (map uid (choose b r l))) /\
    NoDup (map (fun e : utxo * bool => uid (fst e)) w0) /\ (forall e, In e w0 -> snd e = false) /\
    let st := run false true n choose more finish pre start quits can_sign sched (init w0) in
    exists i, In i (held_ids st 0) /\ In i (held_ids st 1).
Proof.
  exists 2%nat, first_one, (fun _ _ _ => false), (fun _ => false), (fun _ => []), (fun _ => true), (fun _ _ => false), (fun _ _ => true), demo_wallet, demo_sched.
  split; [reflexivity|]. split; [exact first_one_ok|]. split; [repeat constructor; intros []|].
  split; [intros e [<-|[]]; reflexivity|].
  exists 1%N. vm_compute. split; left; reflexivity.
Qed.

(* with the lock the same schedule keeps the builds apart *)
Lemma demo_with_lock :
  let st := run true true 2 first_one (fun _ _ _ => false) (fun _ => false) (fun _ => []) (fun _ => true) (fun _ _ => false) (fun _ _ => true) demo_sched (init demo_wallet) in
  held_ids st 0 = [1%N] /\ held_ids st 1 = [] /\ lock st = Some 1%nat.
Proof. vm_compute. repeat split. Qed.

(* a build that is funded and then fails while signing: its inputs are released again *)
Lemma demo_sign_fails :
  let st := run true true 1 first_one (fun _ _ _ => false) (fun _ => false) (fun _ => []) (fun _ => true) (fun _ _ => false) (fun _ _ => false)
                [0; 0; 0; 0; 0; 0; 0; 0; 0]%nat (init demo_wallet) in
  ph (bs st 0%nat) = PDone Failed /\ reserved_ids (wal st) = [] /\ wal st = demo_wallet /\
  (let st5 := run true true 1 first_one (fun _ _ _ => false) (fun _ => false) (fun _ => []) (fun _ => true) (fun _ _ => false) (fun _ _ => false)
                  [0; 0; 0; 0; 0; 0; 0; 0]%nat (init demo_wallet) in
   ph (bs st5 0%nat) = PAbort /\ held_ids st5 0%nat = [1%N]).
Proof. vm_compute. repeat split. Qed.

(* Before `fix: pre-chosen inputs are reserved under the UTXO reservation lock` create reserved its pre-chosen
   inputs OUTSIDE the lock ([lock_pre] = false).  With all other lock steps in place: build 0 reads the wallet
   (output 1 is free), build 1 - handed output 1 as a pre-chosen input - reserves it, build 0 selects and
   reserves it as well: both hold outpoint 1. *)
Definition race_pre (b : nat) : list utxo := if Nat.eqb b 1 then [mkU 1 500000 5 true true 1] else [].
Definition race_sched : list nat := [0; 0; 0; 0; 0; 1; 1; 0; 0]%nat.
Lemma prechosen_race_old_refuted :
  let st := run true false 2 first_one (fun _ _ _ => false) (fun _ => false) race_pre (fun b => Nat.eqb b 0)
                (fun _ _ => false) (fun _ _ => true) race_sched (init demo_wallet) in
  held_ids st 0%nat = [1%N] /\ held_ids st 1%nat = [1%N].
Proof. vm_compute. repeat split. Qed.
(* the repaired code on the same schedule: build 1 has to wait for the lock, build 0 gets the output alone *)
Lemma prechosen_race_repaired :
  let st := run true true 2 first_one (fun _ _ _ => false) (fun _ => false) race_pre (fun b => Nat.eqb b 0)
                (fun _ _ => false) (fun _ _ => true) race_sched (init demo_wallet) in
  held_ids st 0%nat = [1%N] /\ held_ids st 1%nat = [] /\ ph (bs st 1%nat) = PPreLock.
Proof. vm_compute. repeat split. Qed.

(* a build whose pre-chosen wallet inputs cover the cost never asks for funds; it still holds them, and they
   are released when it is abandoned *)
Lemma prechosen_sweep :
  let run_ s := run true true 1 first_one (fun _ _ _ => false) (fun _ => false)
                (fun _ => [mkU 1 500000 5 true true 1]) (fun _ => false) (fun _ _ => false) (fun _ _ => true) s (init demo_wallet) in
  held_ids (run_ [0; 0; 0]%nat) 0%nat = [1%N] /\ reserved_ids (wal (run_ [0; 0; 0]%nat)) = [1%N] /\
  ph (bs (run_ [0; 0; 0; 0]%nat) 0%nat) = PDone Released /\ wal (run_ [0; 0; 0; 0]%nat) = demo_wallet.
Proof. vm_compute. repeat split. Qed.

(* once a build has been abandoned (released), has failed or has been broadcast, none of its steps changes the
   wallet, the lock or any build: a released transaction is not sent later, a failed send (Finish with
   finish = false) has released its inputs *)
Lemma done_is_final use_lock lock_pre n choose more finish pre start quits can_sign st b :
  finished (ph (bs st b)) = true ->
  step use_lock lock_pre n choose more finish pre start quits can_sign st b = st.
Proof.
  intro H. unfold step. destruct (n <=? b); [reflexivity|].
  destruct (ph (bs st b)); try discriminate. reflexivity.
Qed.
Lemma failed_send_releases use_lock lock_pre n choose more finish pre start quits can_sign st b :
  b < n -> ph (bs st b) = PFinish -> quits b (rnd (bs st b)) = false -> finish b = false ->
  let st' := step use_lock lock_pre n choose more finish pre start quits can_sign st b in
  wal st' = release (map uid (held (bs st b))) (wal st) /\ ph (bs st' b) = PDone Released /\ held (bs st' b) = [].
Proof.
  intros Hb P Q F. unfold step. apply Nat.leb_gt in Hb. rewrite Hb, P, Q, F. simpl.
  unfold upd. rewrite Nat.eqb_refl. simpl. repeat split.
Qed.

(* a build cancelled while it waits for the lock of its first round, and one cancelled after funding: both end
   Failed with everything released *)
Lemma demo_cancelled :
  let run_ q s := run true true 1 first_one (fun _ _ _ => false) (fun _ => false) (fun _ => []) (fun _ => true) q
                      (fun _ _ => true) s (init demo_wallet) in
  ph (bs (run_ (fun _ r => Nat.eqb r 0) [0; 0; 0; 0; 0]%nat) 0%nat) = PDone Failed /\
  ph (bs (run_ (fun _ r => Nat.eqb r 1) [0; 0; 0; 0; 0; 0; 0; 0; 0]%nat) 0%nat) = PAbort /\
  held_ids (run_ (fun _ r => Nat.eqb r 1) [0; 0; 0; 0; 0; 0; 0; 0; 0]%nat) 0%nat = [1%N] /\
  wal (run_ (fun _ r => Nat.eqb r 1) [0; 0; 0; 0; 0; 0; 0; 0; 0; 0]%nat) = demo_wallet.
Proof. vm_compute. repeat split. Qed.
