(* The closed examples over [toy_hash] (Proofs/C08.v).  [toy_hash] reduces modulo 2^200 at every byte: cheap on the
   bytecode machine, very slow for a checker that evaluates with the kernel's ordinary reduction; and the examples ask
   for the same few hashes over and over ([maybe_verify] hashes the transaction and folds the branch again at every
   call).  So an example is proved by putting [toy_tab] for [toy_hash] under every model function and evaluating the
   statement ([by_toy_tab]): [toy_tab] looks its input up in a table of the hashes the examples ask for and otherwise
   computes [toy_fast], the same bytes by shifts and masks.  That needs no extensionality axiom: every model function
   depends on its hash argument only through the hash's values (Section Ext, used at [toy_hash_tab]). *)
From Coq Require Import ZArith List Bool Lia.
From Coq.Strings Require Import Byte.
From LV Require Import Lib.Bytes Lib.Decimal Model.C08 Model.C08_Claim Model.C08_Cache Model.C08_Chunk
  Model.C08_Db Proofs.C08.
Import ListNotations.

Section Ext.
Context {H H' : bytes -> bytes} (E : forall x, H x = H' x).

Lemma option_ext (o : option bytes) d :
  match o with Some x => H x | None => d end = match o with Some x => H' x | None => d end.
Proof. destruct o; [apply E | reflexivity]. Qed.

Lemma fold_branch_ext br pos w : fold_branch H br pos w = fold_branch H' br pos w.
Proof.
  unfold fold_branch. generalize 0%nat. revert w.
  induction br as [|b r IH]; intros w i; cbn [fold_from]; [|rewrite E]; auto.
Qed.

Lemma get_root_ext brs pos w : get_root_of_merkle_tree H brs pos w = get_root_of_merkle_tree H' brs pos w.
Proof. unfold get_root_of_merkle_tree. destruct (decode_branches brs); [rewrite fold_branch_ext|]; reflexivity. Qed.

Lemma pair_up_ext : forall l, pair_up H l = pair_up H' l.
Proof. fix IH 1. intros [|a [|b r]]; cbn [pair_up]; rewrite ?E, ?(IH r); reflexivity. Qed.

Lemma merkle_root_ext l : merkle_root H l = merkle_root H' l.
Proof.
  unfold merkle_root. generalize (length l). intros n; revert l.
  induction n as [|n IH]; intros [|a [|b r]]; cbn [root_fuel]; auto. now rewrite pair_up_ext.
Qed.

Lemma branch_ext l i : branch H l i = branch H' l i.
Proof.
  unfold branch. generalize (length l). intros n; revert l i.
  induction n as [|n IH]; intros [|a [|b r]] i; cbn [branch_fuel]; auto. now rewrite pair_up_ext, IH.
Qed.

Lemma maybe_verify_ext hs st raw h arg net :
  maybe_verify H hs st raw h arg net = maybe_verify H' hs st raw h arg net.
Proof.
  unfold maybe_verify. destruct (_ && _); [|reflexivity].
  destruct (m_merkle _); [|reflexivity]. destruct (m_pos _); [|reflexivity].
  now rewrite get_root_ext, E.
Qed.

Lemma request_ext s k raw h arg net : request H s k raw h arg net = request H' s k raw h arg net.
Proof. unfold request. now rewrite maybe_verify_ext. Qed.

Lemma run_ext ops : forall s, C08_Cache.run H s ops = C08_Cache.run H' s ops.
Proof.
  induction ops as [|op r IH]; intros s; cbn [C08_Cache.run]; [reflexivity|].
  assert (S : C08_Cache.step H s op = C08_Cache.step H' s op)
    by (destruct op; cbn [C08_Cache.step]; now rewrite ?request_ext).
  rewrite S. destruct (C08_Cache.step H' s op). now rewrite IH.
Qed.

Lemma attempts_ext n cps l : forall p, attempts H n cps p l = attempts H' n cps p l.
Proof.
  induction l as [|a r IH]; intros p; cbn [attempts]; [reflexivity|].
  match goal with |- context [attempt H n cps p ?st a] =>
    assert (S : attempt H n cps p st a = attempt H' n cps p st a) end.
  { unfold attempt. destruct (find_chunk _ _); rewrite ?maybe_verify_ext; [reflexivity|].
    destruct (nth_error cps _); rewrite ?E; reflexivity. }
  rewrite S. destruct (attempt H' n cps p _ a). now rewrite IH.
Qed.

Lemma drun_ext ops : forall s, drun H s ops = drun H' s ops.
Proof.
  unfold drun. induction ops as [|op r IH]; intros s; cbn [fold_left]; [reflexivity|].
  rewrite IH. f_equal. destruct op; cbn [dstep]; now rewrite ?maybe_verify_ext.
Qed.

Lemma outpoint_hash_ext th nout tk : outpoint_hash H th nout tk = outpoint_hash H' th nout tk.
Proof. unfold outpoint_hash. now rewrite !E. Qed.

Lemma verify_proof_ext pf root name : verify_proof H pf root name = verify_proof H' pf root name.
Proof.
  assert (N : forall nd first st, node_step H pf first nd st = node_step H' pf first nd st).
  { intros. unfold node_step. destruct (children_loop _ _ _); [|reflexivity].
    destruct (_ && _); [reflexivity|]. cbv zeta.
    (* the first node of a proof that names a claim hashes the outpoint, every other one its value hash *)
    destruct first; [destruct (p_txhash pf) as [th|], (p_nout pf), (p_takeover pf)|];
      try (destruct (negb (length th =? 64)%nat); [reflexivity|]; destruct (unhexlify th); [|reflexivity];
           rewrite outpoint_hash_ext; destruct (outpoint_hash H' _ _ _); now rewrite ?E);
      (destruct (n_value_hash nd) as [vh|]; [destruct (negb _); [|destruct (unhexlify vh)]|]; now rewrite ?E). }
  assert (L : forall nds first st, nodes_loop H pf first nds st = nodes_loop H' pf first nds st).
  { induction nds as [|nd r IH]; intros; cbn [nodes_loop]; [reflexivity|].
    rewrite N. destruct (node_step H' pf first nd st); auto. }
  unfold verify_proof. now rewrite L.
Qed.

End Ext.

(* [toy_hash] with shifts and masks in place of multiplication, division and remainder *)
Fixpoint le_fast (w : nat) (v : N) : bytes :=
  match w with O => [] | S w' => byte_of_N (N.land v 255) :: le_fast w' (N.shiftr v 8) end.

Definition mask200 : N := Eval vm_compute in N.ones 200.

Definition toy_fast (x : bytes) : bytes :=
  le_fast 32 (fold_left (fun a b => N.land (N.shiftl a 8 + a + N_of_byte b + 1) mask200)%N x 7%N).

Lemma le_encode_fast w : forall v, le_encode w v = le_fast w v.
Proof.
  induction w as [|w IH]; intros v; cbn [le_encode le_fast]; [reflexivity|].
  rewrite IH, N.shiftr_div_pow2. f_equal. apply N_of_byte_inj.
  change 255%N with (N.ones 8). now rewrite !N_of_byte_of_N, N.land_ones, N.mod_mod.
Qed.

Lemma toy_hash_fast x : toy_hash x = toy_fast x.
Proof.
  unfold toy_hash, toy_fast. rewrite le_encode_fast. f_equal. generalize 7%N.
  induction x as [|b r IH]; intros a; cbn [fold_left]; [reflexivity|].
  change mask200 with (N.ones 200). rewrite N.land_ones, N.shiftl_mul_pow2, IH. do 2 f_equal. lia.
Qed.

(* The block most examples verify against: three transactions, their hashes, the root of their tree, and the dict
   that carries the genuine branch of transaction i together with position p.  Props/C08.v spells these four out
   with [let] in every example; the statements below are convertible with those. *)
Definition toy_raws : list bytes := map leaf_n [1; 2; 3]%N.
Definition toy_leaves : list bytes := map toy_hash toy_raws.
Definition toy_root : bytes := match merkle_root toy_hash toy_leaves with Some r => r | None => [] end.
Definition toy_proof (i : nat) (p : Z) : merkle_resp :=
  {| m_merkle := Some (map wire (branch toy_hash toy_leaves i)); m_pos := Some p |}.

(* A statement that spells the root out is compared with one that says [toy_root] by unfolding [toy_root]; left to
   itself the kernel unfolds [merkle_root] on the other side first and walks the whole tree. *)
Strategy expand [toy_root].

(* Every input the examples hash, with its hash.  The hash inputs of one level of a tree are [pair_up id_hash]
   of the level's nodes.  An input missing from the list would cost time, nothing else: [toy_tab] then
   computes [toy_fast]. *)
Definition toy_memo : list (bytes * bytes) := Eval vm_compute in
  let h := toy_fast in
  let inputs := pair_up id_hash in
  let five := map leaf_n [1; 2; 3; 4; 5]%N in
  let l := toy_leaves in
  let forged := nth 1 l [] ++ nth 2 l [] in
  let o := h (leaf_n 7) ++ h (dec_of_Z 1) ++ h (be_encode 8 5) in
  map (fun x => (x, h x))
    (toy_raws ++ inputs l ++ inputs (pair_up h l) ++
     inputs five ++ inputs (pair_up h five) ++ inputs (pair_up h (pair_up h five)) ++
     [forged; nth 0 (pair_up h l) [] ++ h forged;
      concat [header_with_root (leaf_n 0); header_with_root (leaf_n 4)];
      concat [header_with_root (leaf_n 0); header_with_root toy_root];
      leaf_n 7; dec_of_Z 1; be_encode 8 5; o; h o]).

Definition toy_tab (x : bytes) : bytes :=
  match find (fun e => bytes_eqb x (fst e)) toy_memo with Some e => snd e | None => toy_fast x end.

Lemma toy_hash_tab x : toy_hash x = toy_tab x.
Proof.
  rewrite toy_hash_fast. unfold toy_tab. destruct (find _ _) as [e|] eqn:F; [|reflexivity].
  apply find_some in F as [Hin Hx]. apply bytes_eqb_eq in Hx as ->.
  apply bytes_eqb_eq. revert e Hin. apply forallb_forall. vm_compute. reflexivity.
Qed.

(* puts [toy_tab] for [toy_hash] under every model function that takes the hash, then evaluates the statement *)
Ltac by_toy_tab :=
  cbv zeta; unfold final, toy_proof, toy_root, toy_leaves, toy_raws;
  rewrite ?(map_ext _ _ toy_hash_tab), ?(option_ext toy_hash_tab), ?(merkle_root_ext toy_hash_tab),
    ?(branch_ext toy_hash_tab), ?(fold_branch_ext toy_hash_tab), ?(maybe_verify_ext toy_hash_tab),
    ?(run_ext toy_hash_tab), ?(request_ext toy_hash_tab), ?(attempts_ext toy_hash_tab),
    ?(drun_ext toy_hash_tab), ?(verify_proof_ext toy_hash_tab), ?(outpoint_hash_ext toy_hash_tab),
    ?toy_hash_tab;
  vm_compute; reflexivity.

Lemma ex_genuine :
  let l := map leaf_n [1; 2; 3; 4; 5]%N in
  (length (branch toy_hash l 4), Some (fold_branch toy_hash (branch toy_hash l 4) 4 (nth 4 l []))) =
  (3%nat, merkle_root toy_hash l).
Proof. by_toy_tab. Qed.

Lemma ex_maybe_verify :
  let hdrs := [header_with_root (leaf_n 0); header_with_root (leaf_n 0); header_with_root toy_root] in
  let m := toy_proof 2 2 in
  let st := {| t_height := (-2)%Z; t_position := (-1)%Z; t_verified := false |} in
  (maybe_verify toy_hash hdrs st (nth 2 toy_raws []) 2 (Some m) m,
   maybe_verify toy_hash hdrs st (nth 2 toy_raws []) 3 (Some m) m,
   maybe_verify toy_hash hdrs st (nth 2 toy_raws []) 0 (Some m) m,
   maybe_verify toy_hash hdrs st (nth 1 toy_raws []) 2 None m) =
  (({| t_height := 2; t_position := 2; t_verified := true |}, RetTx, false),
   ({| t_height := 3; t_position := (-1)%Z; t_verified := false |}, RetTx, false),
   ({| t_height := 0; t_position := (-1)%Z; t_verified := false |}, RetTx, false),
   ({| t_height := 2; t_position := 2; t_verified := false |}, RetTx, true)).
Proof. by_toy_tab. Qed.

Lemma ex_legacy_claim_model :
  let th := leaf_n 7 in
  let pf := {| p_nodes := [{| n_children := []; n_value_hash := None |}];
               p_txhash := Some (wire th); p_nout := Some 1%Z; p_takeover := Some 5%Z |} in
  let root := match outpoint_hash toy_hash th 1 5 with Some oh => toy_hash oh | None => [] end in
  (verify_proof toy_hash pf (wire root) [], verify_proof toy_hash pf (wire root) [x61],
   verify_proof toy_hash pf (wire (leaf_n 1)) []) = (CpTrue, CpInvalid, CpInvalid).
Proof. by_toy_tab. Qed.

Lemma ex_cache :
  let m := toy_proof 1 1 in
  let req := OpRequest (leaf_n 77) (nth 1 toy_raws []) 2 (Some m) m in
  let h0 := [header_with_root (leaf_n 0); header_with_root (leaf_n 0)] in
  snd (run toy_hash {| w_headers := h0; w_cache := [] |}
         [req; OpExtend [header_with_root toy_root]; req; OpExtend [header_with_root (leaf_n 9)]; req;
          OpReorg 2 [header_with_root (leaf_n 5); header_with_root (leaf_n 6)]; req]) =
  [Some (Fetched {| t_height := 2; t_position := (-1)%Z; t_verified := false |} RetTx); None;
   Some (Fetched {| t_height := 2; t_position := 1; t_verified := true |} RetTx); None;
   Some (Hit {| t_height := 2; t_position := 1; t_verified := true |}); None;
   Some (Fetched {| t_height := 2; t_position := 1; t_verified := false |} RetTx)].
Proof. by_toy_tab. Qed.

Lemma ex_chunk :
  let real := [header_with_root (leaf_n 0); header_with_root (leaf_n 4)] in
  let fake := [header_with_root (leaf_n 0); header_with_root toy_root] in
  let m := toy_proof 1 1 in
  let att c := {| a_served := c; a_raw := nth 1 toy_raws []; a_height := 1; a_arg := Some m; a_net := m |} in
  attempts toy_hash 2 [toy_hash (concat real)] [] [att fake; att fake; att real; att fake] =
  ([(0%nat, real)],
   [AttMismatch {| t_height := 1; t_position := (-1)%Z; t_verified := false |};
    AttMismatch {| t_height := 1; t_position := (-1)%Z; t_verified := false |};
    AttDone ({| t_height := 1; t_position := 1; t_verified := false |}, RetTx, false) true;
    AttDone ({| t_height := 1; t_position := 1; t_verified := false |}, RetTx, false) false]).
Proof. by_toy_tab. Qed.

Lemma ex_db_row :
  let m := toy_proof 1 1 in
  let h0 := [header_with_root (leaf_n 0); header_with_root (leaf_n 0); header_with_root toy_root] in
  let s1 := drun toy_hash {| d_headers := h0; d_rows := [] |} [DSync (leaf_n 77) (nth 1 toy_raws []) 2 (Some m) m] in
  let s2 := drun toy_hash s1 [DSync (leaf_n 77) (nth 1 toy_raws []) 7 (Some m) m; DRestart] in
  (map (fun kv => c_st (snd kv)) (d_rows s1), map (fun kv => c_st (snd kv)) (d_rows s2)) =
  ([{| t_height := 2; t_position := 1; t_verified := true |}],
   [{| t_height := 7; t_position := (-1)%Z; t_verified := false |}]).
Proof. by_toy_tab. Qed.

Lemma cache_kept_on_replacement_refuted :
  let m := toy_proof 1 1 in
  let h0 := [header_with_root (leaf_n 0); header_with_root (leaf_n 0); header_with_root toy_root] in
  let s1 := final toy_hash {| w_headers := h0; w_cache := [] |} [OpRequest (leaf_n 77) (nth 1 toy_raws []) 2 (Some m) m] in
  let s_old := old_replace s1 2 [header_with_root (leaf_n 5)] in
  let s_new := final toy_hash s1 [OpReplace 2 [header_with_root (leaf_n 5)]] in
  (snd (request toy_hash s_old (leaf_n 77) (nth 1 toy_raws []) 2 (Some m) m),
   bytes_eqb (fold_branch toy_hash (branch toy_hash toy_leaves 1) 1 (toy_hash (nth 1 toy_raws [])))
             (header_root_raw (nth 2 (w_headers s_old) [])),
   snd (request toy_hash s_new (leaf_n 77) (nth 1 toy_raws []) 2 (Some m) m)) =
  (Hit {| t_height := 2; t_position := 1; t_verified := true |}, false,
   Fetched {| t_height := 2; t_position := 1; t_verified := false |} RetTx).
Proof. by_toy_tab. Qed.

Lemma ex_position_must_fit :
  let hdrs := [header_with_root (leaf_n 0); header_with_root toy_root] in
  let m := toy_proof 2 6 in
  let st := {| t_height := (-2)%Z; t_position := (-1)%Z; t_verified := false |} in
  (bytes_eqb (fold_branch toy_hash (branch toy_hash toy_leaves 2) 6 (nth 2 toy_leaves [])) toy_root,
   maybe_verify toy_hash hdrs st (nth 2 toy_raws []) 1 (Some m) m) =
  (true, ({| t_height := 1; t_position := (-1)%Z; t_verified := false |}, RetTx, false)).
Proof. by_toy_tab. Qed.
