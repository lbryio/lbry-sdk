(* The encoder on the values the codec reads back (wfv), and the decoder taken apart: its two leaf branches under names
   of their own (dec_int, dec_str; they rest on C17_Int), one equation per kind of first byte, and its two loops as
   instances of one (loop). What is proved about the decoder as a whole (C17_Prefix, C17_Total) is proved about these
   pieces. *)
From Coq Require Import NArith ZArith List Bool Lia.
From LV Require Import Lib.Bytes Lib.Decimal Model.C17 Proofs.C17_Int.
Import ListNotations.
Local Open Scope N_scope.

Definition key_ok (k : bval) : Prop :=
  match k with BInt z => int_ok z | BStr s => small s | _ => False end.

Fixpoint keys_sorted (d : list (bval * bval)) : bool :=
  match d with
  | [] => true
  | p :: r => match r with [] => true | q :: _ => key_leb (fst p) (fst q) && keys_sorted r end
  end.

Fixpoint keys_nodup (d : list (bval * bval)) : Prop :=
  match d with
  | [] => True
  | p :: r => Forall (fun q => key_eqb (fst p) (fst q) = false) r /\ keys_nodup r
  end.

(* values that bdecode (bencode v) reads back as the SAME value: integers and string lengths within Python's
   4300 digit limit (longer ones can be neither printed nor read), dictionary keys int / bytes (the only
   hashable results), listed in key order without repetition (bencode sorts the keys; a Python dict has no
   repeated keys).  Dictionaries and lists may be nested anywhere. *)
Inductive wfv : bval -> Prop :=
| wfv_int z : int_ok z -> wfv (BInt z)
| wfv_str s : small s -> wfv (BStr s)
| wfv_list l : Forall wfv l -> wfv (BList l)
| wfv_dict d : Forall (fun p => key_ok (fst p) /\ wfv (snd p)) d -> keys_sorted d = true ->
               keys_nodup d -> wfv (BDict d).

Fixpoint depth_of (v : bval) : nat :=
  match v with
  | BInt _ | BStr _ => 1
  | BList l => S (fold_right (fun x m => Nat.max (depth_of x) m) 0%nat l)
  | BDict d => S (fold_right (fun (p : bval * bval) m => Nat.max (let (_, x) := p in depth_of x) m) 1%nat d)
  end.

Lemma key_ok_wfv k : key_ok k -> wfv k.
Proof. destruct k; simpl; intro H; try contradiction; constructor; exact H. Qed.

Lemma key_ok_hashable k : key_ok k -> hashable k = true.
Proof. destruct k; simpl; intro H; try reflexivity; contradiction. Qed.

Lemma fold_max_le {A} (f : A -> nat) (l : list A) (b : nat) x :
  In x l -> (f x <= fold_right (fun y m => Nat.max (f y) m) b l)%nat.
Proof.
  induction l as [|y r IH]; intro H; [contradiction|].
  cbn [fold_right]. destruct H as [->|H]; [lia|]. specialize (IH H). lia.
Qed.

Lemma depth_of_elt l x : In x l -> (depth_of x < depth_of (BList l))%nat.
Proof. intro H. apply Nat.lt_succ_r, (fold_max_le depth_of l 0%nat x H). Qed.

Lemma depth_list_le l n : Forall (fun x => depth_of x <= n)%nat l -> (depth_of (BList l) <= S n)%nat.
Proof. intro H. cbn [depth_of]. apply le_n_S. induction H as [|x l Hx _ IH]; cbn [fold_right]; lia. Qed.

Lemma depth_of_pos v : (1 <= depth_of v)%nat.
Proof. destruct v; cbn [depth_of]; lia. Qed.

Lemma depth_of_item d k x : In (k, x) d -> key_ok k ->
  (depth_of k < depth_of (BDict d))%nat /\ (depth_of x < depth_of (BDict d))%nat.
Proof.
  intros H Hk.
  pose proof (fold_max_le (fun p : bval * bval => let (_, y) := p in depth_of y) d 1%nat (k, x) H) as Hm.
  assert (depth_of k = 1%nat) as -> by (destruct k; try reflexivity; contradiction).
  pose proof (depth_of_pos x). cbn [depth_of] in *. lia.
Qed.

Definition enc_pair (p : bval * bval) : bval * bytes :=
  match p with (k, x) => (k, benc k ++ benc x) end.

Definition benc_kv (p : bval * bval) : bytes := benc (fst p) ++ benc (snd p).

Lemma benc_BList l : benc (BList l) = c_l :: concat (map benc l) ++ [c_e].
Proof. reflexivity. Qed.

Lemma benc_BDict_gen d :
  benc (BDict d) = c_d :: concat (map snd (sort_items (map enc_pair d))) ++ [c_e].
Proof. reflexivity. Qed.

Lemma sort_items_sorted d : keys_sorted d = true -> sort_items (map enc_pair d) = map enc_pair d.
Proof.
  induction d as [|[k x] r IH]; intro H; [reflexivity|].
  cbn [map sort_items]. destruct r as [|[k' x'] r']; [reflexivity|].
  cbn [keys_sorted fst] in H. apply andb_true_iff in H as [H1 H2].
  rewrite IH by exact H2. cbn [map enc_pair insert_item fst]. rewrite H1. reflexivity.
Qed.

Lemma benc_BDict d : keys_sorted d = true -> benc (BDict d) = c_d :: concat (map benc_kv d) ++ [c_e].
Proof.
  intro H. rewrite benc_BDict_gen, sort_items_sorted by exact H.
  rewrite map_map. do 3 f_equal. apply map_ext. intros [k x]. reflexivity.
Qed.

(* An encoding in front of a tail, with every append nested to the right: in this form a value that holds variable
   strings evaluates to its bytes around them (in [benc] itself the closing 'e' is appended from outside, which leaves
   a variable at the head of a left-nested append). *)
Lemma concat_map_app {A} (f : A -> bytes) (g : A -> bytes -> bytes) : (forall a R, f a ++ R = g a R) ->
  forall l R, concat (map f l) ++ R = fold_right g R l.
Proof.
  intros H l R. induction l as [|a l IH]; [reflexivity|]. cbn [map concat fold_right]. rewrite <- app_assoc, IH. apply H.
Qed.

Lemma benc_BStr_app s T : benc (BStr s) ++ T = dec_of_N (blen s) ++ c_colon :: s ++ T.
Proof. cbn [benc]. rewrite <- app_assoc. reflexivity. Qed.

Lemma benc_BList_app l T : benc (BList l) ++ T = c_l :: fold_right (fun x R => benc x ++ R) (c_e :: T) l.
Proof. rewrite benc_BList. cbn [app]. rewrite <- app_assoc. f_equal. apply concat_map_app. reflexivity. Qed.

Lemma benc_BDict_app d T : keys_sorted d = true ->
  benc (BDict d) ++ T = c_d :: fold_right (fun p R => benc (fst p) ++ benc (snd p) ++ R) (c_e :: T) d.
Proof.
  intro H. rewrite (benc_BDict d H). cbn [app]. rewrite <- app_assoc. f_equal. apply concat_map_app.
  intros p R. symmetry. apply app_assoc.
Qed.

(* no encoding starts with the end marker 'e': a loop of the decoder that stands in front of one takes the element
   branch *)
Definition not_end (cur : bytes) : Prop :=
  match cur with c :: _ => isb 101 c = false | [] => False end.

Lemma not_end_benc v : not_end (benc v).
Proof.
  destruct v as [z|s|l|d]; cbn [benc not_end]; try (apply isb_c; reflexivity).
  destruct (dec_of_N_head (blen s)) as (b & r & -> & Hb & _). cbn [app not_end]. apply isb_digit; [exact Hb | lia].
Qed.

Lemma not_end_app cur m : not_end cur -> not_end (cur ++ m).
Proof. destruct cur; [contradiction | exact (fun H => H)]. Qed.

Lemma benc_length_pos v : (1 <= length (benc v))%nat.
Proof. pose proof (not_end_benc v) as H. destruct (benc v); [contradiction | cbn [length]; lia]. Qed.

Lemma find_split_app c a x T :
  Forall (fun b => isb c b = false) a -> isb c x = true -> find_split c (a ++ x :: T) = Some (a, T).
Proof.
  intros Ha Hx. induction Ha as [|b r Hb Hr IH]; cbn [app find_split].
  - rewrite Hx. reflexivity.
  - rewrite Hb, IH. reflexivity.
Qed.

Lemma find_split_inv c : forall s a t, find_split c s = Some (a, t) ->
  exists x, s = a ++ x :: t /\ Forall (fun b => isb c b = false) a /\ isb c x = true.
Proof.
  induction s as [|b r IH]; intros a t H; [discriminate|]. cbn [find_split] in H. destruct (isb c b) eqn:Eb.
  - inversion H; subst. exists b. repeat constructor. exact Eb.
  - destruct (find_split c r) as [[a' t']|]; [|discriminate]. inversion H; subst.
    destruct (IH _ _ eq_refl) as (x & -> & Ha & Hx). exists x. repeat constructor; assumption.
Qed.

Lemma take_clamped_firstn s : forall n, take_clamped n s = (firstn (N.to_nat n) s, skipn (N.to_nat n) s).
Proof.
  induction s as [|b r IH]; intro n; cbn [take_clamped].
  - destruct (N.to_nat n); reflexivity.
  - destruct (N.eqb_spec n 0) as [->|Hn]; [reflexivity|].
    rewrite IH. replace (N.to_nat n) with (S (N.to_nat (N.pred n))) by lia. reflexivity.
Qed.

(* the integer branch on what follows 'i', and the string branch on the whole input *)
Definition dec_int (rest : bytes) : res (bval * bytes) :=
  match find_split 101 rest with
  | Some (num, after) => match strict_int num with Some z => Ok (BInt z, after) | None => Err EDecode end
  | None => Err EDecode
  end.

Definition dec_str (data : bytes) : res (bval * bytes) :=
  match find_split 58 data with
  | Some (num, after) =>
      match strict_len num with
      | Some z => if (z <? 0)%Z then Err EDecode
                  else let (s, rest') := take_clamped (Z.to_N z) after in Ok (BStr s, rest')
      | None => Err EDecode
      end
  | None => Err EDecode
  end.

Lemma dec_of_Z_no_e z : Forall (fun b => isb 101 b = false) (dec_of_Z z).
Proof.
  destruct z; cbn [dec_of_Z]; [| |constructor; [apply isb_c; reflexivity|]]; apply dec_of_N_no; lia.
Qed.

Lemma dec_int_benc z T : int_ok z -> dec_int (dec_of_Z z ++ c_e :: T) = Ok (BInt z, T).
Proof.
  intro Hz. unfold dec_int.
  rewrite find_split_app, strict_int_dec_of_Z by (exact Hz || apply dec_of_Z_no_e || apply isb_c; reflexivity).
  reflexivity.
Qed.

Lemma dec_str_len n after : n < NBOUND ->
  dec_str (dec_of_N n ++ c_colon :: after) = Ok (BStr (firstn (N.to_nat n) after), skipn (N.to_nat n) after).
Proof.
  intro Hn. unfold dec_str.
  rewrite find_split_app, strict_len_dec_of_N by (exact Hn || (apply dec_of_N_no; lia) || apply isb_c; reflexivity).
  replace (Z.of_N n <? 0)%Z with false by (symmetry; apply Z.ltb_ge, N2Z.is_nonneg).
  rewrite N2Z.id, take_clamped_firstn. reflexivity.
Qed.

Lemma dec_str_benc s T : small s -> dec_str (dec_of_N (blen s) ++ c_colon :: s ++ T) = Ok (BStr s, T).
Proof.
  intro Hs. rewrite dec_str_len by exact Hs. unfold blen.
  rewrite Nat2N.id, firstn_app_exact, skipn_app_exact. reflexivity.
Qed.

Lemma bdec_S steps d b rest :
  bdec steps (S d) (b :: rest) =
  if isb 105 b then dec_int rest
  else if isb 108 b then list_loop (bdec steps d) steps rest []
  else if isb 100 b then dict_loop (bdec steps d) steps rest []
  else dec_str (b :: rest).
Proof. reflexivity. Qed.

Lemma bdec_i steps d rest : bdec steps (S d) (c_i :: rest) = dec_int rest.
Proof. reflexivity. Qed.

Lemma bdec_l steps d rest : bdec steps (S d) (c_l :: rest) = list_loop (bdec steps d) steps rest [].
Proof. reflexivity. Qed.

Lemma bdec_d steps d rest : bdec steps (S d) (c_d :: rest) = dict_loop (bdec steps d) steps rest [].
Proof. reflexivity. Qed.

Lemma bdec_digit steps d b rest : is_digit b = true -> bdec steps (S d) (b :: rest) = dec_str (b :: rest).
Proof. intro Hb. rewrite bdec_S, !(isb_digit _ b Hb) by lia. reflexivity. Qed.

Lemma bdec_dec steps d n rest : bdec steps (S d) (dec_of_N n ++ rest) = dec_str (dec_of_N n ++ rest).
Proof. destruct (dec_of_N_head n) as (b & r & -> & Hb & _). apply bdec_digit. exact Hb. Qed.

Lemma list_loop_cons dec1 st c cur' acc :
  list_loop dec1 (S st) (c :: cur') acc =
  if isb 101 c then Ok (BList (rev acc), cur')
  else match dec1 (c :: cur') with
       | Ok (v, cur2) => list_loop dec1 st cur2 (v :: acc)
       | Err e => Err e
       end.
Proof. reflexivity. Qed.

Lemma dict_loop_cons dec1 st c cur' acc :
  dict_loop dec1 (S st) (c :: cur') acc =
  if isb 101 c then Ok (BDict acc, cur')
  else match dec1 (c :: cur') with
       | Err e => Err e
       | Ok (k, cur2) =>
           match dec1 cur2 with
           | Err e => Err e
           | Ok (v, cur3) =>
               if hashable k then dict_loop dec1 st cur3 (pydict_set acc k v) else Err EDecode
           end
       end.
Proof. reflexivity. Qed.

(* Both loops of the decoder are this one: elements are read by [dec] until the end marker and gathered by [add];
   [fin] wraps what was gathered. *)
Section Loop.
  Variables A Acc : Type.
  Variable dec : bytes -> res (A * bytes).
  Variable add : Acc -> A -> Acc.
  Variable fin : Acc -> bval.

  Fixpoint loop (steps : nat) (cur : bytes) (acc : Acc) : res (bval * bytes) :=
    match steps with
    | O => Err EInternal
    | S st =>
        match cur with
        | [] => Err EIndex
        | c :: cur' =>
            if isb 101 c then Ok (fin acc, cur')
            else match dec cur with
                 | Ok (a, cur2) => loop st cur2 (add acc a)
                 | Err e => Err e
                 end
        end
    end.

  Lemma loop_end st T acc : loop (S st) (c_e :: T) acc = Ok (fin acc, T).
  Proof. reflexivity. Qed.

  Lemma loop_step st cur acc : not_end cur ->
    loop (S st) cur acc = match dec cur with Ok (a, cur2) => loop st cur2 (add acc a) | Err e => Err e end.
  Proof. destruct cur; [contradiction|]. intro H. cbn [loop]. rewrite H. reflexivity. Qed.

  Lemma loop_shape : forall st cur acc v rest, loop st cur acc = Ok (v, rest) -> exists s, v = fin s.
  Proof.
    induction st as [|st IH]; intros cur acc v rest H; [discriminate|].
    destruct cur as [|c cur']; [discriminate|]. cbn [loop] in H.
    destruct (isb 101 c).
    - inversion H; subst. eexists; reflexivity.
    - destruct (dec (c :: cur')) as [[v1 cur2]|e]; [|discriminate]. eapply IH; exact H.
  Qed.
End Loop.
Arguments loop {A Acc} dec add fin steps cur acc.

(* a dictionary's element: a key, then a value, then Python hashes the key *)
Definition pair_dec (dec1 : bytes -> res (bval * bytes)) (cur : bytes) : res (bval * bval * bytes) :=
  match dec1 cur with
  | Err e => Err e
  | Ok (k, cur2) =>
      match dec1 cur2 with
      | Err e => Err e
      | Ok (v, cur3) => if hashable k then Ok (k, v, cur3) else Err EDecode
      end
  end.

Lemma list_loop_eq dec1 : forall st cur acc,
  list_loop dec1 st cur acc = loop dec1 (fun acc v => v :: acc) (fun acc => BList (rev acc)) st cur acc.
Proof.
  induction st as [|st IH]; intros [|c cur'] acc; try reflexivity. rewrite list_loop_cons. cbn [loop].
  destruct (isb 101 c); [reflexivity|]. destruct (dec1 (c :: cur')) as [[v cur2]|e]; [apply IH | reflexivity].
Qed.

Lemma dict_loop_eq dec1 : forall st cur acc,
  dict_loop dec1 st cur acc = loop (pair_dec dec1) (fun acc p => pydict_set acc (fst p) (snd p)) BDict st cur acc.
Proof.
  induction st as [|st IH]; intros [|c cur'] acc; try reflexivity. rewrite dict_loop_cons. cbn [loop]. unfold pair_dec.
  destruct (isb 101 c); [reflexivity|]. destruct (dec1 (c :: cur')) as [[k cur2]|e]; [|reflexivity].
  destruct (dec1 cur2) as [[v cur3]|e]; [|reflexivity]. destruct (hashable k); [apply IH | reflexivity].
Qed.

Lemma bdec_first_byte steps depth b r v rest : bdec steps depth (b :: r) = Ok (v, rest) ->
  match v with
  | BInt _ => isb 105 b = true
  | BList _ => isb 108 b = true
  | BDict _ => isb 100 b = true
  | BStr _ => isb 105 b = false /\ isb 108 b = false /\ isb 100 b = false
  end.
Proof.
  destruct depth as [|dp]; [discriminate|]. rewrite bdec_S. unfold dec_int, dec_str.
  destruct (isb 105 b).
  { destruct (find_split 101 r) as [[num after]|]; [destruct (strict_int num)|]; try discriminate.
    intro H. inversion H. reflexivity. }
  destruct (isb 108 b); [rewrite list_loop_eq; intro E; apply loop_shape in E as [s ->]; reflexivity|].
  destruct (isb 100 b); [rewrite dict_loop_eq; intro E; apply loop_shape in E as [s ->]; reflexivity|].
  destruct (find_split 58 (b :: r)) as [[num after]|]; [|discriminate].
  destruct (strict_len num) as [z|]; [|discriminate].
  destruct (z <? 0)%Z; [discriminate|]. destruct (take_clamped (Z.to_N z) after). intro H. inversion H. auto.
Qed.
