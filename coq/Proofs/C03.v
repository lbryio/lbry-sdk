(* A selection is a sub-multiset of what was offered; sub-multisets are handled by counting occurrences ([cnt],
   [submset]) so that [lia] closes the bookkeeping goals.  Each loop of the code has one lemma: [bnb_loop_spec] (what
   holds of every candidate holds of branch_and_bound's answer), [sq_loop_spec] over [takes] (what a pass of the sqlite
   chooser takes from a list of rows), [rounds_spec] over [round_cases] (the rounds of Transaction.create). *)
From Coq Require Import NArith ZArith List Bool Lia Permutation.
From LV Require Import Lib.Lists Lib.Isort Model.C03.
Import ListNotations.
Local Open Scope Z_scope.

Lemma utxo_eq_dec : forall a b : utxo, {a = b} + {a <> b}.
Proof. decide equality; try apply N.eq_dec; try apply Z.eq_dec; apply bool_dec. Qed.

Definition cnt (l : list utxo) (x : utxo) : nat := count_occ utxo_eq_dec l x.
Definition one (u x : utxo) : nat := if utxo_eq_dec u x then 1%nat else 0%nat.
Arguments cnt : simpl never.
Arguments one : simpl never.

Lemma cnt_nil x : cnt [] x = 0%nat. Proof. reflexivity. Qed.
Lemma cnt_cons u l x : cnt (u :: l) x = (one u x + cnt l x)%nat.
Proof. unfold cnt, one; simpl; destruct (utxo_eq_dec u x); reflexivity. Qed.
Lemma cnt_app a b x : cnt (a ++ b) x = (cnt a x + cnt b x)%nat.
Proof. apply count_occ_app. Qed.
Lemma cnt_rev a x : cnt (rev a) x = cnt a x.
Proof. apply count_occ_rev. Qed.
Lemma one_self u : one u u = 1%nat.
Proof. unfold one; destruct (utxo_eq_dec u u); congruence. Qed.
Lemma one_le u x : (one u x <= 1)%nat.
Proof. unfold one; destruct (utxo_eq_dec u x); lia. Qed.
Lemma cnt_perm l l' x : Permutation l l' -> cnt l x = cnt l' x.
Proof. induction 1; rewrite ?cnt_cons; lia. Qed.
Lemma In_cnt u l : In u l <-> (1 <= cnt l u)%nat.
Proof. apply (count_occ_In utxo_eq_dec). Qed.

Definition submset (r l : list utxo) : Prop := forall x, (cnt r x <= cnt l x)%nat.

Lemma submset_NoDup r l : submset r l -> NoDup l -> NoDup r.
Proof.
  intros H N. apply (NoDup_count_occ utxo_eq_dec). intro x.
  apply (proj1 (NoDup_count_occ utxo_eq_dec l)) with (x := x) in N. specialize (H x). unfold cnt in H. lia.
Qed.
Lemma submset_incl r l : submset r l -> incl r l.
Proof. intros H x Hx. apply In_cnt in Hx. apply In_cnt. specialize (H x). lia. Qed.
Lemma submset_refl l : submset l l. Proof. intro; lia. Qed.
Lemma submset_trans a b c : submset a b -> submset b c -> submset a c.
Proof. intros H1 H2 x; specialize (H1 x); specialize (H2 x); lia. Qed.
Lemma submset_nil l : submset [] l. Proof. intro; rewrite cnt_nil; lia. Qed.
Lemma submset_filter f l : submset (filter f l) l.
Proof. intro x. induction l; simpl; [lia|]. destruct (f a); rewrite ?cnt_cons; lia. Qed.
Lemma submset_perm l l' : Permutation l l' -> submset l l'.
Proof. intros P x. rewrite (cnt_perm l l' x P). lia. Qed.
Lemma submset_single u l : In u l -> submset [u] l.
Proof.
  intros H x. rewrite cnt_cons, cnt_nil. unfold one. destruct (utxo_eq_dec u x); [subst; apply In_cnt in H|]; lia.
Qed.

Lemma filter_all {A} (p : A -> bool) l : (forall x, In x l -> p x = true) -> filter p l = l.
Proof.
  induction l; simpl; intro H; [reflexivity|]. rewrite (H a) by (left; reflexivity).
  f_equal. apply IHl. intros; apply H; right; assumption.
Qed.

Lemma nonempty_false {A} (l : list A) : nonempty l = false <-> l = [].
Proof. destruct l; simpl; split; congruence. Qed.
Lemma nonempty_true {A} (l : list A) : nonempty l = true <-> l <> [].
Proof. destruct l; simpl; split; congruence. Qed.

(* amounts below this are inside the windows of the sqlite chooser (see [phase_stop]) *)
Definition SQ_REACH : Z := 92233720369.

Section Sel.
  Variable fpb : Z.
  Variable shuffle : list utxo -> list utxo.
  Hypothesis shuffle_perm : forall l, Permutation l (shuffle l).
  Notation eff := (eff fpb).
  Notation sum_eff := (sum_eff fpb).

  Lemma sum_eff_app a b : sum_eff (a ++ b) = sum_eff a + sum_eff b.
  Proof. induction a; simpl; lia. Qed.
  Lemma sum_eff_perm l l' : Permutation l l' -> sum_eff l = sum_eff l'.
  Proof. induction 1; simpl; lia. Qed.
  Lemma sum_eff_rev a : sum_eff (rev a) = sum_eff a.
  Proof. symmetry. apply sum_eff_perm, Permutation_rev. Qed.
  Lemma sum_eff_nonneg l : (forall u, In u l -> 0 <= eff u) -> 0 <= sum_eff l.
  Proof.
    induction l; simpl; intros H; [lia|].
    assert (0 <= eff a) by (apply H; auto). assert (0 <= sum_eff l) by (apply IHl; auto). lia.
  Qed.
  Lemma sum_eff_pos l : l <> [] -> (forall u, In u l -> 0 < eff u) -> 0 < sum_eff l.
  Proof.
    destruct l; [congruence|]. intros _ H. simpl.
    assert (0 < eff u) by (apply H; left; auto).
    assert (0 <= sum_eff l) by (apply sum_eff_nonneg; intros; apply Z.lt_le_incl, H; right; auto). lia.
  Qed.
  Lemma submset_sum_le r : forall l, submset r l -> (forall u, In u l -> 0 <= eff u) -> sum_eff r <= sum_eff l.
  Proof.
    induction r as [|u r IH]; intros l S P; simpl.
    - apply sum_eff_nonneg; assumption.
    - assert (Hin : In u l).
      { apply In_cnt. specialize (S u). rewrite cnt_cons, one_self in S. lia. }
      apply in_split in Hin. destruct Hin as [l1 [l2 ->]].
      rewrite sum_eff_app. simpl.
      assert (sum_eff r <= sum_eff (l1 ++ l2)).
      { apply IH.
        - intro x. specialize (S x). rewrite !cnt_app, !cnt_cons in *. lia.
        - intros v Hv. apply P. apply in_app_iff in Hv. apply in_app_iff. simpl. tauto. }
      rewrite sum_eff_app in H. lia.
  Qed.

  Lemma sort_desc_perm l : Permutation (sort_desc fpb l) l.
  Proof.
    exact (sort_perm (fun x y => eff y <=? eff x) (insert_desc fpb) (sort_desc fpb)
      (fun _ => eq_refl) (fun _ _ _ => eq_refl) eq_refl (fun _ _ => eq_refl) l).
  Qed.

  Variables target coc : Z.
  Hypothesis coc_nonneg : 0 <= coc.

  (* what every strategy guarantees about its answer *)
  Definition sound (txos r : list utxo) : Prop := submset r txos /\ (r <> [] -> target <= sum_eff r).

  (* what an empty answer [r] to the offered [txos] means, for the five strategies that answer whenever their coverage
     predicate holds *)
  Definition empty_iff (s : strategy) (txos r : list utxo) : Prop :=
    match s with
    | Standard | PreferConfirmed => r = [] <-> sum_eff txos < target
    | OnlyConfirmed => r = [] <-> sum_eff (filter (fun u => uheight u >? 0) txos) < target
    | ClosestMatch => r = [] <-> forall u, In u txos -> eff u < target + coc
    | RandomDraw => r = [] <-> sum_eff txos < target + coc
    | BranchAndBound | Sqlite => True
    end.
  (* ... and with what holds of the other two: branch_and_bound may run out of fuel, the windows of sqlite reach only so far *)
  Definition complete (s : strategy) (txos r : list utxo) : Prop :=
    match s with
    | BranchAndBound => (r <> [] -> target <= sum_eff r <= target + coc) /\ (target <= sum_eff txos <= target + coc -> r <> [])
    | Sqlite => (forall u, In u txos -> utype0 u = true -> uamount u < SQ_REACH) ->
                (r = [] <-> sum_eff (filter utype0 txos) < target + coc)
    | _ => empty_iff s txos r
    end.

  Lemma sound_nil txos : sound txos [].
  Proof. split; [apply submset_nil | congruence]. Qed.
  Lemma sound_sub a b r : submset a b -> sound a r -> sound b r.
  Proof. intros H [H1 H2]; split; [eapply submset_trans; eauto | assumption]. Qed.

  Lemma closest_loop_some l : forall best c u, closest_loop fpb target coc l best = Some (c, u) ->
    best = Some (c, u) \/ (In u l /\ target + coc <= eff u).
  Proof.
    induction l as [|a l IH]; intros best c u; cbn [closest_loop]; [auto|].
    destruct (eff a >=? target + coc) eqn:E; [destruct best as [[c0 u0]|]; [destruct (_ <? c0)|]|];
      intro H; apply IH in H; destruct H as [H|[H1 H2]]; try (right; simpl; tauto); try (left; assumption);
      inversion H; subst; right; split; try (left; reflexivity); lia.
  Qed.
  Lemma closest_loop_none l : forall best, closest_loop fpb target coc l best = None ->
    best = None /\ forall u, In u l -> eff u < target + coc.
  Proof.
    induction l as [|a l IH]; intro best; cbn [closest_loop]; [intros ->; split; [reflexivity | intros ? []]|].
    destruct (eff a >=? target + coc) eqn:E; [destruct best as [[c0 u0]|]; [destruct (_ <? c0)|]|];
      intro H; apply IH in H; destruct H as [H1 H2]; try discriminate.
    split; [assumption|]. intros u [<-|Hu]; [lia | auto].
  Qed.

  Lemma closest_sound l : sound l (closest fpb target coc l).
  Proof.
    unfold closest. destruct (closest_loop fpb target coc l None) as [[c u]|] eqn:H; [|apply sound_nil].
    apply closest_loop_some in H. destruct H as [H|[Hin Hu]]; [discriminate|].
    split; [apply submset_single; assumption | intros _; simpl; lia].
  Qed.
  Lemma closest_complete l : closest fpb target coc l = [] <-> forall u, In u l -> eff u < target + coc.
  Proof.
    unfold closest. destruct (closest_loop fpb target coc l None) as [[c u]|] eqn:H.
    - split; [discriminate|]. intro Hall. apply closest_loop_some in H. destruct H as [H|[Hin Hu]]; [discriminate|].
      specialize (Hall u Hin). lia.
    - split; [intros _; apply (closest_loop_none _ _ H) | reflexivity].
  Qed.

  Lemma draw_spec l a s :
    draw fpb target coc l a = Some s ->
    submset s l /\ target + coc <= a + sum_eff s /\ s <> [].
  Proof.
    revert a s; induction l as [|c l IH]; intros a s; simpl; [discriminate|].
    destruct (_ >=? _) eqn:E.
    - intros H; inversion H; subst. split; [apply submset_single; left; reflexivity|]. simpl; split; [lia | congruence].
    - destruct (draw _ _ _ l _) eqn:D; [|discriminate]. intros H; inversion H; subst.
      apply IH in D. destruct D as [D1 [D2 _]]. split; [|split; [simpl; lia | congruence]].
      intro x; rewrite !cnt_cons; specialize (D1 x); lia.
  Qed.
  Lemma draw_none l : forall a, a < target + coc ->
    draw fpb target coc l a = None -> a + sum_eff l < target + coc.
  Proof.
    induction l as [|c l IH]; intros a Ha; simpl; [lia|].
    destruct (_ >=? _) eqn:E; [discriminate|].
    specialize (IH (a + eff c) ltac:(lia)). destruct (draw _ _ _ l _); [discriminate|].
    intros _. specialize (IH eq_refl). lia.
  Qed.
  Lemma random_draw_sound l : sound l (random_draw fpb shuffle target coc l).
  Proof.
    unfold random_draw. destruct (draw _ _ _ _ _) eqn:D; [|apply sound_nil].
    apply draw_spec in D. destruct D as [D1 [D2 _]]. split; [|intros _; lia].
    eapply submset_trans; [exact D1 | apply submset_perm, Permutation_sym, shuffle_perm].
  Qed.
  Lemma random_draw_complete l :
    (forall u, In u l -> 0 <= eff u) -> 0 < target ->
    (random_draw fpb shuffle target coc l = [] <-> sum_eff l < target + coc).
  Proof.
    intros Hp Ht. unfold random_draw. rewrite (sum_eff_perm _ _ (shuffle_perm l)).
    destruct (draw _ _ _ _ _) eqn:D.
    - (* a drawn selection is never empty and is worth no more than the whole list *)
      apply draw_spec in D. destruct D as [D1 [D2 D3]]. split; [contradiction|]. intro Hlt.
      assert (sum_eff l0 <= sum_eff (shuffle l)); [|lia].
      apply submset_sum_le; [assumption|]. intros u Hu. apply Hp.
      eapply Permutation_in; [apply Permutation_sym, shuffle_perm | exact Hu].
    - split; [intros _; apply draw_none in D; lia | reflexivity].
  Qed.

  Notation sum_incl := (sum_incl fpb).

  Lemma bnb_result_sum best : sum_eff (bnb_result best) = sum_incl best.
  Proof.
    unfold bnb_result, entry. induction best as [|[u b] d IH]; simpl; [reflexivity|].
    rewrite filter_app, map_app, sum_eff_app, IH. destruct b; simpl; lia.
  Qed.
  Lemma bnb_result_sub best : submset (bnb_result best) (map fst best).
  Proof.
    unfold bnb_result, entry. intro x. induction best as [|[u b] d IH]; simpl; [lia|].
    rewrite filter_app, map_app, cnt_app, cnt_cons. destruct b; simpl; rewrite ?cnt_cons, cnt_nil; lia.
  Qed.

  Section Bnb.
    Variable txos : list utxo.      (* the offered outputs; the loop runs over a permutation of them *)

    Definition state_inv (cv ca : Z) (done : list entry) (rest : list utxo) : Prop :=
      cv = sum_incl done /\ ca = sum_eff rest /\
      forall x, (cnt (map fst done) x + cnt rest x = cnt txos x)%nat.

    (* an answer worth recording: made of offered outputs, inside the window *)
    Definition cand (r : list utxo) : Prop := submset r txos /\ target <= sum_eff r <= target + coc.

    (* txos[len(current_selection)] is never out of range: in every state that satisfies the loop
       invariant the branch that reads it is only taken while undecided outputs are left *)
    Lemma bnb_index_in_range cv ca done rest :
      state_inv cv ca done rest ->
      (cv + ca <? target) || (cv >? target + coc) = false -> (cv >=? target) = false -> rest <> [].
    Proof.
      intros [_ [Ica _]] H1 H2 ->. simpl in Ica. apply orb_false_elim in H1. destruct H1 as [H1 _]. lia.
    Qed.

    Lemma state_inv_cand cv ca done rest :
      state_inv cv ca done rest -> target <= cv <= target + coc -> cand (bnb_result done).
    Proof.
      intros [Icv [_ Icnt]] H. split; [|rewrite bnb_result_sum; lia].
      eapply submset_trans; [apply bnb_result_sub|]. intro x; specialize (Icnt x); lia.
    Qed.

    Lemma state_inv_push (b : bool) cv ca done u r :
      state_inv cv ca done (u :: r) ->
      state_inv (if b then cv + eff u else cv) (ca - eff u) ((u, b) :: done) r.
    Proof.
      intros [Icv [Ica Icnt]]. split; [destruct b; simpl; lia|]. split; [simpl in Ica; lia|].
      intro x; specialize (Icnt x); simpl; rewrite !cnt_cons in *; lia.
    Qed.

    (* backtracking: the excluded outputs on top go back to the undecided ones, the last included
       output becomes excluded *)
    Lemma backtrack_inv done : forall cv ca rest,
      state_inv cv ca done rest ->
      let '(done1, rest1, ca1) := pop_false fpb done rest ca in
      match done1 with
      | [] => True
      | (u, _) :: d => state_inv (cv - eff u) ca1 ((u, false) :: d) rest1
      end.
    Proof.
      induction done as [|[u [|]] d IH]; intros cv ca rest [Icv [Ica Icnt]]; simpl; [exact I| |].
      - split; [simpl in *; lia|]. split; [assumption|]. exact Icnt.
      - apply IH. split; [assumption|]. split; [simpl; lia|].
        intro x; specialize (Icnt x); simpl in Icnt; rewrite !cnt_cons in *; lia.
    Qed.

    (* a first descent that is bound to record a candidate: nothing has been excluded yet, and the undecided outputs
       bring the selection into the window before the fuel runs out *)
    Definition descending (fuel : nat) (cv ca : Z) (done : list entry) (rest : list utxo) (bw : Z) : Prop :=
      (forall e, In e done -> snd e = true) /\ (forall u, In u rest -> 0 <= eff u) /\
      target <= cv + ca <= target + coc /\ coc <= bw /\ (length rest < fuel)%nat.

    (* One invariant for the loop: the answer read off the best selection so far is acceptable, or nothing acceptable has
       been seen yet and the loop is on a first descent.  Acceptable is any [P] that holds of every candidate. *)
    Lemma bnb_loop_spec (P : list utxo -> Prop) : (forall r, cand r -> P r) ->
      forall fuel cv ca done rest bw best, state_inv cv ca done rest ->
      P (bnb_result best) \/ descending fuel cv ca done rest bw ->
      P (bnb_result (fst (bnb_loop fpb target coc fuel cv ca done rest bw best))).
    Proof.
      intro HP. induction fuel as [|f IH]; intros cv ca done rest bw best Inv H; cbn [bnb_loop].
      { destruct H as [H|[_ [_ [_ [_ H]]]]]; [exact H | inversion H]. }
      (* after a decision the loop backtracks; [best1] is the best selection at that moment *)
      assert (Back : forall bw1 best1, P (bnb_result best1) ->
        P (bnb_result (fst (let '(done1, rest1, ca1) := pop_false fpb done rest ca in
                            match done1 with
                            | [] => (best1, f)
                            | (u, _) :: d => bnb_loop fpb target coc f (cv - eff u) ca1 ((u, false) :: d) rest1 bw1 best1
                            end)))).
      { intros bw1 best1 Hb. pose proof (backtrack_inv done cv ca rest Inv) as B.
        destruct (pop_false fpb done rest ca) as [[done1 rest1] ca1]. destruct done1 as [|[u ?] d]; [exact Hb|].
        apply IH; [exact B | left; exact Hb]. }
      (* on a first descent neither bound cuts, and a selection that reaches the target is recorded *)
      assert (HD : descending (S f) cv ca done rest bw -> target <= cv + ca /\ cv <= target + coc /\ cv - target <= bw).
      { intros [_ [Hpos [Hwin [Hbw _]]]].
        assert (0 <= ca) by (destruct Inv as [_ [-> _]]; apply sum_eff_nonneg; assumption). lia. }
      destruct ((cv + ca <? target) || (cv >? target + coc)) eqn:C1.
      { destruct H as [H|Hd]; [apply Back, H | apply HD in Hd; apply orb_prop in C1; destruct C1; lia]. }
      apply orb_false_elim in C1.
      destruct (cv >=? target) eqn:C2.
      - destruct (cv - target <=? bw) eqn:C3; apply Back.
        + apply HP, (state_inv_cand cv ca done rest Inv). lia.
        + destruct H as [H|Hd]; [exact H | apply HD in Hd; lia].
      - destruct rest as [|u r].
        { destruct H as [H|Hd]; [exact H | apply HD in Hd; destruct Inv as [_ [Ica _]]; simpl in Ica; lia]. }
        match goal with |- context [if ?c then _ else _] => destruct c eqn:Hskip end.
        + apply IH; [apply (state_inv_push false), Inv|]. destruct H as [H|[Hall _]]; [left; exact H|].
          destruct done as [|[p [|]] d]; try discriminate. specialize (Hall (p, false) (or_introl eq_refl)). discriminate.
        + apply IH; [apply (state_inv_push true), Inv|]. destruct H as [H|[Hall [Hpos [Hwin [Hbw Hfuel]]]]]; [left; exact H|].
          right. split; [|split; [|split; [|split]]]; try lia.
          * intros e [<-|He]; [reflexivity | apply Hall; assumption].
          * intros; apply Hpos; right; assumption.
          * simpl in Hfuel; lia.
    Qed.

  End Bnb.

  Lemma state_inv_init txos rest avail :
    Permutation rest txos -> avail = sum_eff txos -> state_inv txos 0 avail [] rest.
  Proof.
    intros P ->. split; [reflexivity|]. split; [symmetry; apply sum_eff_perm, P|].
    intro x. rewrite (cnt_perm rest txos x P). reflexivity.
  Qed.

  Lemma bnb_fst fuel txos avail :
    fst (bnb fpb target coc fuel txos avail) = bnb_result (fst (bnb_loop fpb target coc fuel 0 avail [] (sort_desc fpb txos) coc [])).
  Proof. unfold bnb. destruct (bnb_loop _ _ _ _ _ _ _ _ _ _). reflexivity. Qed.

  Lemma bnb_spec fuel txos avail :
    avail = sum_eff txos ->
    let r := fst (bnb fpb target coc fuel txos avail) in r = [] \/ cand txos r.
  Proof.
    intro Ha. cbv zeta. rewrite bnb_fst. apply (bnb_loop_spec txos (fun r => r = [] \/ cand txos r)).
    - intros r Hr. right. exact Hr.
    - apply state_inv_init; [apply sort_desc_perm | exact Ha].
    - left. left. reflexivity.
  Qed.

  Lemma bnb_sound fuel txos avail :
    avail = sum_eff txos -> sound txos (fst (bnb fpb target coc fuel txos avail)).
  Proof.
    intro Ha. destruct (bnb_spec fuel txos avail Ha) as [->|[S W]]; [apply sound_nil|].
    split; [assumption | intros _; apply W].
  Qed.

  (* closest_match and random_draw see the list as branch_and_bound sorted it in place *)
  Lemma standard_sound fuel txos avail :
    avail = sum_eff txos -> sound txos (fst (standard fpb shuffle target coc fuel txos avail)).
  Proof.
    intro Ha. unfold standard. pose proof (bnb_sound fuel txos avail Ha) as B.
    destruct (bnb fpb target coc fuel txos avail) as [r f]. simpl in B.
    destruct (nonempty r); simpl; [assumption|].
    apply (sound_sub (sort_desc fpb txos)); [apply submset_perm, sort_desc_perm|].
    destruct (nonempty (closest fpb target coc (sort_desc fpb txos))); simpl;
      [apply closest_sound | apply random_draw_sound].
  Qed.

  Lemma only_confirmed_sound fuel txos :
    sound (filter (fun u => uheight u >? 0) txos) (fst (only_confirmed fpb shuffle target coc fuel txos)).
  Proof.
    unfold only_confirmed. destruct (nonempty _); [|apply sound_nil].
    destruct (_ >? _); [apply sound_nil | apply standard_sound; reflexivity].
  Qed.

  Lemma only_confirmed_confirmed fuel txos u :
    In u (fst (only_confirmed fpb shuffle target coc fuel txos)) -> 0 < uheight u.
  Proof.
    intro H. apply (submset_incl _ _ (proj1 (only_confirmed_sound fuel txos))), filter_In in H. lia.
  Qed.

  Theorem select_sound s txos : sound txos (select fpb shuffle target coc s txos).
  Proof.
    unfold select. destruct (nonempty txos); [|apply sound_nil].
    destruct (_ >? _); [apply sound_nil|].
    pose proof (sound_sub _ txos _ (submset_filter _ txos) (only_confirmed_sound FUEL txos)) as O.
    destruct s; try (apply standard_sound; reflexivity).
    - destruct (only_confirmed _ _ _ _ _ _) as [r f]. simpl in O.
      destruct (nonempty r); [assumption | apply standard_sound; reflexivity].
    - exact O.
    - apply bnb_sound; reflexivity.
    - apply closest_sound.
    - apply random_draw_sound.
  Qed.

  Hypothesis target_pos : 0 < target.

  Lemma bnb_total_in_window fuel txos avail :
    avail = sum_eff txos -> (forall u, In u txos -> 0 <= eff u) ->
    target <= avail <= target + coc -> (length txos < fuel)%nat ->
    fst (bnb fpb target coc fuel txos avail) <> [].
  Proof.
    intros Ha Hp Hw Hf. rewrite bnb_fst. apply (bnb_loop_spec txos (fun r => r <> [])).
    - intros r [_ W] ->. simpl in W. lia.
    - apply state_inv_init; [apply sort_desc_perm | exact Ha].
    - right. split; [intros e [] | split; [|split; [lia | split; [lia|]]]].
      + intros u Hu. apply Hp. eapply Permutation_in; [apply sort_desc_perm | exact Hu].
      + rewrite (Permutation_length (sort_desc_perm txos)). assumption.
  Qed.

  Lemma standard_complete fuel txos avail :
    avail = sum_eff txos -> (forall u, In u txos -> 0 < eff u) ->
    target <= avail -> (length txos < fuel)%nat ->
    fst (standard fpb shuffle target coc fuel txos avail) <> [].
  Proof.
    intros Ha Hp Ht Hf. unfold standard.
    assert (Hp0 : forall u, In u txos -> 0 <= eff u) by (intros; apply Z.lt_le_incl, Hp; assumption).
    pose proof (bnb_total_in_window fuel txos avail Ha Hp0) as B.
    destruct (bnb fpb target coc fuel txos avail) as [r f]. simpl in B.
    destruct (nonempty r) eqn:Er; simpl; [apply nonempty_true; assumption|].
    apply nonempty_false in Er.
    destruct (nonempty (closest _ _ _ _)) eqn:Ec; simpl; [apply nonempty_true; assumption|].
    destruct (Z_le_gt_dec avail (target + coc)) as [Hle|Hgt]; [exfalso; apply B; auto; lia|].
    intro E. apply random_draw_complete in E; auto.
    - rewrite (sum_eff_perm _ _ (sort_desc_perm txos)) in E. lia.
    - intros u Hu. apply Hp0. eapply Permutation_in; [apply sort_desc_perm | exact Hu].
  Qed.

  Lemma only_confirmed_complete fuel txos :
    (forall u, In u txos -> 0 < eff u) -> (length txos < fuel)%nat ->
    let conf := filter (fun u => uheight u >? 0) txos in
    (fst (only_confirmed fpb shuffle target coc fuel txos) = [] <-> sum_eff conf < target) /\
    (fst (only_confirmed fpb shuffle target coc fuel txos) = [] ->
     snd (only_confirmed fpb shuffle target coc fuel txos) = fuel).
  Proof.
    intros Hp Hf conf. unfold only_confirmed. fold conf.
    assert (Hpc : forall u, In u conf -> 0 < eff u) by (intros u Hu; apply Hp; apply filter_In in Hu; tauto).
    destruct (nonempty conf) eqn:En.
    - destruct (target >? sum_eff conf) eqn:Et; simpl.
      + split; [split; [lia | reflexivity] | reflexivity].
      + pose proof (standard_complete fuel conf (sum_eff conf) eq_refl Hpc) as S.
        assert (Hlen : (length conf <= length txos)%nat) by apply filter_length_le.
        split; [split|]; intros E; try lia; exfalso; apply S; auto; lia.
    - apply nonempty_false in En. rewrite En. simpl. split; [split; [lia | reflexivity] | reflexivity].
  Qed.

  Lemma select_empty_list s : select fpb shuffle target coc s [] = [].
  Proof. reflexivity. Qed.
  Lemma select_short s txos : sum_eff txos < target -> select fpb shuffle target coc s txos = [].
  Proof.
    intro H. unfold select. destruct (nonempty txos); [|reflexivity].
    destruct (target >? sum_eff txos) eqn:E; [reflexivity | lia].
  Qed.

  (* Sqlite never comes to [select] *)
  Theorem select_complete s txos :
    (forall u, In u txos -> 0 < eff u) -> (N.of_nat (length txos) < MAXIMUM_TRIES)%N -> s <> Sqlite ->
    complete s txos (select fpb shuffle target coc s txos).
  Proof.
    intros Hp Hlen Hs. assert (Hfuel : (length txos < FUEL)%nat) by (unfold FUEL; lia). clear Hlen.
    assert (Hp0 : forall u, In u txos -> 0 <= eff u) by (intros; apply Z.lt_le_incl, Hp; assumption).
    assert (Hconf : sum_eff (filter (fun u => uheight u >? 0) txos) <= sum_eff txos)
      by (apply submset_sum_le; [apply submset_filter | assumption]).
    destruct (Z_lt_le_dec (sum_eff txos) target) as [Hlt|Hge].
    { (* too little is offered: every strategy answers [] and every coverage predicate is false *)
      rewrite (select_short s txos Hlt).
      destruct s; [congruence|..]; try (split; [intros; lia | reflexivity]).
      - split; [congruence | lia].
      - split; [intros _ u Hu | reflexivity].
        pose proof (submset_sum_le [u] txos (submset_single u txos Hu) Hp0). simpl in *. lia. }
    unfold select.
    replace (nonempty txos) with true by (destruct txos; [simpl in Hge; lia | reflexivity]).
    replace (target >? sum_eff txos) with false by lia.
    assert (St : fst (standard fpb shuffle target coc FUEL txos (sum_eff txos)) = [] <-> sum_eff txos < target).
    { split; [intro E; destruct (standard_complete FUEL txos (sum_eff txos) eq_refl Hp Hge Hfuel E) | lia]. }
    destruct s; [congruence|..]; unfold complete.
    - pose proof (only_confirmed_complete FUEL txos Hp Hfuel) as [O1 O2].
      destruct (only_confirmed fpb shuffle target coc FUEL txos) as [r f]. simpl in *.
      destruct (nonempty r) eqn:Er.
      + apply nonempty_true in Er. split; [congruence | lia].
      + apply nonempty_false in Er. rewrite (O2 Er). exact St.
    - apply only_confirmed_complete; assumption.
    - exact St.
    - split.
      + destruct (bnb_spec FUEL txos (sum_eff txos) eq_refl) as [E|[_ W]]; [congruence | intros _; exact W].
      + intros W. apply bnb_total_in_window; auto.
    - apply closest_complete.
    - apply random_draw_complete; auto.
  Qed.
End Sel.

Section Sq.
  Variable fpb : Z.
  Notation eff := (eff fpb).
  Notation sum_eff := (sum_eff fpb).

  Lemma sq_sort_perm l : Permutation (sq_sort l) l.
  Proof. exact (sort_perm sq_le sq_insert sq_sort (fun _ => eq_refl) (fun _ _ _ => eq_refl) eq_refl (fun _ _ => eq_refl) l). Qed.

  (* a pass over the rows [src] that moves (total, taken) from (ra, taken) to (ra1, taken1): the total grows by
     what is taken, each row is taken at most once, and if the amount is still not reached all of [src] was taken *)
  Definition takes (src : list utxo) (a ra : Z) (taken : list utxo) (ra1 : Z) (taken1 : list utxo) : Prop :=
    ra1 - ra = sum_eff taken1 - sum_eff taken /\
    (forall x, (cnt taken1 x <= cnt taken x + cnt src x)%nat) /\
    (ra1 < a -> ra1 = ra + sum_eff src).

  Lemma takes_nil a ra taken : takes [] a ra taken ra taken.
  Proof. split; [lia|]. split; [intro; lia | simpl; lia]. Qed.
  Lemma takes_stop src a ra taken : a <= ra -> takes src a ra taken ra taken.
  Proof. intro H. split; [lia|]. split; [intro|]; lia. Qed.
  Lemma takes_cons u src a ra taken ra1 taken1 :
    takes src a (ra + uamount u - in_fee fpb) (u :: taken) ra1 taken1 -> takes (u :: src) a ra taken ra1 taken1.
  Proof.
    intros [H1 [H2 H3]]. unfold takes. simpl in *. unfold eff in *. split; [lia|]. split; [|lia].
    intro x; specialize (H2 x); rewrite !cnt_cons in *; lia.
  Qed.
  Lemma takes_perm s s' a ra taken ra1 taken1 : Permutation s s' -> takes s a ra taken ra1 taken1 -> takes s' a ra taken ra1 taken1.
  Proof.
    intros P [H1 [H2 H3]]. split; [assumption|].
    split; [intro x; rewrite <- (cnt_perm _ _ x P); apply H2 | rewrite <- (sum_eff_perm fpb _ _ P); assumption].
  Qed.
  Lemma takes_app s1 s2 a r0 t0 r1 t1 r2 t2 :
    takes s1 a r0 t0 r1 t1 -> takes s2 a r1 t1 r2 t2 -> (r2 < a -> r1 < a) -> takes (s1 ++ s2) a r0 t0 r2 t2.
  Proof.
    intros [A1 [A2 A3]] [B1 [B2 B3]] H. split; [lia|]. split.
    - intro x. rewrite cnt_app. specialize (A2 x). specialize (B2 x). lia.
    - intro Hlt. rewrite sum_eff_app. specialize (B3 Hlt). specialize (A3 (H Hlt)). lia.
  Qed.

  Lemma sq_unconf_spec l : forall a ra taken ra2 taken2,
    sq_unconf fpb l a ra taken = (ra2, taken2) -> takes l a ra taken ra2 taken2.
  Proof.
    induction l as [|u r IH]; intros a ra taken ra2 taken2; simpl.
    - intros H; inversion H; subst. apply takes_nil.
    - destruct (ra <? a) eqn:E; intro H; [apply takes_cons, IH, H|].
      inversion H; subst. apply takes_stop. lia.
  Qed.

  (* one window, with the unverified rows remembered so far: the first pass followed by the second is a pass over
     those (in the order seen) and the rows still to scan *)
  Lemma sq_scan_spec rows : forall a ra taken unconf ra1 taken1,
    (let '(rs, ts, us, early) := sq_scan fpb rows a ra taken unconf in
     if early : bool then (rs, ts) else sq_unconf fpb (rev us) a rs ts) = (ra1, taken1) ->
    takes (rev unconf ++ rows) a ra taken ra1 taken1.
  Proof.
    induction rows as [|u r IH]; intros a ra taken unconf ra1 taken1; simpl.
    - rewrite app_nil_r. apply sq_unconf_spec.
    - destruct (uverified u).
      + (* a verified row is taken at once, wherever it stands among the rows of the window *)
        intro H. apply (takes_perm (u :: rev unconf ++ r)); [apply Permutation_middle|]. apply takes_cons.
        destruct (_ >=? a) eqn:E; [|apply IH, H].
        inversion H; subst. apply takes_stop. lia.
      + intros H. apply IH in H. simpl in H. rewrite <- app_assoc in H. exact H.
  Qed.

  Lemma sq_get_spec win a ra taken ra1 taken1 :
    sq_get fpb win a ra taken = (ra1, taken1) -> takes win a ra taken ra1 taken1.
  Proof. apply (sq_scan_spec win a ra taken []). Qed.

  Lemma filter_window_perm f0 f1 f2 l : f0 <= f1 <= f2 ->
    Permutation (filter (in_window f0 f2) l) (filter (in_window f0 f1) l ++ filter (in_window f1 f2) l).
  Proof.
    intro H. unfold in_window. induction l as [|a l IH]; simpl; [reflexivity|].
    destruct (f0 <=? uamount a) eqn:A, (uamount a <? f2) eqn:B, (uamount a <? f1) eqn:C, (f1 <=? uamount a) eqn:D;
      simpl; try lia; auto using Permutation_cons_app.
  Qed.
  Lemma filter_window_empty f l : filter (in_window f f) l = [].
  Proof.
    unfold in_window. induction l as [|a l IH]; simpl; [reflexivity|].
    destruct (f <=? uamount a) eqn:A, (uamount a <? f) eqn:B; simpl; try assumption. lia.
  Qed.

  (* the multiplier is 100 squared once per empty window in a row *)
  Definition phase_ok (floor mult gap : Z) : Prop :=
    (gap = 0 /\ mult = 100 /\ 1 <= floor) \/ (gap = 1 /\ mult = 10000 /\ 100 <= floor) \/
    (gap = 2 /\ mult = 100000000 /\ 1000000 <= floor) \/
    (gap = 3 /\ mult = 10000000000000000 /\ 100000000000000 <= floor).

  Lemma phase_next floor mult gap :
    phase_ok floor mult gap -> floor * mult < SQLITE_MAX_INTEGER ->
    phase_ok (floor * mult) 100 0 /\ phase_ok (floor * mult) (mult * mult) (gap + 1) /\ 100 * floor <= floor * mult.
  Proof.
    unfold phase_ok, SQLITE_MAX_INTEGER. intros [H|[H|[H|H]]]; destruct H as [-> [-> H]]; intro; lia.
  Qed.
  (* where SQ_REACH comes from: the loop ends with five gaps (never reached) or floor * mult >= 2^63 - 1 *)
  Lemma phase_stop floor mult gap :
    phase_ok floor mult gap -> (gap <? 5) && (floor * mult <? SQLITE_MAX_INTEGER) = false -> SQ_REACH <= floor.
  Proof.
    unfold phase_ok, SQLITE_MAX_INTEGER, SQ_REACH. intros Hp Hs. apply andb_false_iff in Hs.
    destruct Hp as [H|[H|[H|H]]]; destruct H as [-> [-> H]]; destruct Hs; lia.
  Qed.

  (* The window loop passes over the rows from its floor up to the floor [floor1] it stops at.  If it stops short of
     the amount, that is for the gap count or 2^63, not for lack of fuel: every window multiplies the floor by at
     least 100, so [floor * 100 ^ fuel] never falls. *)
  Lemma sq_loop_spec rows a : forall fuel rd taken floor mult gap rd1 taken1,
    sq_loop fpb fuel rows a rd taken floor mult gap = (rd1, taken1) -> 0 <= floor -> 1 <= mult ->
    exists floor1, floor <= floor1 /\ takes (filter (in_window floor floor1) rows) a rd taken rd1 taken1 /\
      (rd1 < a -> rd < a /\
         (phase_ok floor mult gap -> SQLITE_MAX_INTEGER <= floor * 100 ^ Z.of_nat fuel -> SQ_REACH <= floor1)).
  Proof.
    assert (Stop : forall rd taken floor (Q : Z -> Prop), (rd < a -> Q floor) ->
              exists floor1, floor <= floor1 /\ takes (filter (in_window floor floor1) rows) a rd taken rd taken /\
                (rd < a -> rd < a /\ Q floor1)).
    { intros rd taken floor Q H. exists floor. rewrite filter_window_empty. split; [lia|]. split; [apply takes_nil | auto]. }
    induction fuel as [|f IH]; intros rd taken floor mult gap rd1 taken1; cbn [sq_loop].
    - intros H _ _; inversion H; subst. apply Stop. unfold SQ_REACH, SQLITE_MAX_INTEGER. simpl. lia.
    - destruct (rd <? a) eqn:G1; cbn [andb]; [|intros H _ _; inversion H; subst; apply Stop; lia].
      destruct ((gap <? 5) && (floor * mult <? SQLITE_MAX_INTEGER)) eqn:Gd;
        [|intros H _ _; inversion H; subst; apply Stop; intros _ Hp _; eapply phase_stop; eassumption].
      destruct (sq_get fpb (filter (in_window floor (floor * mult)) rows) a rd taken) as [rd2 taken2] eqn:G.
      apply sq_get_spec in G. intros H Hf Hm.
      assert (Hfl : floor <= floor * mult) by nia.
      apply andb_prop in Gd. destruct Gd as [_ G3].
      (* the next window starts a hundred times higher or more, with one unit of fuel less *)
      assert (Next : phase_ok floor mult gap -> SQLITE_MAX_INTEGER <= floor * 100 ^ Z.of_nat (S f) ->
                phase_ok (floor * mult) 100 0 /\ phase_ok (floor * mult) (mult * mult) (gap + 1) /\
                SQLITE_MAX_INTEGER <= floor * mult * 100 ^ Z.of_nat f).
      { intros Hp Hfuel. destruct (phase_next floor mult gap Hp ltac:(lia)) as [P0 [P1 Hk]].
        split; [assumption|]. split; [assumption|].
        rewrite Nat2Z.inj_succ, Z.pow_succ_r in Hfuel by lia. pose proof (Z.pow_nonneg 100 (Z.of_nat f)). nia. }
      destruct (rd =? rd2); apply IH in H; try nia; destruct H as [floor1 [F1 [T R]]]; exists floor1;
        (split; [lia|]); (split; [eapply takes_perm; [apply Permutation_sym, (filter_window_perm floor (floor * mult)); lia | apply (takes_app _ _ _ _ _ _ _ _ _ G T), R]|]);
        intro Hlt; (split; [lia|]); intros Hp Hfuel; apply (R Hlt); apply (Next Hp Hfuel).
  Qed.

  Theorem sqlite_sound rows a floor :
    0 <= floor -> sound fpb a (filter utype0 rows) (sqlite_select fpb rows a floor).
  Proof.
    intros Hf. unfold sqlite_select.
    destruct (sq_loop fpb SQ_FUEL (sq_sort (filter utype0 rows)) a 0 [] floor 100 0) as [rd taken] eqn:L.
    apply sq_loop_spec in L; [|assumption|lia]. destruct L as [floor1 [_ [[L1 [L2 _]] _]]]. simpl in L1.
    destruct (rd >=? a) eqn:E; [|apply sound_nil]. split.
    - intro x. rewrite cnt_rev, <- (cnt_perm _ _ x (sq_sort_perm (filter utype0 rows))).
      specialize (L2 x). pose proof (submset_filter (in_window floor floor1) (sq_sort (filter utype0 rows)) x). simpl in L2. lia.
    - intros _. rewrite sum_eff_rev. lia.
  Qed.

  Theorem sqlite_complete_partial rows a :
    0 <= fpb -> 0 < a ->
    (forall u, In u rows -> utype0 u = true -> 0 < eff u /\ uamount u < SQ_REACH) ->
    (sqlite_select fpb rows a 1 = [] <-> sum_eff (filter utype0 rows) < a).
  Proof.
    intros Hfpb Ha Hrows.
    assert (Hplain : forall u, In u (filter utype0 rows) -> 0 < eff u /\ uamount u < SQ_REACH).
    { intros u Hu. apply filter_In in Hu. apply Hrows; tauto. }
    split.
    - unfold sqlite_select.
      destruct (sq_loop fpb SQ_FUEL (sq_sort (filter utype0 rows)) a 0 [] 1 100 0) as [rd taken] eqn:L.
      apply sq_loop_spec in L; [|lia|lia]. destruct L as [floor1 [_ [[L1 [_ L3]] R]]]. simpl in L1.
      destruct (rd >=? a) eqn:E.
      + intro Hr. apply (f_equal (@rev utxo)) in Hr. rewrite rev_involutive in Hr. subst. simpl in L1. lia.
      + intros _. destruct (R ltac:(lia)) as [_ F1]. specialize (L3 ltac:(lia)). rewrite filter_all in L3.
        { rewrite (sum_eff_perm fpb _ _ (sq_sort_perm _)) in L3. lia. }
        assert (SQ_REACH <= floor1) by (apply F1; [left; lia | apply Z.leb_le; reflexivity]).
        intros u Hu. apply (Permutation_in _ (sq_sort_perm _)), Hplain in Hu. destruct Hu as [P1 P2].
        unfold in_window, eff, in_fee, IN_SIZE in *.
        apply andb_true_intro. split; [apply Z.leb_le | apply Z.ltb_lt]; nia.
    - intro Hlt. destruct (sqlite_sound rows a 1 ltac:(lia)) as [S1 S2].
      destruct (sqlite_select fpb rows a 1) as [|u r] eqn:E; [reflexivity|exfalso].
      assert (a <= sum_eff (u :: r)) by (apply S2; congruence).
      assert (sum_eff (u :: r) <= sum_eff (filter utype0 rows)); [|lia].
      apply submset_sum_le; [assumption|]. intros v Hv. apply Hplain in Hv. lia.
  Qed.
End Sq.

Lemma sound_plain fpb target txos r :
  sound fpb target txos r ->
  (NoDup txos -> NoDup r) /\ (NoDup (map uid txos) -> NoDup (map uid r)) /\ incl r txos /\
  (r <> [] -> target <= sum_eff fpb r).
Proof.
  intros [S T]. split; [intro; eapply submset_NoDup; eauto|]. split; [|split; [apply submset_incl; assumption | assumption]].
  intro N. apply (NoDup_map_on uid txos r N); [apply submset_incl; assumption|].
  eapply submset_NoDup; [eassumption|]. eapply NoDup_map_inv; eassumption.
Qed.

Theorem select_sound_plain fpb shuffle (shuffle_perm : forall l, Permutation l (shuffle l)) target coc :
  0 <= coc -> forall s txos,
  let r := select fpb shuffle target coc s txos in
  (NoDup txos -> NoDup r) /\ (NoDup (map uid txos) -> NoDup (map uid r)) /\ incl r txos /\
  (r <> [] -> target <= sum_eff fpb r).
Proof. intros Hc s txos. exact (sound_plain _ _ _ _ (select_sound fpb shuffle shuffle_perm target coc Hc s txos)). Qed.

Theorem sqlite_sound_plain fpb rows a floor :
  0 <= floor ->
  let r := sqlite_select fpb rows a floor in
  (NoDup rows -> NoDup r) /\ (NoDup (map uid rows) -> NoDup (map uid r)) /\ incl r rows /\
  (r <> [] -> a <= sum_eff fpb r) /\ (forall u, In u r -> utype0 u = true).
Proof.
  intros Hf. cbv zeta. pose proof (sqlite_sound fpb rows a floor Hf) as S.
  destruct (sound_plain _ _ _ _ (sound_sub _ _ _ _ _ (submset_filter utype0 rows) S)) as [P1 [P2 [P3 P4]]].
  repeat split; try assumption. intros u Hu. apply (submset_incl _ _ (proj1 S)), filter_In in Hu. tauto.
Qed.

Lemma choose_from_sound fpb shuffle (shuffle_perm : forall l, Permutation l (shuffle l)) :
  0 <= fpb -> forall s free amount, sound fpb amount free (choose_from fpb shuffle s free amount).
Proof.
  intros Hfpb s free amount.
  assert (Hfee : 0 <= CHANGE_EST_SIZE * fpb) by (unfold CHANGE_EST_SIZE; lia).
  unfold choose_from.
  destruct s; try (apply select_sound; assumption).
  destruct (sqlite_sound fpb free (amount + CHANGE_EST_SIZE * fpb) (Z.min (Z.max (amount / 10) 1) 1)) as [H1 H2]; [lia|].
  split; [eapply submset_trans; [exact H1 | apply submset_filter]|]. intro Hn. specialize (H2 Hn). lia.
Qed.

Theorem choose_from_complete fpb shuffle (shuffle_perm : forall l, Permutation l (shuffle l)) :
  0 <= fpb -> forall s free d,
  0 < d -> (forall u, In u free -> 0 < eff fpb u) -> (N.of_nat (length free) < MAXIMUM_TRIES)%N ->
  complete fpb d (CHANGE_EST_SIZE * fpb) s free (choose_from fpb shuffle s free d).
Proof.
  intros Hfpb s free d Hd Hpos Hlen.
  assert (Hfee : 0 <= CHANGE_EST_SIZE * fpb) by (unfold CHANGE_EST_SIZE; lia).
  destruct s; try (apply select_complete; auto; discriminate).
  intro Hreach. unfold choose_from. replace (Z.min (Z.max (d / 10) 1) 1) with 1 by lia.
  apply sqlite_complete_partial; try assumption; try lia. auto.
Qed.

Theorem choose_from_complete_exact fpb shuffle (shuffle_perm : forall l, Permutation l (shuffle l)) :
  0 <= fpb -> forall s free d,
  0 < d -> (forall u, In u free -> 0 < eff fpb u) -> (N.of_nat (length free) < MAXIMUM_TRIES)%N ->
  empty_iff fpb d (CHANGE_EST_SIZE * fpb) s free (choose_from fpb shuffle s free d).
Proof.
  intros Hf s free d Hd Hp Hl. pose proof (choose_from_complete fpb shuffle shuffle_perm Hf s free d Hd Hp Hl) as H.
  destruct s; try exact H; exact I.
Qed.

Definition ids_of (w : wallet) : list N := map (fun e => uid (fst e)) w.

Lemma mem_id_true i ids : mem_id i ids = true <-> In i ids.
Proof. apply existsb_eqb, N.eqb_eq. Qed.
Lemma mem_id_false i ids : mem_id i ids = false <-> ~ In i ids.
Proof. apply existsb_eqb_false, N.eqb_eq. Qed.
Lemma mem_id_app i a b : mem_id i (a ++ b) = mem_id i a || mem_id i b.
Proof. unfold mem_id. apply existsb_app. Qed.

Lemma in_set_reserved u f flag ids w :
  In (u, f) (set_reserved flag ids w) <->
  (In (u, f) w /\ ~ In (uid u) ids) \/ (f = flag /\ In (uid u) ids /\ exists f0, In (u, f0) w).
Proof.
  unfold set_reserved. rewrite in_map_iff. split.
  - intros [[u0 f0] [E H]]. simpl in E. destruct (mem_id (uid u0) ids) eqn:M.
    + inversion E; subst. right. split; [reflexivity|]. split; [apply mem_id_true; assumption | eauto].
    + inversion E; subst. left. split; [assumption | apply mem_id_false; assumption].
  - intros [[H Hn]|[-> [Hi [f0 H]]]].
    + exists (u, f). simpl. apply mem_id_false in Hn. rewrite Hn. auto.
    + exists (u, f0). simpl. apply mem_id_true in Hi. rewrite Hi. auto.
Qed.
Lemma fst_set_reserved flag ids w : map fst (set_reserved flag ids w) = map fst w.
Proof.
  unfold set_reserved. rewrite map_map. apply map_ext. intros [u f]; simpl.
  destruct (mem_id _ _); reflexivity.
Qed.
Lemma ids_set_reserved flag ids w : ids_of (set_reserved flag ids w) = ids_of w.
Proof. unfold ids_of. rewrite <- !(map_map fst uid), fst_set_reserved. reflexivity. Qed.
Lemma set_reserved_app flag a b w : set_reserved flag (a ++ b) w = set_reserved flag b (set_reserved flag a w).
Proof.
  unfold set_reserved. rewrite map_map. apply map_ext. intros [u f]; simpl. rewrite mem_id_app.
  destruct (mem_id (uid u) a); simpl; [destruct (mem_id (uid u) b); reflexivity | reflexivity].
Qed.
Lemma reserve_app a b w : reserve (a ++ b) w = reserve b (reserve a w).
Proof. unfold reserve. rewrite map_app. apply set_reserved_app. Qed.
Lemma reserve_nil w : reserve [] w = w.
Proof. unfold reserve, set_reserved. simpl. rewrite <- (map_id w) at 2. apply map_ext. intros [u f]; reflexivity. Qed.
(* reserve_outputs is only called with a non-empty selection; with an empty one it would change nothing *)
Lemma reserve_nonempty l w : (if nonempty l then reserve l w else w) = reserve l w.
Proof. destruct l; [symmetry; apply reserve_nil | reflexivity]. Qed.
Lemma release_after_reserve ids w : release ids (set_reserved true ids w) = release ids w.
Proof.
  unfold release, set_reserved. rewrite map_map. apply map_ext. intros [u f]; simpl.
  destruct (mem_id (uid u) ids) eqn:M; simpl; rewrite M; reflexivity.
Qed.

Lemma ids_unique w u f u' f' :
  NoDup (ids_of w) -> In (u, f) w -> In (u', f') w -> uid u = uid u' -> u = u' /\ f = f'.
Proof.
  intros N H1 H2 E.
  assert ((u, f) = (u', f')) by (apply (NoDup_map_inj (fun e : utxo * bool => uid (fst e)) w); assumption).
  inversion H; auto.
Qed.
Lemma in_unreserved u w : In u (unreserved w) <-> In (u, false) w.
Proof.
  unfold unreserved. rewrite in_map_iff. split.
  - intros [[u0 f0] [E H]]. apply filter_In in H. simpl in *. destruct H as [H Hf]. subst.
    destruct f0; [discriminate | assumption].
  - intro H. exists (u, false). split; [reflexivity|]. apply filter_In. auto.
Qed.
Lemma NoDup_unreserved w : NoDup (ids_of w) -> NoDup (map uid (unreserved w)).
Proof.
  intro H. unfold unreserved. rewrite map_map. apply (NoDup_map_filter (fun e : utxo * bool => uid (fst e))). exact H.
Qed.
Lemma in_reserved_ids i w : In i (reserved_ids w) <-> exists u, In (u, true) w /\ uid u = i.
Proof.
  unfold reserved_ids. rewrite in_map_iff. split.
  - intros [[u f] [E H]]. apply filter_In in H. simpl in *. destruct H as [H Hf]. subst. exists u; auto.
  - intros [u [H E]]. exists (u, true). split; [assumption|]. apply filter_In; auto.
Qed.

Lemma reserved_reserve l w i :
  (forall u, In u l -> In (uid u) (ids_of w)) ->
  (In i (reserved_ids (reserve l w)) <-> In i (reserved_ids w) \/ In i (map uid l)).
Proof.
  intro Hl. rewrite !in_reserved_ids. unfold reserve. split.
  - intros [u [Hu E]]. apply in_set_reserved in Hu.
    destruct Hu as [[Hu _]|[_ [Hi _]]]; [left; eauto | right; subst; assumption].
  - intros [[u [Hu E]]|Hi].
    + exists u. split; [|assumption]. apply in_set_reserved.
      destruct (in_dec N.eq_dec (uid u) (map uid l)); [right; eauto | left; auto].
    + pose proof Hi as Hw. apply in_map_iff in Hw. destruct Hw as [v [<- Hv]].
      apply Hl, in_map_iff in Hv. destruct Hv as [[u f] [E Hu]]. simpl in E.
      exists u. split; [|assumption]. apply in_set_reserved. right. rewrite E. eauto.
Qed.
Lemma reserved_release ids w i : In i (reserved_ids (release ids w)) <-> In i (reserved_ids w) /\ ~ In i ids.
Proof.
  rewrite !in_reserved_ids. unfold release. split.
  - intros [u [Hu E]]. apply in_set_reserved in Hu. destruct Hu as [[Hu Hn]|[Hf _]]; [subst; eauto | discriminate].
  - intros [[u [Hu E]] Hn]. exists u. split; [|assumption]. apply in_set_reserved. left. subst. auto.
Qed.
Lemma free_not_reserved w u : NoDup (ids_of w) -> In (u, false) w -> ~ In (uid u) (reserved_ids w).
Proof.
  intros N Hu Hr. apply in_reserved_ids in Hr. destruct Hr as [u' [Hu' E]].
  destruct (ids_unique w u' true u false N Hu' Hu E) as [_ X]. discriminate.
Qed.

(* rows that may be reserved: unreserved in the wallet, with distinct outpoints *)
Definition free_in (w : wallet) (l : list utxo) : Prop :=
  (forall u, In u l -> In (u, false) w) /\ NoDup (map uid l).

Lemma free_in_nil w : free_in w [].
Proof. split; [intros u [] | constructor]. Qed.

(* release_tx after reserve_outputs: rows that were free are free again, whatever else is released with them *)
Lemma release_reserve ids added w :
  NoDup (ids_of w) -> free_in w added -> release (ids ++ map uid added) (reserve added w) = release ids w.
Proof.
  intros Hw [G1 G2]. unfold release, reserve, set_reserved. rewrite map_map.
  apply map_ext_in. intros [u f] He. simpl.
  destruct (mem_id (uid u) (map uid added)) eqn:M; simpl; rewrite mem_id_app.
  - rewrite M. rewrite orb_true_r.
    apply mem_id_true in M. apply in_map_iff in M. destruct M as [u2 [E Hu2]].
    apply G1 in Hu2. destruct (ids_unique w u2 false u f Hw Hu2 He E) as [_ <-].
    destruct (mem_id (uid u) ids); reflexivity.
  - rewrite M. rewrite orb_false_r. reflexivity.
Qed.

Lemma compact_size_pos n : 0 < compact_size n.
Proof. unfold compact_size. destruct (_ <? _); [lia|]. repeat (destruct (_ <=? _); [lia|]). lia. Qed.
Lemma compact_size_mono n m : n <= m -> compact_size n <= compact_size m.
Proof.
  unfold compact_size. intro H. repeat match goal with |- context [if ?c then _ else _] => destruct c eqn:? end; lia.
Qed.
Lemma base_small n_in n_out : 0 <= n_in <= 252 -> 0 <= n_out <= 252 -> base_size n_in n_out = 10.
Proof.
  intros H1 H2. unfold base_size, compact_size.
  destruct (n_in <? 253) eqn:A; [|lia]. destruct (n_out <? 253) eqn:B; [|lia]. reflexivity.
Qed.

Section Create.
  Variables fpb fpnc : Z.
  Variable shuffle : list utxo -> list utxo.
  Hypothesis shuffle_perm : forall l, Permutation l (shuffle l).
  Hypothesis fpb_nonneg : 0 <= fpb.
  Notation eff := (eff fpb).
  Notation sum_eff := (sum_eff fpb).

  Lemma sum_eff_amount l : sum_eff l = sum_amount l - zlen l * in_fee fpb.
  Proof.
    unfold zlen. induction l as [|u l IH]; [reflexivity|].
    cbn [C03.sum_eff sum_amount length]. rewrite IH. unfold eff. rewrite Nat2Z.inj_succ. lia.
  Qed.
  Lemma sum_in_eff_split l : sum_in_eff fpb l = sum_iamount l - sum_inp_fee fpb l.
  Proof. induction l as [|i l IH]; simpl; lia. Qed.
  Lemma sum_out_total_split l : sum_out_total fpb fpnc l = sum_oamount l + sum_out_fee fpb fpnc l.
  Proof. induction l as [|o l IH]; simpl; lia. Qed.
  Lemma zlen_app {A} (a b : list A) : zlen (a ++ b) = zlen a + zlen b.
  Proof. unfold zlen. rewrite app_length. lia. Qed.
  Lemma zlen_nonneg {A} (a : list A) : 0 <= zlen a.
  Proof. unfold zlen. lia. Qed.

  Variable strat : strategy.
  Variable pre : list inp.
  Variable outs : list outp.
  Notation rounds := (rounds fpb shuffle strat pre outs).
  Notation cost0 := (cost0 fpb fpnc pre outs).
  Notation payment0 := (payment0 fpb pre).

  (* the cost of change while both counts fit one byte, its least value *)
  Definition CC : Z := (10 + CHANGE_EST_SIZE) * fpb.

  Lemma coc_min n : 0 <= CC <= cost_of_change fpb pre outs n.
  Proof.
    unfold cost_of_change, base_size, CC, CHANGE_EST_SIZE.
    pose proof (compact_size_pos (zlen pre + n)). pose proof (compact_size_pos (zlen outs)). nia.
  Qed.
  Lemma coc_nonneg n : 0 <= cost_of_change fpb pre outs n.
  Proof. pose proof (coc_min n). lia. Qed.
  Lemma coc_small n_added :
    0 <= n_added -> zlen pre + n_added <= 252 -> zlen outs <= 252 ->
    cost_of_change fpb pre outs n_added = CC.
  Proof.
    intros H0 H1 H2. pose proof (zlen_nonneg pre); pose proof (zlen_nonneg outs).
    unfold cost_of_change, CC. rewrite base_small; lia.
  Qed.
  Lemma coc_mono n m : n <= m -> cost_of_change fpb pre outs n <= cost_of_change fpb pre outs m.
  Proof.
    intro H. unfold cost_of_change, base_size.
    pose proof (compact_size_mono (zlen pre + n) (zlen pre + m) ltac:(lia)). nia.
  Qed.

  (* what the loop leaves to the miner beyond the cost it started from, the fee of a real change output counted as cost;
     while both counts fit one byte this is what the finished transaction pays above [required_fee] *)
  Definition excess (added : list utxo) (ch : option Z) : Z :=
    payment0 + sum_eff added - cost0 - change_value ch - change_count ch * (P2PKH_SIZE * fpb).

  Lemma fee_identity added ch :
    zlen pre + zlen added <= 252 -> zlen outs + change_count ch <= 252 ->
    tx_fee pre outs added ch - required_fee fpb fpnc pre outs added ch = excess added ch.
  Proof.
    intros H1 H2. unfold excess, tx_fee, required_fee, C03.cost0, C03.payment0.
    pose proof (zlen_nonneg pre); pose proof (zlen_nonneg outs); pose proof (zlen_nonneg added).
    assert (0 <= change_count ch <= 1) by (destruct ch; simpl; lia).
    rewrite !base_small by lia.
    rewrite sum_eff_amount, sum_in_eff_split, sum_out_total_split. lia.
  Qed.

  (* the loop, from any wallet with distinct outpoints *)
  Section Loop.
    Variable w0 : wallet.
    Hypothesis w0_nodup : NoDup (ids_of w0).

    (* the loop keeps [free_in w0 added] for what it has added so far: unreserved rows of the wallet it
       started from; the wallet of the moment is [reserve added w0] *)
    Lemma selection_step added amount :
      free_in w0 added ->
      let sel := spendable fpb shuffle strat (reserve added w0) amount in
      free_in w0 (added ++ sel) /\ (sel <> [] -> amount <= sum_eff sel).
    Proof.
      intros [G1 G2] sel. unfold sel, spendable.
      destruct (sound_plain _ _ _ _ (choose_from_sound fpb shuffle shuffle_perm fpb_nonneg strat (unreserved (reserve added w0)) amount))
        as [_ [C1 [C2 C3]]].
      assert (Hnd : NoDup (map uid (unreserved (reserve added w0)))).
      { apply NoDup_unreserved. unfold reserve. rewrite ids_set_reserved. assumption. }
      specialize (C1 Hnd). split; [|assumption].
      assert (Hfree : forall u, In u (choose_from fpb shuffle strat (unreserved (reserve added w0)) amount) ->
                                In (u, false) w0 /\ ~ In (uid u) (map uid added)).
      { intros u Hu. apply C2 in Hu. apply in_unreserved in Hu. unfold reserve in Hu. apply in_set_reserved in Hu.
        destruct Hu as [Hu|[Hu _]]; [assumption | discriminate]. }
      split.
      - intros u Hu. apply in_app_iff in Hu. destruct Hu as [Hu|Hu]; [apply G1; assumption | apply Hfree; assumption].
      - rewrite map_app. apply NoDup_app_intro; [assumption | assumption|].
        intros x Hx1 Hx2. apply in_map_iff in Hx2. destruct Hx2 as [u [<- Hu]]. apply (Hfree u Hu). assumption.
    Qed.

    (* The second half of a round, once [payment1] covers [cost]: change, no change, or another round.  There is change
       exactly when what is left after the cost of change exceeds the dust limit: the other test of the code,
       payment1 > cost, follows because the cost of change is not negative. *)
    Definition settle (k : nat) (added1 : list utxo) (payment1 cost : Z) : result :=
      let coc := cost_of_change fpb pre outs (zlen added1) in
      let change_amount := payment1 - cost - coc in
      if change_amount >? DUST then Ok added1 (Some change_amount) (reserve added1 w0)
      else if nonempty outs then Ok added1 None (reserve added1 w0)
      else rounds k (reserve added1 w0) added1 payment1 (cost + coc + 1).

    Lemma change_test payment1 cost coc :
      0 <= coc -> (payment1 >? cost) && (payment1 - cost - coc >? DUST) = (payment1 - cost - coc >? DUST).
    Proof. unfold DUST. intros. destruct (payment1 >? cost) eqn:A, (_ >? 1000) eqn:B; try reflexivity; lia. Qed.

    (* one round: refused because nothing can be selected for the deficit, or funded by [sel] (empty if the
       payment already covers the cost) and settled *)
    Lemma round_cases k added payment cost :
      free_in w0 added ->
      (payment < cost /\ spendable fpb shuffle strat (reserve added w0) (cost - payment) = [] /\
       rounds (S k) (reserve added w0) added payment cost =
         Refused (release (map iid pre ++ map uid added) (reserve added w0))) \/
      (exists sel,
         sel = (if payment <? cost then spendable fpb shuffle strat (reserve added w0) (cost - payment) else []) /\
         (payment < cost -> sel <> []) /\ free_in w0 (added ++ sel) /\ cost <= payment + sum_eff sel /\
         rounds (S k) (reserve added w0) added payment cost = settle k (added ++ sel) (payment + sum_eff sel) cost).
    Proof.
      intro G. cbn [C03.rounds]. unfold settle. destruct (payment <? cost) eqn:Hpc.
      - destruct (selection_step added (cost - payment) G) as [S1 S2].
        destruct (nonempty (spendable fpb shuffle strat (reserve added w0) (cost - payment))) eqn:Hne.
        + apply nonempty_true in Hne. specialize (S2 Hne). right. eexists. split; [reflexivity|].
          rewrite reserve_app. split; [intros _; assumption|]. split; [assumption|]. split; [lia|].
          cbv zeta. rewrite change_test by apply coc_nonneg. reflexivity.
        + apply nonempty_false in Hne. left. repeat split; [lia | assumption].
      - right. exists []. rewrite app_nil_r. simpl. rewrite Z.add_0_r. split; [reflexivity|]. split; [lia|]. split; [assumption|].
        split; [lia|]. rewrite change_test by apply coc_nonneg. reflexivity.
    Qed.

    (* What [k] more rounds can do, seen from the state the loop is in.  A round that settles pays its cost and at most the
       cost of change + DUST more; a round that does not raises the cost by the cost of change + 1; with no round left the
       transaction pays what has been put in so far.  No round has more inputs than the last, so its cost of change is
       no higher. *)
    Lemma rounds_spec : forall k added payment cost,
      free_in w0 added -> payment = payment0 + sum_eff added ->
      match rounds k (reserve added w0) added payment cost with
      | Ok added' ch w' =>
          free_in w0 added' /\ w' = reserve added' w0 /\ zlen added <= zlen added' /\
          ((k = 0%nat /\ excess added' ch = payment - cost0) \/
           cost - cost0 <= excess added' ch
             <= cost - cost0 + Z.of_nat k * (cost_of_change fpb pre outs (zlen added') + 1) + DUST - 1)
      | Refused w' => exists added1 deficit,
          free_in w0 added1 /\ 0 < deficit /\ spendable fpb shuffle strat (reserve added1 w0) deficit = [] /\
          w' = release (map iid pre ++ map uid added1) (reserve added1 w0)
      end.
    Proof.
      unfold excess, DUST.
      induction k as [|k IH]; intros added payment cost G Hpay.
      - cbn. split; [assumption|]. split; [reflexivity|]. split; [lia|]. left. split; [reflexivity | lia].
      - destruct (round_cases k added payment cost G) as [[Hlt [Hs ->]]|[sel [_ [_ [G1 [Hge ->]]]]]].
        { exists added, (cost - payment). repeat split; try assumption; try apply G. lia. }
        assert (Hp1 : payment + sum_eff sel = payment0 + sum_eff (added ++ sel)) by (rewrite sum_eff_app; lia).
        assert (Hl1 : zlen added <= zlen (added ++ sel)) by (rewrite zlen_app; pose proof (zlen_nonneg sel); lia).
        revert G1 Hge Hp1 Hl1. generalize (added ++ sel) (payment + sum_eff sel). clear dependent sel.
        intros added1 payment1 G1 Hge Hp1 Hl1. unfold settle.
        pose proof (coc_min (zlen added1)) as Hc. unfold CC, CHANGE_EST_SIZE in Hc.
        destruct (_ >? DUST) eqn:Hch; unfold DUST in Hch; [|destruct (nonempty outs)].
        + split; [assumption|]. split; [reflexivity|]. split; [assumption|]. right.
          cbn [change_value change_count]. unfold P2PKH_SIZE. nia.
        + split; [assumption|]. split; [reflexivity|]. split; [assumption|]. right.
          cbn [change_value change_count]. nia.
        + specialize (IH added1 payment1 (cost + cost_of_change fpb pre outs (zlen added1) + 1) G1 Hp1).
          destruct (rounds k _ _ _ _) as [added' ch w'|]; [|assumption].
          destruct IH as [I1 [I2 [I3 I4]]]. split; [assumption|]. split; [assumption|]. split; [lia|]. right.
          pose proof (coc_mono _ _ I3). rewrite Nat2Z.inj_succ in *. destruct I4 as [[-> I4]|I4]; lia.
    Qed.
  End Loop.

  Variable w0 : wallet.
  Hypothesis w0_nodup : NoDup (ids_of w0).
  Notation create := (create fpb fpnc shuffle strat pre outs).

  (* the wallet once the pre-chosen inputs are reserved; the loop starts from it with nothing added *)
  Definition w1 : wallet := set_reserved true (map iid pre) w0.

  Lemma w1_nodup : NoDup (ids_of w1).
  Proof. unfold w1. rewrite ids_set_reserved. assumption. Qed.

  Lemma released added :
    free_in w1 added -> release (map iid pre ++ map uid added) (reserve added w1) = release (map iid pre) w0.
  Proof. intro G. rewrite (release_reserve _ added w1 w1_nodup G). apply release_after_reserve. Qed.

  Lemma create_shape :
    match create w0 with
    | Ok added ch w' => free_in w1 added /\ w' = reserve added w1 /\
        0 <= excess added ch <= 5 * cost_of_change fpb pre outs (zlen added) + DUST + 4
    | Refused w' => w' = release (map iid pre) w0 /\ exists held deficit,
        free_in w1 held /\ 0 < deficit /\ spendable fpb shuffle strat (reserve held w1) deficit = []
    end.
  Proof.
    pose proof (rounds_spec w1 w1_nodup 5 [] payment0 cost0 (free_in_nil w1) ltac:(simpl; lia)) as Sh.
    rewrite reserve_nil in Sh. unfold C03.create. fold w1. destruct (rounds _ _ _ _ _).
    - destruct Sh as [G [Hw [_ [[E _]|F]]]]; [discriminate|]. split; [assumption|]. split; [assumption|]. change (Z.of_nat 5) with 5 in F. lia.
    - destruct Sh as [held [deficit [G [Hd [Hs ->]]]]]. split; [apply released, G | eauto].
  Qed.

  Lemma free_in_w1 added : free_in w1 added ->
    forall u, In u added -> In u (unreserved w0) /\ ~ In (uid u) (map iid pre).
  Proof.
    intros [G _] u Hu. apply G in Hu. unfold w1 in Hu. apply in_set_reserved in Hu.
    rewrite in_unreserved. destruct Hu as [Hu|[Hu _]]; [assumption | discriminate].
  Qed.

  Theorem create_ok added ch w' :
    create w0 = Ok added ch w' ->
    NoDup (map uid added) /\
    (forall u, In u added -> In u (unreserved w0) /\ ~ In (uid u) (map iid pre)) /\
    (NoDup (map iid pre) -> NoDup (map iid pre ++ map uid added)) /\
    w' = reserve added w1 /\
    (zlen pre + zlen added <= 252 -> zlen outs <= 251 ->
     required_fee fpb fpnc pre outs added ch <= tx_fee pre outs added ch
       <= required_fee fpb fpnc pre outs added ch + 5 * CC + DUST + 4).
  Proof.
    intro H. pose proof create_shape as Sh. rewrite H in Sh. destruct Sh as [G [Hw X]].
    pose proof (free_in_w1 added G) as Hfree.
    split; [apply G|]. split; [assumption|]. split; [|split; [assumption|]].
    - intro Hp. apply NoDup_app_intro; [assumption | apply G|].
      intros x Hx1 Hx2. apply in_map_iff in Hx2. destruct Hx2 as [u [<- Hu]]. apply (Hfree u Hu). assumption.
    - intros Hin Hout. rewrite coc_small in X by (try apply zlen_nonneg; lia).
      assert (0 <= change_count ch <= 1) by (destruct ch; simpl; lia).
      pose proof (fee_identity added ch Hin ltac:(lia)). lia.
  Qed.

  Theorem create_refused w' :
    create w0 = Refused w' ->
    w' = release (map iid pre) w0 /\
    exists held deficit, NoDup (map uid held) /\
      (forall u, In u held -> In u (unreserved w0) /\ ~ In (uid u) (map iid pre)) /\
      0 < deficit /\ spendable fpb shuffle strat (reserve held w1) deficit = [].
  Proof.
    intro H. pose proof create_shape as Sh. rewrite H in Sh. destruct Sh as [Hw [held [deficit [G [Hd Hs]]]]].
    split; [assumption|]. exists held, deficit. split; [apply G|]. split; [apply free_in_w1, G | auto].
  Qed.

  (* with requested outputs the loop body runs once: the exact selection, the exact change rule and the
     exact condition for a refusal *)
  Theorem create_with_outputs :
    outs <> [] ->
    let deficit := cost0 - payment0 in
    let sel := if payment0 <? cost0 then spendable fpb shuffle strat w1 deficit else [] in
    let surplus := payment0 + sum_eff sel - cost0 in
    let coc := cost_of_change fpb pre outs (zlen sel) in
    match create w0 with
    | Refused w' => 0 < deficit /\ sel = [] /\ w' = release (map iid pre) w0
    | Ok added ch w' =>
        added = sel /\ (0 < deficit -> sel <> []) /\ w' = reserve sel w1 /\ 0 <= surplus /\
        match ch with
        | Some c => c = surplus - coc /\ DUST < c
        | None => surplus - coc <= DUST
        end
    end.
  Proof.
    intros Hne. cbv zeta. apply nonempty_true in Hne.
    pose proof (round_cases w1 w1_nodup 4 [] payment0 cost0 (free_in_nil w1)) as R.
    rewrite !reserve_nil in R. fold w1 in R. unfold C03.create. fold w1.
    destruct R as [[Hlt [Hs ->]]|[sel [Hsel [Hn [_ [Hge ->]]]]]].
    - replace (payment0 <? cost0) with true by lia. split; [lia|]. split; [assumption|].
      simpl. rewrite app_nil_r. apply release_after_reserve.
    - rewrite <- Hsel. unfold settle. rewrite Hne. simpl app. unfold DUST.
      destruct (_ >? 1000) eqn:Hch; (split; [reflexivity|]; split; [intro; apply Hn; lia|]; split; [reflexivity|]; split; [lia|]);
        [split; [reflexivity|] |]; lia.
  Qed.

  Theorem create_total w : (exists a c w', C03.create fpb fpnc shuffle strat pre outs w = Ok a c w') \/
                           (exists w', C03.create fpb fpnc shuffle strat pre outs w = Refused w').
  Proof. destruct (C03.create fpb fpnc shuffle strat pre outs w); [left | right]; eauto. Qed.

  (* create with signing: any failure, for lack of funds or while signing, leaves the wallet as it was
     with the transaction's own inputs released *)
  Variable can_sign : list N -> bool.

  Theorem create_signed_failure w' :
    (create_signed fpb fpnc shuffle strat pre outs can_sign w0 = Insufficient w' \/
     create_signed fpb fpnc shuffle strat pre outs can_sign w0 = SignFails w') ->
    w' = release (map iid pre) w0.
  Proof.
    unfold create_signed. pose proof create_shape as Sh. destruct (create w0) as [added ch w2|w2].
    - destruct Sh as [G [-> _]]. destruct (can_sign _); intros [H|H]; try discriminate.
      inversion H. apply released, G.
    - intros [H|H]; try discriminate. inversion H; subst w'. apply Sh.
  Qed.

  Theorem create_signed_built added ch w' :
    create_signed fpb fpnc shuffle strat pre outs can_sign w0 = Built added ch w' ->
    create w0 = Ok added ch w' /\ can_sign (map iid pre ++ map uid added) = true.
  Proof.
    unfold create_signed. destruct (create w0) as [a c w2|w2]; [|discriminate].
    destruct (can_sign _) eqn:S; [|discriminate]. intro H; inversion H; subst. auto.
  Qed.

  Theorem create_signed_total :
    (exists a c w', create_signed fpb fpnc shuffle strat pre outs can_sign w0 = Built a c w') \/
    (exists w', create_signed fpb fpnc shuffle strat pre outs can_sign w0 = Insufficient w') \/
    (exists w', create_signed fpb fpnc shuffle strat pre outs can_sign w0 = SignFails w').
  Proof. destruct (create_signed fpb fpnc shuffle strat pre outs can_sign w0); eauto. Qed.
End Create.

Theorem release_on_any_failure fpb fpnc shuffle (shuffle_perm : forall l, Permutation l (shuffle l)) :
  0 <= fpb -> forall strat pre outs can_sign w0, NoDup (map (fun e : utxo * bool => uid (fst e)) w0) -> forall w',
  (create_signed fpb fpnc shuffle strat pre outs can_sign w0 = Insufficient w' \/
   create_signed fpb fpnc shuffle strat pre outs can_sign w0 = SignFails w') ->
  w' = release (map iid pre) w0 /\ (forall i, In i (map iid pre) -> ~ In i (reserved_ids w')) /\
  (forall i, In i (reserved_ids w') -> In i (reserved_ids w0)).
Proof.
  intros Hf strat pre outs can_sign w0 Hn w' H.
  rewrite (create_signed_failure fpb fpnc shuffle shuffle_perm Hf strat pre outs w0 Hn can_sign w' H).
  split; [reflexivity|]. split; intros i Hi; [rewrite reserved_release | apply reserved_release in Hi]; tauto.
Qed.

(* a refusal is the failure of a build that would have been signable *)
Theorem release_on_failure fpb fpnc shuffle (shuffle_perm : forall l, Permutation l (shuffle l)) :
  0 <= fpb -> forall strat pre outs w0, NoDup (map (fun e : utxo * bool => uid (fst e)) w0) -> forall w',
  create fpb fpnc shuffle strat pre outs w0 = Refused w' ->
  w' = release (map iid pre) w0 /\ (forall i, In i (map iid pre) -> ~ In i (reserved_ids w')) /\
  (forall i, In i (reserved_ids w') -> In i (reserved_ids w0)).
Proof.
  intros Hf strat pre outs w0 Hn w' H.
  apply (release_on_any_failure fpb fpnc shuffle shuffle_perm Hf strat pre outs (fun _ => true) w0 Hn).
  left. unfold create_signed. rewrite H. reflexivity.
Qed.

Definition ex_u (i : N) (amount : Z) : utxo := mkU i amount 5 true true i.
Definition ex_wallet : wallet :=
  [(ex_u 1 100000000, false); (ex_u 2 100000000, false); (ex_u 3 300000000, false);
   (ex_u 4 500000000, false); (ex_u 5 1000000000, false)].
Definition ex_id (l : list utxo) : list utxo := l.
Lemma ex_id_perm l : Permutation l (ex_id l).
Proof. apply Permutation_refl. Qed.

(* the windows really stop short: one confirmed output of 2 000 000 LBC, asked for 1 LBC *)
Lemma sqlite_reach_is_real :
  sqlite_select 50 [ex_u 1 200000000000000] 100002300 1 = [] /\ 100002300 <= sum_eff 50 [ex_u 1 200000000000000].
Proof. vm_compute. split; [reflexivity | discriminate]. Qed.

Lemma ex_pay :
  match create 50 0 ex_id Standard [] [mkO 300000000 34 None] ex_wallet with
  | Ok added ch w' => map uid added = [4%N] /\ ch = Some 199987600 /\ reserved_ids w' = [4%N]
  | Refused _ => False
  end.
Proof. vm_compute. repeat split. Qed.
Lemma ex_exact :
  match create 50 0 ex_id Standard [] [mkO 299990400 34 None] ex_wallet with
  | Ok added ch w' => map uid added = [3%N] /\ ch = None
  | Refused _ => False
  end.
Proof. vm_compute. repeat split. Qed.
Lemma ex_refuse :
  create 50 0 ex_id Standard [] [mkO 100000000000 34 None] ex_wallet = Refused ex_wallet.
Proof. vm_compute. reflexivity. Qed.
Lemma ex_positive : forall u, In u (unreserved ex_wallet) -> 0 < eff 50 u.
Proof. intros u H. vm_compute in H. repeat (destruct H as [<-|H]; [vm_compute; reflexivity|]). destruct H. Qed.
Lemma ex_nodup : NoDup (map (fun e : utxo * bool => uid (fst e)) ex_wallet).
Proof. vm_compute. repeat constructor; simpl; intuition discriminate. Qed.

(* before `fix: Transaction.create reserves the pre-chosen inputs before funding` a pre-chosen input that is
   an unreserved wallet output could be selected again: outpoint 1 ends up twice in the transaction *)
Definition dup_wallet : wallet := [(ex_u 1 11400, false); (ex_u 2 100007400, false)].
Lemma create_old_refuted :
  match create_old 50 0 ex_id Standard [mkI 1 11400 148] [] dup_wallet with
  | Ok added _ _ => In 1%N (map iid [mkI 1 11400 148]) /\ In 1%N (map uid added)
  | Refused _ => False
  end.
Proof. vm_compute. split; left; reflexivity. Qed.
Lemma create_repaired_ex :
  match create 50 0 ex_id Standard [mkI 1 11400 148] [] dup_wallet with
  | Ok added ch w' => map uid added = [2%N] /\ reserved_ids w' = [1%N; 2%N]
  | Refused _ => False
  end.
Proof. vm_compute. split; reflexivity. Qed.
