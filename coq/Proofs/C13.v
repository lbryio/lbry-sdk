(* Assumed of the library primitives (the hypotheses of Section WithPrims; nothing after that section assumes anything
   of them):
     H_DE  : AES-CBC/PKCS7 decrypt (encrypt p) = p
     H_b64 : b64decode (b64encode x) = x          H_b64_nil : b64decode (b'') = b''
     H_z   : zlib.decompress (zlib.compress x) = x
   Nothing is assumed about what decryption under another key returns, about hashes or about scrypt. *)
From Coq Require Import NArith ZArith List Bool.
From LV Require Import Lib.Bytes Lib.Decimal Model.C13.
Import ListNotations.
Local Open Scope N_scope.

Definition len16 (b : bytes) : Prop := length b = 16%nat.
Definition iv_ok (o : option bytes) : Prop := match o with Some iv => len16 iv | None => True end.

Lemma nonempty_false b : nonempty b = false -> b = [].
Proof. destruct b; [reflexivity|discriminate]. Qed.

Lemma get_iv_len cur rnd : iv_ok cur -> Forall len16 rnd ->
  len16 (fst (get_iv cur rnd)) /\ Forall len16 (snd (get_iv cur rnd)).
Proof.
  intros Hc Hr. destruct cur as [iv|]; [split; assumption|].
  destruct Hr; split; [reflexivity|constructor|assumption|assumption].
Qed.

(* the private key string to_dict starts from *)
Definition key_string (a : account) : bytes :=
  if a_encrypted a then a_pks a else match a_priv a with Some x => x | None => a_pks a end.

Section WithPrims.
Variable P : prims.

(* well-formedness of plaintext accounts: what a Python str / PrivateKey object guarantees *)
Record wf_account (a : account) : Prop := {
  wf_plain : a_encrypted a = false;
  wf_seed_utf8 : utf8_ok P (a_seed a) = true;                     (* the seed is a str *)
  wf_seed_pub : nonempty (a_seed a) = true ->                      (* the seed regenerates the account's public key *)
                bytes_eqb (addr_of_seed P (a_seed a)) (addr_of_pub P (a_pub a)) = true;
  wf_priv : forall x, a_priv a = Some x -> xparse P x = XOk x /\ utf8_ok P x = true /\ nonempty x = true;
  wf_pks : a_priv a = None -> a_pks a = [];                       (* no key object: no key string either *)
  wf_ivs : iv_ok (a_iv_seed a);
  wf_ivp : iv_ok (a_iv_priv a)
}.

(* seed, keys and addresses (addresses are a function of the public key) *)
Definition secrets (a : account) := (a_seed a, a_priv a, a_pub a, a_encrypted a).

Definition strip_iv (a : account) : account :=
  set_secrets a (a_seed a) (a_pks a) (a_priv a) (a_encrypted a) None None.

Definition restored (a a' : account) : Prop :=
  exists ivs ivp, a' = set_secrets a (a_seed a) [] (a_priv a) false ivs ivp /\ iv_ok ivs /\ iv_ok ivp.

Definition wf_wallet (w : wallet) : Prop := Forall (wf_account) (w_accounts w).

Hypothesis H_DE : forall k iv p, D P k iv (E P k iv p) = DOk p.
Hypothesis H_b64 : forall x, b64d P (b64e P x) = Some x.
Hypothesis H_b64_nil : b64d P [] = Some [].
Hypothesis H_z : forall x, zd P (zc P x) = ZOk x.

Lemma aes_roundtrip pw p iv : len16 iv -> utf8_ok P p = true ->
  aes_decrypt P pw (aes_encrypt P pw p iv) = Ok (p, iv).
Proof.
  intros Hl Hu. unfold aes_decrypt, aes_encrypt. rewrite H_b64.
  rewrite (firstn_app_exact' 16 iv), (skipn_app_exact' 16 iv) by (symmetry; exact Hl).
  rewrite H_DE, Hu. reflexivity.
Qed.

Lemma aes_encrypt_nonempty pw p iv : len16 iv -> nonempty (aes_encrypt P pw p iv) = true.
Proof.
  intros Hl. unfold aes_encrypt.
  destruct (b64e P (iv ++ E P (kdf P pw) iv p)) eqn:Hbe; [|reflexivity].
  exfalso. pose proof (H_b64 (iv ++ E P (kdf P pw) iv p)) as Hb. rewrite Hbe, H_b64_nil in Hb.
  injection Hb as Hb. destruct iv; [discriminate Hl | discriminate Hb].
Qed.

(* How Account.encrypt and to_dict(encrypt_password) store one secret: an empty one stays as it is and draws no init
   vector.  Both are two of these steps, in opposite orders. *)
Definition seal1 (pw plain : bytes) (cur : option bytes) (rnd : list bytes) : bytes * option bytes * list bytes :=
  if nonempty plain then let (iv, rnd') := get_iv cur rnd in (aes_encrypt P pw plain iv, Some iv, rnd')
  else (plain, cur, rnd).

(* [ct] is what seal1 stores for [plain] when [iv] is the init vector it leaves behind *)
Definition sealed (pw plain : bytes) (iv : option bytes) (ct : bytes) : Prop :=
  if nonempty plain then exists v, iv = Some v /\ len16 v /\ ct = aes_encrypt P pw plain v else ct = [].

Lemma seal1_sealed pw plain cur rnd : iv_ok cur -> Forall len16 rnd ->
  exists ct iv rnd', seal1 pw plain cur rnd = (ct, iv, rnd') /\ sealed pw plain iv ct /\ iv_ok iv /\ Forall len16 rnd'.
Proof.
  intros Hc Hr. unfold seal1, sealed. destruct (nonempty plain) eqn:Hn.
  - destruct (get_iv_len cur rnd Hc Hr) as [Hl Hr']. destruct (get_iv cur rnd) as [v rnd']. eauto 10.
  - eauto 8 using nonempty_false.
Qed.

Lemma seal1_again pw plain iv ct : sealed pw plain iv ct -> seal1 pw plain iv [] = (ct, iv, []).
Proof.
  unfold seal1, sealed. destruct (nonempty plain) eqn:Hn.
  - intros (v & -> & _ & ->). reflexivity.
  - intros ->. rewrite (nonempty_false _ Hn). reflexivity.
Qed.

(* Both decrypt steps return the init vector they found; it is the remembered one whenever the account remembers the
   one its string was sealed with. *)
Lemma decrypt_seed_sealed pw b sd iv : sealed pw sd iv (a_seed b) -> utf8_ok P sd = true ->
  (nonempty sd = true -> bytes_eqb (addr_of_seed P sd) (addr_of_pub P (a_pub b)) = true) ->
  exists iv', decrypt_seed P pw b = (iv', Ok sd) /\ (a_iv_seed b = iv -> iv' = iv).
Proof.
  unfold sealed, decrypt_seed. intros Hs Hu Hp. destruct (nonempty sd) eqn:Hn.
  - destruct Hs as (v & -> & Hl & ->). rewrite aes_encrypt_nonempty, aes_roundtrip, Hn, Hp by auto. eauto.
  - rewrite Hs, (nonempty_false _ Hn). cbn. eauto.
Qed.

Lemma decrypt_priv_sealed pw b pk iv :
  (forall x, pk = Some x -> xparse P x = XOk x /\ utf8_ok P x = true /\ nonempty x = true) ->
  sealed pw (match pk with Some x => x | None => [] end) iv (a_pks b) ->
  exists iv', decrypt_priv P pw b = (iv', Ok pk) /\ (a_iv_priv b = iv -> iv' = iv).
Proof.
  unfold sealed, decrypt_priv. intros Hk Hs. destruct pk as [x|].
  - destruct (Hk x eq_refl) as (Hx & Hu & Hn). rewrite Hn in Hs. destruct Hs as (v & -> & Hl & ->).
    rewrite aes_encrypt_nonempty, aes_roundtrip, Hn, Hx by auto. eauto.
  - cbn in Hs. rewrite Hs. cbn. eauto.
Qed.

Lemma wf_key_string a : wf_account a -> key_string a = match a_priv a with Some x => x | None => [] end.
Proof.
  intros Hw. unfold key_string. rewrite (wf_plain a Hw).
  destruct (a_priv a) eqn:Hp; [reflexivity|exact (wf_pks a Hw Hp)].
Qed.

Lemma restored_wf a a' : wf_account a -> restored a a' -> wf_account a'.
Proof. intros [] (ivs & ivp & -> & Hi & Hj). constructor; cbn; auto. Qed.

(* an account whose stored strings are the sealed secrets of [a] opens to them, wherever it comes from *)
Lemma sealed_opens pw a b ivs ivp : wf_account a -> a_pub b = a_pub a ->
  sealed pw (a_seed a) ivs (a_seed b) -> sealed pw (key_string a) ivp (a_pks b) ->
  exists ivs' ivp', account_decrypt P pw b = (DTrue, set_secrets b (a_seed a) [] (a_priv a) false ivs' ivp')
                    /\ (a_iv_seed b = ivs -> ivs' = ivs) /\ (a_iv_priv b = ivp -> ivp' = ivp).
Proof.
  intros Hw Hpub Hs Hk. rewrite (wf_key_string a Hw) in Hk.
  destruct (decrypt_seed_sealed pw b _ ivs Hs (wf_seed_utf8 a Hw)) as (ivs' & Hds & Hi).
  { rewrite Hpub. exact (wf_seed_pub a Hw). }
  destruct (decrypt_priv_sealed pw b _ ivp (wf_priv a Hw) Hk) as (ivp' & Hdp & Hj).
  exists ivs', ivp'. unfold account_decrypt. rewrite Hds.
  (* decrypt_priv reads the key string and its init vector only *)
  change (decrypt_priv P pw (set_secrets b _ _ _ _ _ _)) with (decrypt_priv P pw b). rewrite Hdp. auto.
Qed.

Lemma account_encrypt_seal1 pw rnd a : wf_account a ->
  account_encrypt P pw rnd a =
    let '(sd, ivs, rnd1) := seal1 pw (a_seed a) (a_iv_seed a) rnd in
    let '(pk, ivp, rnd2) := seal1 pw (key_string a) (a_iv_priv a) rnd1 in
    (set_secrets a sd pk None true ivs ivp, rnd2).
Proof.
  intros Hw. unfold account_encrypt. fold (seal1 pw (a_seed a) (a_iv_seed a) rnd).
  destruct (seal1 pw (a_seed a) (a_iv_seed a) rnd) as [[sd ivs] rnd1].
  rewrite (wf_key_string a Hw). unfold seal1. destruct (a_priv a) as [x|] eqn:Hx.
  - destruct (wf_priv a Hw x Hx) as (_ & _ & ->). reflexivity.
  - rewrite (wf_pks a Hw Hx). reflexivity.
Qed.

(* the seed string of an encrypted account does not depend on what the account holds as a key *)
Lemma account_encrypt_seed pw rnd a :
  a_seed (fst (account_encrypt P pw rnd a)) = fst (fst (seal1 pw (a_seed a) (a_iv_seed a) rnd)).
Proof.
  unfold account_encrypt. fold (seal1 pw (a_seed a) (a_iv_seed a) rnd).
  destruct (seal1 pw (a_seed a) (a_iv_seed a) rnd) as [[sd ivs] rnd1].
  destruct (a_priv a); [destruct (get_iv (a_iv_priv a) rnd1)|]; reflexivity.
Qed.

(* the dict of an account stored encrypted, [sd] and [pk] being its two secret strings *)
Definition enc_dict (a : account) (sd pk : bytes) : jv :=
  JO [(c_ledger, JS (a_ledger a)); (c_name, JS (a_name a)); (c_seed, JS sd); (c_encrypted, JB true);
      (c_private_key, JS pk); (c_public_key, JS (a_pub a)); (c_address_generator, a_addrgen a);
      (c_modified_on, JN (a_modified a)); (c_certificates, a_certs a)].

Lemma account_to_dict_seal1 pw rnd a : a_encrypted a = false ->
  account_to_dict P (Some pw) rnd a =
    let '(pk, ivp, rnd1) := seal1 pw (key_string a) (a_iv_priv a) rnd in
    let '(sd, ivs, rnd2) := seal1 pw (a_seed a) (a_iv_seed a) rnd1 in
    (enc_dict a sd pk, set_secrets a (a_seed a) (a_pks a) (a_priv a) false ivs ivp, rnd2).
Proof. intros He. unfold account_to_dict, key_string, seal1. rewrite He. reflexivity. Qed.

(* Account.encrypt, then Account.decrypt with the same password, then Account.encrypt(password) again (the init
   vectors remembered by decrypt are reused, no randomness is drawn): the secrets come back, and then the very same
   encrypted account *)
Lemma account_roundtrip pw rnd a : wf_account a -> Forall len16 rnd ->
  exists b rnd',
    account_encrypt P pw rnd a = (b, rnd') /\ Forall len16 rnd'
    /\ a_encrypted b = true /\ a_priv b = None
    /\ let a' := set_secrets a (a_seed a) [] (a_priv a) false (a_iv_seed b) (a_iv_priv b) in
       account_decrypt P pw b = (DTrue, a') /\ fst (account_encrypt P pw [] a') = b.
Proof.
  intros Hw Hr. rewrite (account_encrypt_seal1 pw rnd a Hw).
  destruct (seal1_sealed pw (a_seed a) _ rnd (wf_ivs a Hw) Hr) as (sd & ivs & rnd1 & -> & Hs & Hi & Hr1).
  destruct (seal1_sealed pw (key_string a) _ rnd1 (wf_ivp a Hw) Hr1) as (pk & ivp & rnd2 & -> & Hk & Hj & Hr2).
  eexists _, _. repeat split; auto; cbn [a_iv_seed a_iv_priv set_secrets].
  - destruct (sealed_opens pw a (set_secrets a sd pk None true ivs ivp) ivs ivp Hw eq_refl Hs Hk)
      as (ivs' & ivp' & Hd & Hi' & Hj'). rewrite (Hi' eq_refl), (Hj' eq_refl) in Hd. exact Hd.
  - assert (Hw' : wf_account (set_secrets a (a_seed a) [] (a_priv a) false ivs ivp))
      by (apply (restored_wf a); [exact Hw|exists ivs, ivp; auto]).
    rewrite (wf_key_string a Hw) in Hk.
    rewrite (account_encrypt_seal1 _ _ _ Hw'), (wf_key_string _ Hw'). cbn [a_seed a_priv a_iv_seed a_iv_priv set_secrets].
    rewrite (seal1_again _ _ _ _ Hs), (seal1_again _ _ _ _ Hk). reflexivity.
Qed.

Lemma account_to_dict_enc pw rnd a : wf_account a -> Forall len16 rnd ->
  exists sd pk ivs ivp,
    fst (fst (account_to_dict P (Some pw) rnd a)) = enc_dict a sd pk
    /\ sealed pw (a_seed a) ivs sd /\ sealed pw (key_string a) ivp pk
    /\ Forall len16 (snd (account_to_dict P (Some pw) rnd a)).
Proof.
  intros Hw Hr. rewrite (account_to_dict_seal1 pw rnd a (wf_plain a Hw)).
  destruct (seal1_sealed pw (key_string a) _ rnd (wf_ivp a Hw) Hr) as (pk & ivp & rnd1 & -> & Hk & _ & Hr1).
  destruct (seal1_sealed pw (a_seed a) _ rnd1 (wf_ivs a Hw) Hr1) as (sd & ivs & rnd2 & -> & Hs & _ & Hr2).
  exists sd, pk, ivs, ivp. auto.
Qed.

(* the plaintext dict of a restored account is the dict it had before *)
Lemma restored_to_dict a a' rnd : wf_account a -> restored a a' ->
  fst (fst (account_to_dict P None rnd a')) = fst (fst (account_to_dict P None rnd a)).
Proof.
  intros Hw (ivs & ivp & -> & _). unfold account_to_dict. cbn.
  rewrite (wf_plain _ Hw). cbn.
  destruct (a_priv a) eqn:Hp; [reflexivity|]. rewrite (wf_pks _ Hw Hp). reflexivity.
Qed.

Lemma lock_unlock_accounts pw l : Forall wf_account l -> forall rnd, Forall len16 rnd ->
  exists l', unlock_accounts P pw (fst (lock_accounts P pw rnd l)) = (UTrue, l')
             /\ map secrets l' = map secrets l /\ existsb a_encrypted l' = false
             /\ Forall (fun b => a_encrypted b = true /\ a_priv b = None) (fst (lock_accounts P pw rnd l)).
Proof.
  induction 1 as [|a l Ha _ IH]; intros rnd Hr.
  - exists []. repeat split; constructor.
  - cbn [lock_accounts]. rewrite (wf_plain _ Ha).
    destruct (account_roundtrip pw rnd a Ha Hr) as (b & rnd1 & -> & Hr1 & He & Hp & Hd & _).
    destruct (IH rnd1 Hr1) as (l' & Hu & Hs & Hf & Hall).
    destruct (lock_accounts P pw rnd1 l) as [r' rnd']. cbn [fst] in *.
    eexists. cbn [unlock_accounts]. rewrite He, Hd, Hu.
    split; [reflexivity|]. cbn [map existsb]. rewrite Hs, Hf. unfold secrets at 1 3. cbn. rewrite (wf_plain _ Ha). auto.
Qed.

Lemma is_locked_false_all w : is_locked w = false -> Forall (fun a => a_encrypted a = false) (w_accounts w).
Proof.
  unfold is_locked. induction (w_accounts w) as [|a l IH]; cbn [existsb]; intros H; [constructor|].
  apply orb_false_elim in H. constructor; [apply H|apply IH, H].
Qed.

Lemma unlock_accounts_skip pw pre rest : Forall (fun x => a_encrypted x = false) pre ->
  unlock_accounts P pw (pre ++ rest) =
    (fst (unlock_accounts P pw rest), pre ++ snd (unlock_accounts P pw rest)).
Proof.
  induction 1 as [|x pre Hx _ IH].
  - cbn. destruct (unlock_accounts P pw rest); reflexivity.
  - cbn [app unlock_accounts]. rewrite Hx, IH. destruct (unlock_accounts P pw rest); reflexivity.
Qed.

(* Wallet.unlock either compares passwords and changes nothing, or goes through the accounts *)
Theorem unlock_of_unlocked : forall w pw q, is_locked w = false -> w_pw w = Some q ->
  unlock P pw w = (if bytes_eqb pw q then UTrue else UFalse, w).
Proof. intros w pw q Hl Hq. unfold unlock. rewrite Hl, Hq. reflexivity. Qed.

Lemma unlock_through_accounts pw w : is_locked w = true \/ w_pw w = None ->
  unlock P pw w = (fst (unlock_accounts P pw (w_accounts w)),
                   mkWallet (w_name w) (w_prefs w) (snd (unlock_accounts P pw (w_accounts w)))
                            (match fst (unlock_accounts P pw (w_accounts w)) with UTrue => Some pw | _ => w_pw w end)).
Proof.
  unfold unlock. destruct (unlock_accounts P pw (w_accounts w)). intros [->| ->]; [|destruct (is_locked w)]; reflexivity.
Qed.

Lemma unlock_cases w : (is_locked w = true \/ w_pw w = None) \/ exists q, is_locked w = false /\ w_pw w = Some q.
Proof. destruct (is_locked w), (w_pw w); eauto. Qed.

Lemma unlock_keeps_prefs pw w : w_prefs (snd (unlock P pw w)) = w_prefs w.
Proof.
  destruct (unlock_cases w) as [H|(q & Hl & Hq)];
    [rewrite (unlock_through_accounts pw w H)|rewrite (unlock_of_unlocked w pw q Hl Hq)]; reflexivity.
Qed.

Lemma unlock_true_pw pw w : fst (unlock P pw w) = UTrue -> w_pw (snd (unlock P pw w)) = Some pw.
Proof.
  destruct (unlock_cases w) as [H|(q & Hl & Hq)].
  - rewrite (unlock_through_accounts pw w H). cbn. intros ->. reflexivity.
  - rewrite (unlock_of_unlocked w pw q Hl Hq). cbn. destruct (bytes_eqb pw q) eqn:E; [|discriminate].
    apply bytes_eqb_eq in E. congruence.
Qed.

Theorem unlock_restores : forall w pw rnd,
  wf_wallet w -> w_pw w = Some pw -> Forall len16 rnd ->
  exists w1 w2,
    lock P rnd w = Ok w1
    /\ Forall (fun b => a_encrypted b = true /\ a_priv b = None) (w_accounts w1)
    /\ unlock P pw w1 = (UTrue, w2)
    /\ map secrets (w_accounts w2) = map secrets (w_accounts w)
    /\ is_locked w2 = false /\ w_pw w2 = Some pw /\ w_name w2 = w_name w /\ w_prefs w2 = w_prefs w.
Proof.
  intros w pw rnd Hwf Hpw Hr.
  destruct (lock_unlock_accounts pw (w_accounts w) Hwf rnd Hr) as (l' & Hu & Hs & Hf & Hall).
  unfold lock. rewrite Hpw. set (l1 := fst (lock_accounts P pw rnd (w_accounts w))) in *.
  exists (mkWallet (w_name w) (w_prefs w) l1 (Some pw)), (mkWallet (w_name w) (w_prefs w) l' (Some pw)).
  repeat split; auto.
  - (* an empty wallet is not locked: unlock compares the password with itself *)
    destruct l1 as [|b l1].
    + cbn in Hu. injection Hu as <-. cbn. rewrite bytes_eqb_refl. reflexivity.
    + rewrite unlock_through_accounts; cbn [w_accounts]; [rewrite Hu; reflexivity|].
      left. inversion Hall as [|? ? [Hb _] _]. unfold is_locked. cbn. rewrite Hb. reflexivity.
Qed.

(* deterministic channel keys are a function of what unlock restores *)
Lemma secrets_channel_view l1 l2 k : map secrets l1 = map secrets l2 ->
  map (fun a => channel_view P a k) l1 = map (fun a => channel_view P a k) l2.
Proof.
  revert l2. induction l1 as [|a l1 IH]; intros [|b l2] H; try discriminate H; [reflexivity|].
  cbn [map] in *. unfold secrets at 1 3 in H. injection H as _ Hp _ He Hr. rewrite (IH _ Hr). f_equal.
  unfold channel_view. rewrite Hp, He. reflexivity.
Qed.

Theorem channel_keys_restored : forall w pw rnd k,
  wf_wallet w -> w_pw w = Some pw -> Forall len16 rnd ->
  exists w1 w2,
    lock P rnd w = Ok w1 /\ Forall (fun b => channel_view P b k = None) (w_accounts w1)
    /\ unlock P pw w1 = (UTrue, w2)
    /\ map (fun a => channel_view P a k) (w_accounts w2) = map (fun a => channel_view P a k) (w_accounts w).
Proof.
  intros w pw rnd k Hwf Hpw Hr.
  destruct (unlock_restores w pw rnd Hwf Hpw Hr) as (w1 & w2 & Hl & Hall & Hu & Hs & _).
  exists w1, w2. split; [exact Hl|]. split.
  - eapply Forall_impl; [|exact Hall]. intros b [He _]. unfold channel_view. rewrite He. reflexivity.
  - split; [exact Hu|]. apply secrets_channel_view. exact Hs.
Qed.

Lemma account_decrypt_refused pw a : fst (account_decrypt P pw a) <> DTrue ->
  strip_iv (snd (account_decrypt P pw a)) = strip_iv a.
Proof.
  unfold account_decrypt. destruct (decrypt_seed P pw a) as [ivs [sd|e]]; [|reflexivity].
  destruct (decrypt_priv P pw _) as [ivp [pk|[]]]; try reflexivity. intros H. contradiction H. reflexivity.
Qed.

(* refusal (False or an escaping exception) by the FIRST encrypted account: nothing is assumed about the accounts *)
Theorem failed_unlock_unchanged_first : forall w pw pre a post,
  w_accounts w = pre ++ a :: post ->
  Forall (fun x => a_encrypted x = false) pre -> a_encrypted a = true ->
  fst (account_decrypt P pw a) <> DTrue ->
  fst (unlock P pw w) <> UTrue
  /\ is_locked (snd (unlock P pw w)) = true
  /\ w_pw (snd (unlock P pw w)) = w_pw w
  /\ w_name (snd (unlock P pw w)) = w_name w /\ w_prefs (snd (unlock P pw w)) = w_prefs w
  /\ map strip_iv (w_accounts (snd (unlock P pw w))) = map strip_iv (w_accounts w).
Proof.
  intros w pw pre a post Hacc Hpre Ha Hrefuse.
  assert (Hl : is_locked w = true).
  { unfold is_locked. rewrite Hacc, existsb_app. cbn. rewrite Ha. apply orb_true_r. }
  rewrite (unlock_through_accounts pw w (or_introl Hl)), Hacc, (unlock_accounts_skip pw pre _ Hpre).
  cbn [unlock_accounts]. rewrite Ha.
  pose proof (account_decrypt_refused pw a Hrefuse) as Hs. pose proof (f_equal a_encrypted Hs) as He.
  destruct (account_decrypt P pw a) as [[| |e] a']; [contradiction Hrefuse; reflexivity| |];
    unfold is_locked; cbn in *; rewrite !map_app, existsb_app; cbn; rewrite Hs, He, Ha, orb_true_r;
    repeat split; discriminate.
Qed.

(* An account that this password opens was sealed with this password by Account.encrypt (what a key decrypts that
   did not encrypt is not assumed, so such an account must be excluded: it could not be restored bit for bit). *)
Definition sealed_if_opened (pw : bytes) (a : account) : Prop :=
  a_encrypted a = true -> fst (account_decrypt P pw a) = DTrue ->
  exists a0 rnd, wf_account a0 /\ Forall len16 rnd /\ a = fst (account_encrypt P pw rnd a0).

(* Wallet.unlock answers False, whichever account refused: every account is what it was (but for the init vectors
   remembered by the refusing account) *)
Lemma unlock_false_accounts pw l : Forall (sealed_if_opened pw) l -> forall l',
  unlock_accounts P pw l = (UFalse, l') -> map strip_iv l' = map strip_iv l.
Proof.
  induction 1 as [|a l Ha _ IH]; intros l' Hu; [discriminate Hu|].
  cbn [unlock_accounts] in Hu. destruct (a_encrypted a) eqn:He.
  - pose proof (account_decrypt_refused pw a) as Hre.
    destruct (account_decrypt P pw a) as [[| |e] a'] eqn:Hd; [|injection Hu as <-|discriminate Hu].
    + destruct (unlock_accounts P pw l) as [[| |] r2]; try discriminate Hu. injection Hu as <-.
      (* the account opened: it was sealed by Account.encrypt, which gives the same account again *)
      destruct (Ha He (f_equal fst Hd)) as (a0 & rnd & Hw & Hrnd & Hb).
      destruct (account_roundtrip pw rnd a0 Hw Hrnd) as (b & rnd' & Hab & _ & _ & _ & Hd' & Hre').
      rewrite Hab in Hb. cbn [fst] in Hb. subst b. rewrite Hd' in Hd. injection Hd as <-.
      cbn [map]. rewrite Hre', (IH r2 eq_refl). reflexivity.
    + cbn [map]. f_equal. apply Hre. discriminate.
  - destruct (unlock_accounts P pw l) as [o2 r2]. injection Hu as -> <-. cbn [map]. rewrite (IH r2 eq_refl). reflexivity.
Qed.

Lemma strip_iv_locked l : existsb a_encrypted (map strip_iv l) = existsb a_encrypted l.
Proof. induction l as [|a l IH]; cbn [map existsb]; [|rewrite IH]; reflexivity. Qed.

Theorem failed_unlock_unchanged : forall w pw,
  Forall (sealed_if_opened pw) (w_accounts w) ->
  fst (unlock P pw w) = UFalse ->
  is_locked (snd (unlock P pw w)) = is_locked w
  /\ w_pw (snd (unlock P pw w)) = w_pw w
  /\ w_name (snd (unlock P pw w)) = w_name w /\ w_prefs (snd (unlock P pw w)) = w_prefs w
  /\ map strip_iv (w_accounts (snd (unlock P pw w))) = map strip_iv (w_accounts w).
Proof.
  intros w pw Hs. destruct (unlock_cases w) as [H|(q & Hl & Hq)].
  - rewrite (unlock_through_accounts pw w H).
    destruct (unlock_accounts P pw (w_accounts w)) as [o l'] eqn:Hu. cbn [fst snd]. intros ->.
    pose proof (unlock_false_accounts pw _ Hs _ Hu) as Hm.
    unfold is_locked. cbn. rewrite <- (strip_iv_locked l'), Hm, strip_iv_locked. auto.
  - rewrite (unlock_of_unlocked w pw q Hl Hq). auto.
Qed.

(* The behaviour before the two repairs, kept as refuted claims.  Wallet.unlock before a1c8e7f: no re-locking *)
Fixpoint unlock_accounts_old (pw : bytes) (l : list account) : uout * list account :=
  match l with
  | [] => (UTrue, [])
  | a :: r =>
      if a_encrypted a then
        match account_decrypt P pw a with
        | (DTrue, a') => let (o, r') := unlock_accounts_old pw r in (o, a' :: r')
        | (DFalse, a') => (UFalse, a' :: r)
        | (DExc e, a') => (UExc e, a' :: r)
        end
      else let (o, r') := unlock_accounts_old pw r in (o, a :: r')
  end.

Theorem old_unlock_left_earlier_accounts_decrypted : forall pw pre a post pre',
  unlock_accounts_old pw pre = (UTrue, pre') -> a_encrypted a = true ->
  fst (account_decrypt P pw a) <> DTrue ->
  fst (unlock_accounts_old pw (pre ++ a :: post)) <> UTrue /\
  snd (unlock_accounts_old pw (pre ++ a :: post)) = pre' ++ snd (account_decrypt P pw a) :: post.
Proof.
  intros pw pre. induction pre as [|x pre IH]; intros a post pre' Hu Ha Hr; cbn [app unlock_accounts_old] in *.
  - injection Hu as <-. rewrite Ha.
    destruct (account_decrypt P pw a) as [[| |e] a']; [contradiction Hr; reflexivity| |];
      split; (discriminate || reflexivity).
  - (* the head, decrypted or passed over, stays in front of what the tail gives *)
    specialize (IH a post). destruct (unlock_accounts_old pw pre) as [o1 r1].
    destruct (unlock_accounts_old pw (pre ++ a :: post)) as [o2 r2].
    destruct (a_encrypted x); [destruct (account_decrypt P pw x) as [[| |e] x']; try discriminate Hu|];
      injection Hu as -> <-; destruct (IH r1 eq_refl Ha Hr) as [H1 H2]; cbn [fst snd] in *; subst r2; auto.
Qed.

(* Account._decrypt_seed / Account.decrypt before cfbbf5f: the decrypted seed had to pass the English word-list check *)
Definition decrypt_seed_old (pw : bytes) (a : account) : option bytes * res bytes :=
  if nonempty (a_seed a) then
    match aes_decrypt P pw (a_seed a) with
    | Err e => (a_iv_seed a, Err e)
    | Ok (sd, iv) =>
        if nonempty sd then
          if seed_ok P sd then (Some iv, Ok sd) else (Some iv, Err EValueError)
        else (Some iv, Ok [])
    end
  else (a_iv_seed a, Ok []).

Definition account_decrypt_old (pw : bytes) (a : account) : dout * account :=
  let (ivs, rs) := decrypt_seed_old pw a in
  let a1 := set_secrets a (a_seed a) (a_pks a) (a_priv a) (a_encrypted a) ivs (a_iv_priv a) in
  match rs with
  | Err _ => (DFalse, a1)
  | Ok sd =>
      let (ivp, rp) := decrypt_priv P pw a1 in
      let a2 := set_secrets a1 (a_seed a1) (a_pks a1) (a_priv a1) (a_encrypted a1) ivs ivp in
      match rp with
      | Err EBase58 => (DExc EBase58, a2)
      | Err _ => (DFalse, a2)
      | Ok pk => (DTrue, set_secrets a2 sd [] pk false ivs ivp)
      end
  end.

Theorem old_seed_check_refused_correct_password : forall a pw rnd,
  a_encrypted a = false -> nonempty (a_seed a) = true -> utf8_ok P (a_seed a) = true ->
  seed_ok P (a_seed a) = false -> iv_ok (a_iv_seed a) -> Forall len16 rnd ->
  fst (account_decrypt_old pw (fst (account_encrypt P pw rnd a))) = DFalse.
Proof.
  intros a pw rnd _ Hne Hu Hbad Hiv Hr.
  unfold account_decrypt_old, decrypt_seed_old. rewrite account_encrypt_seed.
  destruct (seal1_sealed pw (a_seed a) _ rnd Hiv Hr) as (sd & ivs & rnd1 & -> & H & _).
  unfold sealed in H. rewrite Hne in H. destruct H as (v & _ & Hl & ->). cbn [fst].
  rewrite aes_encrypt_nonempty, aes_roundtrip, Hne, Hbad by assumption. reflexivity.
Qed.

(* Through the disk: encrypted save, restart (from_storage), unlock.  from_dict of the sorted-key reading of an
   encrypted account dict, and from_storage of a wallet dict: the sort and the lookups are evaluated over the fixed
   keys, the values stay as they are (normalising the open term instead is what makes this expensive) *)
Lemma account_of_dict_enc a sd pk :
  account_of_dict P (sortkeys (enc_dict a sd pk)) =
  Some (mkAccount (a_ledger a) (a_name a) sd pk None (a_pub a) true None None
                  (addrgen_norm (sortkeys (a_addrgen a))) (a_modified a) (sortkeys (a_certs a))).
Proof. reflexivity. Qed.

Lemma wallet_of_dict_image nm prefs ds : exists prefs',
  wallet_of_dict P (JO [(c_version, JN 1); (c_name, JS nm); (c_preferences, JO prefs); (c_accounts, JA ds)]) =
  option_map (fun accs => mkWallet nm prefs' accs None) (accounts_of_dicts P (map sortkeys ds)).
Proof. eexists. reflexivity. Qed.

Lemma reload_unlock_accounts pw l : Forall wf_account l -> forall rnd, Forall len16 rnd ->
  exists l1 l2,
    accounts_of_dicts P (map sortkeys (fst (fst (accounts_to_dict P (Some pw) rnd l)))) = Some l1
    /\ Forall (fun b => a_encrypted b = true /\ a_priv b = None) l1
    /\ unlock_accounts P pw l1 = (UTrue, l2)
    /\ map secrets l2 = map secrets l.
Proof.
  induction 1 as [|a l Ha _ IH]; intros rnd Hr.
  - exists [], []. cbn. repeat split; constructor.
  - cbn [accounts_to_dict].
    destruct (account_to_dict_enc pw rnd a Ha Hr) as (sd & pk & ivs & ivp & Hd & Hsd & Hpk & Hr1).
    destruct (account_to_dict P (Some pw) rnd a) as [[d a'] rnd1]. cbn [fst snd] in Hd, Hr1.
    destruct (IH rnd1 Hr1) as (l1 & l2 & Ho & Hall & Hu & Hs).
    destruct (accounts_to_dict P (Some pw) rnd1 l) as [[ds r'] rnd2]. cbn [fst] in *.
    cbn [map accounts_of_dicts]. rewrite Hd, account_of_dict_enc, Ho.
    set (b := mkAccount _ _ sd pk _ _ _ _ _ _ _ _).
    destruct (sealed_opens pw a b ivs ivp Ha eq_refl Hsd Hpk) as (ivs' & ivp' & Hb & _).
    eexists _, _. split; [reflexivity|]. split; [constructor; [split; reflexivity|exact Hall]|].
    cbn [unlock_accounts]. change (a_encrypted b) with true. cbn iota. rewrite Hb, Hu.
    split; [reflexivity|]. cbn [map]. rewrite Hs. f_equal.
    unfold secrets. cbn. rewrite (wf_plain _ Ha). reflexivity.
Qed.

Theorem disk_roundtrip : forall w (pw : bytes) rnd,
  wf_wallet w -> Forall len16 rnd ->
  exists w1 w2,
    wallet_of_dict P (fst (wallet_to_dict P (Some pw) rnd w)) = Some w1
    /\ Forall (fun b => a_encrypted b = true /\ a_priv b = None) (w_accounts w1)
    /\ w_pw w1 = None /\ w_name w1 = w_name w
    /\ unlock P pw w1 = (UTrue, w2)
    /\ map secrets (w_accounts w2) = map secrets (w_accounts w)
    /\ w_pw w2 = Some pw.
Proof.
  intros w pw rnd Hwf Hr.
  destruct (reload_unlock_accounts pw (w_accounts w) Hwf rnd Hr) as (l1 & l2 & Ho & Hall & Hu & Hs).
  unfold wallet_to_dict.
  destruct (accounts_to_dict P (Some pw) rnd (w_accounts w)) as [[ds accs] r]. cbn [fst] in Ho |- *.
  destruct (wallet_of_dict_image (w_name w) (w_prefs w) ds) as [pl ->]. rewrite Ho.
  eexists _, (mkWallet (w_name w) pl l2 (Some pw)).
  split; [reflexivity|]. rewrite unlock_through_accounts by (right; reflexivity). cbn. rewrite Hu. auto 8.
Qed.

(* b's:n:r:p:' + rest, split at most four times: the rest stays whole whatever bytes (colons included) it holds *)
Lemma take_field_spec f : forall acc rest, forallb (fun b => negb (byte_eqb b colon)) f = true ->
  take_field (f ++ colon :: rest) acc = (rev acc ++ f, Some rest).
Proof.
  induction f as [|b f IH]; intros acc rest H; cbn [app take_field].
  - rewrite byte_eqb_refl, app_nil_r. reflexivity.
  - cbn [forallb] in H. apply andb_prop in H. destruct H as [Hb Hf].
    destruct (byte_eqb b colon); [discriminate Hb|].
    rewrite (IH (b :: acc) rest Hf). cbn [rev]. rewrite <- app_assoc. reflexivity.
Qed.

Lemma split_field k f rest : forallb (fun b => negb (byte_eqb b colon)) f = true ->
  split_colon (S k) (f ++ colon :: rest) = f :: split_colon k rest.
Proof. intros H. cbn [split_colon]. rewrite (take_field_spec f [] rest H). reflexivity. Qed.

Lemma dec_no_colon n : forallb (fun b => negb (byte_eqb b colon)) (dec_of_N n) = true.
Proof.
  apply forallb_forall, Forall_forall. eapply Forall_impl; [|apply dec_of_N_Forall]. intros b Hd.
  apply negb_true_iff, (digit_not_byte b 58 Hd); [right|]; reflexivity.
Qed.

Lemma py_int_dec n : py_int (dec_of_N n) = Some n.
Proof. unfold py_int. rewrite dec_of_N_all_digits. apply N_of_dec_of_N. Qed.

(* a payload whose header carries ANY scrypt parameters (written by another writer of the same format): the reader
   derives the key with the parameters the header states *)
Definition foreign_payload (pw v iv : bytes) (n r p : N) : bytes :=
  b64e P ([byte_of_N 115] ++ colon :: dec_of_N n ++ colon :: dec_of_N r ++ colon :: dec_of_N p ++ colon ::
          iv ++ E P (scrypt P pw iv n r p) iv v).

Theorem foreign_header_honoured : forall pw v iv n r p, len16 iv ->
  better_aes_decrypt P pw (foreign_payload pw v iv n r p) = Ok v.
Proof.
  intros pw v iv n r p Hl. unfold better_aes_decrypt, foreign_payload. rewrite H_b64.
  rewrite (split_field 3 [byte_of_N 115]), (split_field 2 _ _ (dec_no_colon n)), (split_field 1 _ _ (dec_no_colon r)),
          (split_field 0 _ _ (dec_no_colon p)) by reflexivity.
  cbn [split_colon]. rewrite !py_int_dec.
  rewrite (firstn_app_exact' 16 iv), (skipn_app_exact' 16 iv) by (symmetry; exact Hl).
  rewrite H_DE. reflexivity.
Qed.

(* Wallet.pack writes the header s:8192:16:1: *)
Lemma better_roundtrip pw v iv : len16 iv ->
  better_aes_decrypt P pw (better_aes_encrypt P pw v iv) = Ok v.
Proof. exact (foreign_header_honoured pw v iv 8192 16 1). Qed.

Theorem foreign_payload_merges : forall pw js iv n r p, len16 iv ->
  merge_payload P (Some pw) (foreign_payload pw (zc P js) iv n r p) = Ok js.
Proof.
  intros. unfold merge_payload, unpack. rewrite foreign_header_honoured by assumption. rewrite H_z. reflexivity.
Qed.

Theorem pack_unpack : forall w pw iv, len16 iv -> is_locked w = false ->
  exists packed, pack P pw iv w = Ok packed /\ unpack P pw packed = Ok (to_json P w).
Proof.
  intros w pw iv Hl Hlk. unfold pack. rewrite Hlk. eexists. split; [reflexivity|].
  unfold unpack. rewrite (better_roundtrip pw _ iv Hl), H_z. reflexivity.
Qed.

(* Wallet.merge hands a payload that comes with a password to unpack and takes one without as it is *)
Theorem merge_payload_roundtrip : forall w pw iv, len16 iv -> is_locked w = false ->
  exists packed, pack P pw iv w = Ok packed /\ merge_payload P (Some pw) packed = Ok (to_json P w)
                 /\ merge_payload P None (to_json P w) = Ok (to_json P w).
Proof.
  intros w pw iv Hl Hlk. destruct (pack_unpack w pw iv Hl Hlk) as (packed & Hp & Hu).
  exists packed. auto.
Qed.

Theorem pack_refuses_locked : forall w pw iv, is_locked w = true -> pack P pw iv w = Err EAssertion.
Proof. intros w pw iv H. unfold pack. rewrite H. reflexivity. Qed.

(* What reaches the disk when encryption is on and a password is set.
   The public part of an account: no field holds a plaintext seed or private key.  For an account that is
   already encrypted in memory the stored ciphertext strings are part of it. *)
Record pub_account := mkPub {
  p_ledger : bytes; p_name : bytes; p_pub : bytes; p_encrypted : bool;
  p_iv_seed : option bytes; p_iv_priv : option bytes;
  p_addrgen : jv; p_modified : Z;
  p_certs : jv;                       (* channel keys: written as they are, encrypted wallet or not *)
  p_has_seed : bool; p_has_key : bool;
  p_stored_seed : bytes; p_stored_pks : bytes
}.

Definition pub_of (a : account) : pub_account :=
  mkPub (a_ledger a) (a_name a) (a_pub a) (a_encrypted a) (a_iv_seed a) (a_iv_priv a) (a_addrgen a) (a_modified a)
        (a_certs a) (nonempty (a_seed a)) (nonempty (key_string a))
        (if a_encrypted a then a_seed a else []) (if a_encrypted a then a_pks a else []).

(* the account dict computed from the public part and two ciphertext oracles iv |-> E key iv secret *)
Definition pub_to_dict (rnd : list bytes) (pa : pub_account) (es ep : bytes -> bytes) : jv * list bytes :=
  let '(pks, rnd1) :=
    if p_encrypted pa then (p_stored_pks pa, rnd)
    else if p_has_key pa then let (iv, rnd1) := get_iv (p_iv_priv pa) rnd in (b64e P (iv ++ ep iv), rnd1)
    else ([], rnd) in
  let '(seed, rnd2) :=
    if p_encrypted pa then (p_stored_seed pa, rnd1)
    else if p_has_seed pa then let (iv, rnd2) := get_iv (p_iv_seed pa) rnd1 in (b64e P (iv ++ es iv), rnd2)
    else ([], rnd1) in
  (JO [(c_ledger, JS (p_ledger pa)); (c_name, JS (p_name pa)); (c_seed, JS seed);
       (c_encrypted, JB true);
       (c_private_key, JS pks); (c_public_key, JS (p_pub pa));
       (c_address_generator, p_addrgen pa); (c_modified_on, JN (p_modified pa));
       (c_certificates, p_certs pa)], rnd2).

Definition sealed_view := (pub_account * (bytes -> bytes) * (bytes -> bytes))%type.

Fixpoint pubs_to_dicts (rnd : list bytes) (l : list sealed_view) : list jv :=
  match l with
  | [] => []
  | (pa, es, ep) :: r => let (d, rnd1) := pub_to_dict rnd pa es ep in d :: pubs_to_dicts rnd1 r
  end.

Definition public_image (name : bytes) (prefs : list (bytes * jv)) (rnd : list bytes) (l : list sealed_view) : jv :=
  JO [(c_version, JN 1); (c_name, JS name); (c_preferences, JO prefs); (c_accounts, JA (pubs_to_dicts rnd l))].

Definition seal (pw : bytes) (a : account) : sealed_view :=
  (pub_of a, fun iv => E P (kdf P pw) iv (a_seed a), fun iv => E P (kdf P pw) iv (key_string a)).

Lemma account_to_dict_public pw rnd a :
  (fst (fst (account_to_dict P (Some pw) rnd a)), snd (account_to_dict P (Some pw) rnd a)) =
  pub_to_dict rnd (pub_of a) (fun iv => E P (kdf P pw) iv (a_seed a)) (fun iv => E P (kdf P pw) iv (key_string a)).
Proof.
  unfold account_to_dict, pub_to_dict, pub_of, key_string, aes_encrypt.
  cbn [p_encrypted p_has_key p_has_seed p_iv_priv p_iv_seed p_stored_pks p_stored_seed p_ledger p_name p_pub
       p_addrgen p_modified p_certs].
  destruct (a_encrypted a); cbn [negb andb orb]; [reflexivity|].
  set (ks := match a_priv a with Some x => x | None => a_pks a end).
  destruct (nonempty ks) eqn:Hk;
    [destruct (get_iv (a_iv_priv a) rnd) as [iv1 rnd1]|rewrite (nonempty_false _ Hk)];
    (destruct (nonempty (a_seed a)) eqn:Hs;
       [destruct (get_iv (a_iv_seed a) _) as [iv2 rnd2]|rewrite (nonempty_false _ Hs)]); reflexivity.
Qed.

Lemma accounts_to_dict_public pw : forall l rnd,
  fst (fst (accounts_to_dict P (Some pw) rnd l)) = pubs_to_dicts rnd (map (seal pw) l).
Proof.
  induction l as [|a l IH]; intros rnd; [reflexivity|].
  cbn [accounts_to_dict map pubs_to_dicts seal]. rewrite <- account_to_dict_public.
  destruct (account_to_dict P (Some pw) rnd a) as [[d a'] rnd1]. cbn [fst snd]. specialize (IH rnd1).
  destruct (accounts_to_dict P (Some pw) rnd1 l) as [[ds r'] rnd2]. cbn [fst] in *.
  rewrite IH. reflexivity.
Qed.

(* the dict handed to storage.write by Wallet.save when the encrypt-on-disk preference is on and a password is set:
   a function of name, preferences, the init-vector supply and the sealed views *)
Theorem no_plaintext_on_disk : forall w pw ts rnd,
  pref_on w = true -> w_pw w = Some pw ->
  fst (save_dict P ts rnd w) = public_image (w_name w) (w_prefs w) rnd (map (seal pw) (w_accounts w)).
Proof.
  intros w pw ts rnd Hon Hpw.
  unfold save_dict. rewrite Hon, Hpw. unfold wallet_to_dict, public_image.
  rewrite <- accounts_to_dict_public.
  destruct (accounts_to_dict P (Some pw) rnd (w_accounts w)) as [[ds accs] r]. reflexivity.
Qed.

(* Wallet.unlock records the string it accepted as the password and leaves the preferences alone *)
Lemma unlock_save_sealed w pw ts rnd : pref_on w = true -> fst (unlock P pw w) = UTrue ->
  let w2 := snd (unlock P pw w) in
  fst (save_dict P ts rnd w2) = public_image (w_name w2) (w_prefs w2) rnd (map (seal pw) (w_accounts w2)).
Proof.
  intros Hon Hu. apply no_plaintext_on_disk; [|exact (unlock_true_pw pw w Hu)].
  unfold pref_on in *. rewrite unlock_keeps_prefs. exact Hon.
Qed.
End WithPrims.

Definition same_sealed (v1 v2 : sealed_view) : Prop :=
  fst (fst v1) = fst (fst v2) /\ (forall iv, snd (fst v1) iv = snd (fst v2) iv) /\ (forall iv, snd v1 iv = snd v2 iv).

Lemma pub_to_dict_ext P rnd pa es ep es' ep' : (forall iv, es iv = es' iv) -> (forall iv, ep iv = ep' iv) ->
  pub_to_dict P rnd pa es ep = pub_to_dict P rnd pa es' ep'.
Proof.
  intros Hs Hp. unfold pub_to_dict.
  destruct (p_encrypted pa); [reflexivity|].
  destruct (p_has_key pa); [destruct (get_iv (p_iv_priv pa) rnd) as [iv1 rnd1]; rewrite Hp|];
    (destruct (p_has_seed pa); [|reflexivity]);
    destruct (get_iv (p_iv_seed pa) _) as [iv2 rnd2]; rewrite Hs; reflexivity.
Qed.

Lemma pubs_to_dicts_ext P : forall l1 l2 rnd, Forall2 same_sealed l1 l2 ->
  pubs_to_dicts P rnd l1 = pubs_to_dicts P rnd l2.
Proof.
  intros l1 l2 rnd H. revert rnd. induction H as [|v1 v2 l1 l2 Hv _ IH]; intros rnd; [reflexivity|].
  destruct v1 as [[pa1 es1] ep1], v2 as [[pa2 es2] ep2]. destruct Hv as (Hpa & Hs & Hp). cbn in Hpa, Hs, Hp. subst pa2.
  cbn [pubs_to_dicts]. rewrite (pub_to_dict_ext P rnd pa1 es1 ep1 es2 ep2 Hs Hp).
  destruct (pub_to_dict P rnd pa1 es2 ep2) as [d rnd1]. rewrite IH. reflexivity.
Qed.

(* for ANY cipher E (no decryption hypothesis is involved): two wallets with the same public parts whose secrets have
   the same ciphertexts give byte-identical files *)
Theorem file_depends_on_ciphertexts_only : forall P w1 w2 pw ts rnd,
  pref_on w1 = true -> pref_on w2 = true -> w_pw w1 = Some pw -> w_pw w2 = Some pw ->
  w_name w1 = w_name w2 -> w_prefs w1 = w_prefs w2 ->
  Forall2 same_sealed (map (seal P pw) (w_accounts w1)) (map (seal P pw) (w_accounts w2)) ->
  render_file P (fst (save_dict P ts rnd w1)) = render_file P (fst (save_dict P ts rnd w2)).
Proof.
  intros P w1 w2 pw ts rnd H1 H2 Hp1 Hp2 Hn Hpr Hs.
  rewrite (no_plaintext_on_disk P w1 pw ts rnd H1 Hp1), (no_plaintext_on_disk P w2 pw ts rnd H2 Hp2).
  unfold public_image. rewrite Hn, Hpr, (pubs_to_dicts_ext P _ _ rnd Hs). reflexivity.
Qed.

Definition fdata (o : option file) : option bytes := option_map f_data o.

Lemma fs_set_same p f (t : fs) : fs_set p f t p = f.
Proof. unfold fs_set. rewrite bytes_eqb_refl. reflexivity. Qed.
Lemma fs_set_other p q f (t : fs) : q <> p -> fs_set p f t q = t q.
Proof. intros H. unfold fs_set. apply bytes_eqb_neq in H. rewrite H. reflexivity. Qed.

Lemma temp_neq path pid : temp_path path pid <> path.
Proof.
  unfold temp_path. intros H. rewrite <- (app_nil_r path) in H at 2. apply app_inv_head in H. discriminate H.
Qed.

Lemma temp_path_neq path p q : p <> q -> temp_path path p <> temp_path path q.
Proof.
  unfold temp_path. intros Hpq H. do 2 apply app_inv_head in H.
  pose proof (N_of_dec_of_N p) as Hp. rewrite H, N_of_dec_of_N in Hp. congruence.
Qed.

Lemma run_ops_app umask a : forall b t, run_ops umask (a ++ b) t = run_ops umask b (run_ops umask a t).
Proof. induction a; intros; cbn; auto. Qed.

(* the executable crash point used by the correspondence is one of the crash states ... *)
Lemma crash_at_crashes umask : forall ops n k t, crashes umask ops t (crash_at umask n k ops t).
Proof.
  induction ops as [|op ops IH]; intros n k t.
  - destruct n; cbn; constructor.
  - destruct n as [|n]; cbn [crash_at].
    + destruct op; try apply cr_here.
      pose proof (cr_partial umask p (firstn k d) (skipn k d) ops t) as H. rewrite firstn_skipn in H. exact H.
    + constructor. apply IH.
Qed.

(* ... and every crash state is one of them, file by file (a write of no bytes changes no file) *)
Lemma crashes_crash_at umask ops t t' q : crashes umask ops t t' -> exists n k, t' q = crash_at umask n k ops t q.
Proof.
  induction 1 as [ops t|p d1 d2 ops t|op ops t t' _ (n & k & IH)].
  - exists 0%nat, 0%nat. destruct ops as [|[|p d| | | | | | | |] ops]; try reflexivity. cbn.
    destruct (t p) as [[d0 m]|] eqn:Hp; [|reflexivity]. unfold fs_set.
    destruct (bytes_eqb q p) eqn:Hq; [|reflexivity]. apply bytes_eqb_eq in Hq. subst q. rewrite app_nil_r. auto.
  - exists 0%nat, (length d1). cbn [crash_at]. rewrite firstn_app_exact. reflexivity.
  - exists (S n), k. exact IH.
Qed.

Lemma crash_at_app umask k ops1 ops2 : forall j t,
  crash_at umask (length ops1 + j) k (ops1 ++ ops2) t = crash_at umask j k ops2 (run_ops umask ops1 t).
Proof. induction ops1 as [|op ops1 IH]; intros j t; [reflexivity|apply IH]. Qed.

(* A writer saves the wallet file through a temp file of its own.  What one of its operations does to the three files
   that matter -- its temp file, the wallet file, another writer's temp file -- is said once (own_tmp, own_path,
   own_frame); one save and two interleaved saves are inductions over that. *)
Section Writer.
Variable umask : N.
Variable path : bytes.

(* the operations of one save, for either outcome of its os.path.exists and any mode it may have read *)
Definition wops (tmp d : bytes) (st : bool) (m : N) : list fsop :=
  [FOpenW tmp; FWrite tmp d; FFlush tmp; FFsync tmp; FClose tmp; FExists path] ++
  (if st then [FStat path] else []) ++ [FRename tmp path; FChmod path m].

(* an operation a writer whose temp file is tmp may perform *)
Definition own (tmp : bytes) (op : fsop) : Prop :=
  match op with
  | FOpenW p | FWrite p _ | FFlush p | FFsync p | FClose p => p = tmp
  | FExists _ | FStat _ => True
  | FRename a b => a = tmp /\ b = path
  | FChmod p _ => p = path
  | FRemove _ => False
  end.

Definition is_rename (op : fsop) : bool := match op with FRename _ _ => true | _ => false end.

(* what an own operation does to the writer's temp file, whatever else the file system holds *)
Definition tstep (op : fsop) (f : option file) : option file :=
  match op, f with
  | FOpenW _, _ => Some (mkFile [] (match f with Some x => f_mode x | None => N.ldiff 438 umask end))
  | FWrite _ d, Some x => Some (mkFile (f_data x ++ d) (f_mode x))
  | FRename _ _, Some _ => None
  | _, _ => f
  end.

(* the temp file holds d whenever it is renamed *)
Fixpoint wh (d : bytes) (l : list fsop) (f : option file) : Prop :=
  match l with
  | [] => True
  | op :: r => (if is_rename op then fdata f = Some d else True) /\ wh d r (tstep op f)
  end.

(* a writer in mid-save: the operations it has left are its own and put d in place *)
Definition writer (tmp d : bytes) (l : list fsop) (t : fs) : Prop := Forall (own tmp) l /\ wh d l (t tmp).

Lemma writer_nil tmp d t : writer tmp d [] t.
Proof. split; constructor. Qed.

Lemma wops_writer tmp d st m t : writer tmp d (wops tmp d st m) t.
Proof. unfold wops. destruct st; split; cbn; repeat constructor. Qed.

(* the rename is operation 7, or 6 when there is no os.stat *)
Lemma wops_renamed tmp d st m n : existsb is_rename (firstn n (wops tmp d st m)) = Nat.ltb (if st then 7 else 6) n.
Proof. destruct st; do 9 (destruct n as [|n]; [reflexivity|]); reflexivity. Qed.

Lemma own_frame tmp op t q : own tmp op -> q <> tmp -> q <> path -> apply_op umask op t q = t q.
Proof.
  destruct op; cbn [own apply_op]; intros H Hq Hq'; subst; try reflexivity; try contradiction.
  - apply fs_set_other. exact Hq.
  - destruct (t tmp); [apply fs_set_other; exact Hq|reflexivity].
  - destruct H as [-> ->]. destruct (t tmp); [|reflexivity]. rewrite !fs_set_other by assumption. reflexivity.
  - destruct (t path); [apply fs_set_other; exact Hq'|reflexivity].
Qed.

Section One.
Variables tmp d : bytes.
Hypothesis Hp : tmp <> path.

Lemma own_tmp op t : own tmp op -> apply_op umask op t tmp = tstep op (t tmp).
Proof.
  destruct op; cbn [own apply_op tstep]; intros H; subst; try reflexivity; try contradiction.
  - apply fs_set_same.
  - destruct (t tmp) eqn:E; [apply fs_set_same|exact E].
  - destruct H as [-> ->]. destruct (t tmp) eqn:E; [apply fs_set_same|exact E].
  - destruct (t path); [apply fs_set_other; exact Hp|reflexivity].
Qed.

Lemma own_path op t : own tmp op -> (if is_rename op then fdata (t tmp) = Some d else True) ->
  fdata (apply_op umask op t path) = if is_rename op then Some d else fdata (t path).
Proof.
  assert (Hset : forall f t', fs_set tmp f t' path = t' path) by (intros; apply fs_set_other; auto).
  destruct op; cbn [own apply_op is_rename]; intros H Hr; subst; try reflexivity; try contradiction.
  - rewrite Hset. reflexivity.
  - destruct (t tmp); [rewrite Hset|]; reflexivity.
  - destruct H as [-> ->]. destruct (t tmp) as [f|]; [|discriminate Hr]. rewrite Hset, fs_set_same. exact Hr.
  - destruct (t path) as [f|] eqn:Ef; [rewrite fs_set_same|rewrite Ef]; reflexivity.
Qed.

Lemma writer_step op l t : writer tmp d (op :: l) t -> writer tmp d l (apply_op umask op t).
Proof. intros [Ho [_ Hw]]. inversion Ho; subst. split; [assumption|]. rewrite own_tmp by assumption. exact Hw. Qed.

Lemma writer_path op l t : writer tmp d (op :: l) t ->
  fdata (apply_op umask op t path) = if is_rename op then Some d else fdata (t path).
Proof. intros [Ho [Hr _]]. inversion Ho; subst. apply own_path; assumption. Qed.

Lemma writer_other tmp' d' op l' l t : tmp <> tmp' -> writer tmp' d' (op :: l') t ->
  writer tmp d l t -> writer tmp d l (apply_op umask op t).
Proof.
  intros Hne [Ho' _] [Ho Hw]. inversion Ho'; subst. split; [exact Ho|]. rewrite (own_frame tmp') by assumption. exact Hw.
Qed.

(* a write cut short is a write by the same writer, after which it does nothing more *)
Lemma writer_cut p x y l t : writer tmp d (FWrite p (x ++ y) :: l) t -> writer tmp d [FWrite p x] t.
Proof. intros [Ho _]. inversion Ho; subst. repeat constructor. assumption. Qed.

Lemma crash_at_writer : forall l n k t, writer tmp d l t ->
  fdata (crash_at umask n k l t path) = if existsb is_rename (firstn n l) then Some d else fdata (t path).
Proof.
  induction l as [|op l IH]; intros n k t Hw; [destruct n; reflexivity|].
  destruct n as [|n]; cbn [crash_at firstn existsb].
  - destruct op; try reflexivity. rewrite <- (firstn_skipn k d0) in Hw. exact (writer_path _ _ t (writer_cut _ _ _ _ t Hw)).
  - rewrite (IH n k _ (writer_step _ _ _ Hw)), (writer_path _ _ _ Hw).
    destruct (is_rename op), (existsb is_rename (firstn n l)); reflexivity.
Qed.

Lemma wops_completes st m t : run_ops umask (wops tmp d st m) t path = Some (mkFile d m).
Proof.
  unfold wops. destruct st; cbn [app run_ops apply_op]; rewrite !fs_set_same; cbn [f_data f_mode app];
    rewrite (fs_set_other tmp path) by auto; rewrite fs_set_same; apply fs_set_same.
Qed.
End One.

(* two writers, their operations interleaved in any order; either may die before any of its operations or inside a write *)
Inductive inter : list fsop -> list fsop -> fs -> fs -> Prop :=
| i_stop : forall a b t, inter a b t t
| i_left : forall op a b t t', inter a b (apply_op umask op t) t' -> inter (op :: a) b t t'
| i_right : forall op a b t t', inter a b (apply_op umask op t) t' -> inter a (op :: b) t t'
| i_left_partial : forall p x y a b t t', inter [] b (apply_op umask (FWrite p x) t) t' -> inter (FWrite p (x ++ y) :: a) b t t'
| i_right_partial : forall p x y a b t t', inter a [] (apply_op umask (FWrite p x) t) t' -> inter a (FWrite p (x ++ y) :: b) t t'
| i_left_dies : forall a b t t', inter [] b t t' -> inter a b t t'
| i_right_dies : forall a b t t', inter a [] t t' -> inter a b t t'.

Section Two.
Variables tmp1 tmp2 d1 d2 : bytes.
Variable old : option bytes.
Hypothesis H1 : tmp1 <> path.
Hypothesis H2 : tmp2 <> path.
Hypothesis H12 : tmp1 <> tmp2.

Definition okpath (t : fs) : Prop := fdata (t path) = old \/ fdata (t path) = Some d1 \/ fdata (t path) = Some d2.

Definition Inv (a b : list fsop) (t : fs) : Prop := writer tmp1 d1 a t /\ writer tmp2 d2 b t /\ okpath t.

Lemma inv_left op a b t : Inv (op :: a) b t -> Inv a b (apply_op umask op t).
Proof.
  intros (Wa & Wb & Ok). split; [exact (writer_step tmp1 d1 H1 op a t Wa)|]. split.
  - exact (writer_other tmp2 d2 H2 tmp1 d1 op a b t (not_eq_sym H12) Wa Wb).
  - unfold okpath. rewrite (writer_path tmp1 d1 H1 op a t Wa). destruct (is_rename op); [auto|exact Ok].
Qed.

Lemma inv_right op a b t : Inv a (op :: b) t -> Inv a b (apply_op umask op t).
Proof.
  intros (Wa & Wb & Ok). split; [exact (writer_other tmp1 d1 H1 tmp2 d2 op b a t H12 Wb Wa)|]. split.
  - exact (writer_step tmp2 d2 H2 op b t Wb).
  - unfold okpath. rewrite (writer_path tmp2 d2 H2 op b t Wb). destruct (is_rename op); [auto|exact Ok].
Qed.

Lemma inter_inv a b t t' : inter a b t t' -> Inv a b t -> okpath t'.
Proof.
  induction 1 as [a b t|op a b t t' _ IH|op a b t t' _ IH|p x y a b t t' _ IH|p x y a b t t' _ IH|a b t t' _ IH|a b t t' _ IH];
    intros (Wa & Wb & Ok).
  - exact Ok.
  - exact (IH (inv_left _ _ _ _ (conj Wa (conj Wb Ok)))).
  - exact (IH (inv_right _ _ _ _ (conj Wa (conj Wb Ok)))).
  - exact (IH (inv_left (FWrite p x) [] _ _ (conj (writer_cut _ _ _ _ _ _ _ Wa) (conj Wb Ok)))).
  - exact (IH (inv_right (FWrite p x) _ [] _ (conj Wa (conj (writer_cut _ _ _ _ _ _ _ Wb) Ok)))).
  - (* a writer that has died is one with nothing left to do *)
    exact (IH (conj (writer_nil _ _ _) (conj Wb Ok))).
  - exact (IH (conj Wa (conj (writer_nil _ _ _) Ok))).
Qed.
End Two.
End Writer.

Section Atomic.
Variable umask : N.
Variable path : bytes.
Variable pid : N.
Variable data : bytes.
Let tmp := temp_path path pid.
Lemma eq2 : bytes_eqb tmp path = false. Proof. apply bytes_eqb_neq, temp_neq. Qed.

Lemma storage_write_wops t :
  storage_write path pid data t = wops path tmp data (match t path with Some _ => true | None => false end)
                                       (match t path with Some f => f_mode f | None => 384 end).
Proof. unfold storage_write, wops. destruct (t path); reflexivity. Qed.

Lemma crash_at_path t n k :
  fdata (crash_at umask n k (storage_write path pid data t) t path) =
    if Nat.ltb (match t path with Some _ => 7 | None => 6 end) n then Some data else fdata (t path).
Proof.
  rewrite storage_write_wops, (crash_at_writer umask path tmp data (temp_neq path pid) _ n k t (wops_writer _ _ _ _ _ _ _)),
    wops_renamed.
  destruct (t path); reflexivity.
Qed.

Theorem save_atomic : forall t t',
  crashes umask (storage_write path pid data t) t t' ->
  fdata (t' path) = fdata (t path) \/ fdata (t' path) = Some data.
Proof.
  intros t t' Hc. destruct (crashes_crash_at _ _ _ _ path Hc) as (n & k & ->).
  rewrite crash_at_path. destruct (Nat.ltb _ n); auto.
Qed.

(* an uninterrupted write leaves the new content with the old permission bits (0600 for a new file) *)
Theorem save_completes : forall t,
  run_ops umask (storage_write path pid data t) t path =
    Some (mkFile data (match t path with Some f => f_mode f | None => 384 end)).
Proof. intros t. rewrite storage_write_wops. apply wops_completes, temp_neq. Qed.

(* the except branch (remove, then rename) is NOT atomic: a crash between the two leaves no wallet file *)
Theorem fallback_not_atomic : forall t f, t path = Some f ->
  exists t', crashes umask (storage_write_fallback path pid data t) t t' /\ t' path = None.
Proof.
  intros t f Hf. exists (crash_at umask 8 0 (storage_write_fallback path pid data t) t).
  split; [apply crash_at_crashes|].
  unfold storage_write_fallback. rewrite Hf. cbn [app crash_at apply_op]. apply fs_set_same.
Qed.
End Atomic.

(* Two processes (different pids, hence different temp files) save the same wallet file; their operations interleave in
   any order and either process may die before any of its operations or inside its write, or run to completion.  At
   every moment the wallet file holds its previous content, or the complete content of one of the two saves. *)
Theorem two_writers_atomic : forall umask path pid1 pid2 d1 d2 s1 m1 s2 m2 t t',
  pid1 <> pid2 ->
  inter umask (wops path (temp_path path pid1) d1 s1 m1) (wops path (temp_path path pid2) d2 s2 m2) t t' ->
  fdata (t' path) = fdata (t path) \/ fdata (t' path) = Some d1 \/ fdata (t' path) = Some d2.
Proof.
  intros umask path pid1 pid2 d1 d2 s1 m1 s2 m2 t t' Hpid H.
  apply (inter_inv umask path _ _ d1 d2 (fdata (t path)) (temp_neq path pid1) (temp_neq path pid2)
           (temp_path_neq path _ _ Hpid) _ _ t t' H).
  split; [apply wops_writer|]. split; [apply wops_writer|]. left. reflexivity.
Qed.

Section MachineInv.
Variable P : prims.
Variable path : bytes.
Variable umask : N.

Definition coherent (st : mstate) : Prop := fdata (m_fs st path) = option_map (render_file P) (m_img st).

Lemma do_save_coherent ts rnd pid st : coherent (do_save P path umask ts rnd pid st).
Proof.
  unfold coherent, do_save. destruct (save_dict P ts rnd (m_w st)) as [img w'].
  cbn [m_fs m_img]. rewrite save_completes. reflexivity.
Qed.

(* Only a save, complete or cut short, touches the file system or the image: every other branch of [step] returns the
   state itself or one with the same file system and image. *)
Lemma step_coherent op st : coherent st -> coherent (snd (step P path umask op st)).
Proof.
  intros Hc. destruct op; cbn [step].
  6: { (* MSaveCrash: the image is replaced exactly when the rename has happened *)
    destruct (save_dict P ts rnd (m_w st)) as [img w'].
    match goal with |- coherent (snd (match reload P ?i with _ => _ end)) => destruct (reload P i) end; [|exact Hc].
    unfold coherent. cbn [snd m_fs m_img]. rewrite crash_at_path. destruct (Nat.ltb _ n); [reflexivity|exact Hc]. }
  all: repeat match goal with |- context [match ?x with _ => _ end] => destruct x end;
    exact Hc || apply do_save_coherent.
Qed.

(* histories: whatever the wallet process does, and wherever it is killed, the file on disk is
   the complete rendering of a dict that some save handed to storage.write (or there is none) *)
Theorem file_always_complete : forall ops st, coherent st -> coherent (run P path umask ops st).
Proof. induction ops as [|op ops IH]; intros st H; [exact H|]. cbn [run]. apply IH. apply step_coherent. exact H. Qed.

Lemma jget_jset k v : forall l, jget k (jset k v l) = Some v.
Proof.
  induction l as [|[k' x] l IH]; cbn [jset jget]; [rewrite bytes_eqb_refl; reflexivity|].
  destruct (bytes_eqb k k') eqn:Hk; cbn [jget]; [rewrite bytes_eqb_refl; reflexivity|rewrite Hk; exact IH].
Qed.

Lemma pref_on_after_set w ts : pref_on (pref_set EOD (JB true) ts w) = true.
Proof. unfold pref_on, pref_set. cbn [w_prefs]. rewrite jget_jset. reflexivity. Qed.

Lemma save_dict_keeps_prefs ts rnd w : is_locked w = true -> w_prefs (snd (save_dict P ts rnd w)) = w_prefs w.
Proof.
  intros Hl. unfold save_dict. rewrite Hl.
  destruct (pref_on w); [destruct (w_pw w)|]; unfold wallet_to_dict;
    destruct (accounts_to_dict P _ rnd (w_accounts w)) as [[ds accs] r]; reflexivity.
Qed.

(* start-up of a wallet whose accounts are stored encrypted: afterwards the encrypt-on-disk preference is on unless the
   file itself carries a non-null value for it (the user's explicit choice), whatever the file's age *)
Theorem start_enables_encryption : forall ts rnd pid st st' w0,
  reload P (m_img st) = Some w0 -> is_locked w0 = true -> pref_is_none w0 = true ->
  step P path umask (MStart ts rnd pid) st = (OTrue, st') ->
  pref_on (m_w st') = true.
Proof.
  intros ts rnd pid st st' w0 Hr Hl Hn Hs. cbn [step] in Hs. rewrite Hr in Hs.
  destruct (w_accounts w0) eqn:Ha; [discriminate Hs|].
  rewrite Hl, Hn in Hs. cbn [andb] in Hs. injection Hs as <-.
  unfold do_save. cbn [m_w].
  pose proof (save_dict_keeps_prefs ts rnd (pref_set EOD (JB true) ts w0) Hl) as H.
  destruct (save_dict P ts rnd (pref_set EOD (JB true) ts w0)) as [img w']. cbn [m_w snd] in *.
  unfold pref_on. rewrite H. apply pref_on_after_set.
Qed.

(* ... so that once it is unlocked every later save writes the sealed image *)
Theorem start_unlock_save_sealed : forall ts rnd pid st st' w0 (pw : bytes) ts' rnd',
  reload P (m_img st) = Some w0 -> is_locked w0 = true -> pref_is_none w0 = true ->
  step P path umask (MStart ts rnd pid) st = (OTrue, st') ->
  fst (unlock P pw (m_w st')) = UTrue ->
  let w2 := snd (unlock P pw (m_w st')) in
  fst (save_dict P ts' rnd' w2) = public_image P (w_name w2) (w_prefs w2) rnd' (map (seal P pw) (w_accounts w2)).
Proof.
  intros ts rnd pid st st' w0 pw ts' rnd' Hr Hl Hn Hs. apply unlock_save_sealed.
  exact (start_enables_encryption ts rnd pid st st' w0 Hr Hl Hn Hs).
Qed.
End MachineInv.

(* a toy instance of the primitives (for non-vacuity examples only): E key iv p = key ++ p *)
Fixpoint strip_prefix (k c : bytes) : option bytes :=
  match k, c with
  | [], _ => Some c
  | x :: k', y :: c' => if byte_eqb x y then strip_prefix k' c' else None
  | _ :: _, [] => None
  end.

Lemma strip_prefix_app k p : strip_prefix k (k ++ p) = Some p.
Proof. induction k as [|x k IH]; cbn; [reflexivity|]. rewrite byte_eqb_refl. exact IH. Qed.

Definition toy_bad_seed : bytes := [byte_of_N 98; byte_of_N 97; byte_of_N 100].   (* "bad": not in the toy word list *)

Definition toy : prims := mkPrims
  (fun pw => byte_of_N 75 :: pw)
  (fun k iv p => k ++ p)
  (fun k iv c => match strip_prefix k c with Some p => DOk p | None => DBadPad end)
  (fun x => x) (fun x => Some x)
  (fun _ => true)
  (fun sd => sd) (fun pub => skipn 4 pub)      (* toy: an extended public key is "xpub" ++ the seed it comes from *)
  (fun sd => negb (bytes_eqb sd toy_bad_seed))
  (fun x => XOk x)
  (fun x k => x ++ [byte_of_N 47; byte_of_N 50; byte_of_N 47; byte_of_N (48 + k)])     (* toy: path text "x/2/k" *)
  (fun x => byte_of_N 34 :: x ++ [byte_of_N 34])
  (fun pw salt _ _ _ => pw ++ salt)
  (fun x => x) (fun x => ZOk x).

Lemma toy_DE : forall k iv p, D toy k iv (E toy k iv p) = DOk p.
Proof. intros. cbn. rewrite strip_prefix_app. reflexivity. Qed.
Lemma toy_b64 : forall x, b64d toy (b64e toy x) = Some x.
Proof. reflexivity. Qed.
Lemma toy_b64_nil : b64d toy [] = Some [].
Proof. reflexivity. Qed.
Lemma toy_z : forall x, zd toy (zc toy x) = ZOk x.
Proof. reflexivity. Qed.

Definition bN (l : list N) : bytes := map byte_of_N l.
Definition iv_a : bytes := repeat (byte_of_N 1) 16.
Definition iv_b : bytes := repeat (byte_of_N 2) 16.
Definition iv_c : bytes := repeat (byte_of_N 3) 16.

Definition ex_seeded : account :=
  mkAccount (bN [108]) (bN [65]) (bN [115; 101; 101; 100]) [] (Some (bN [120; 112; 114; 118])) (bN [120; 112; 117; 98; 115; 101; 101; 100])
            false None None (JO []) 5 (JO [(bN [99], JS (bN [80; 69; 77]))]).
Definition ex_keyonly : account :=
  mkAccount (bN [108]) (bN [66]) [] (bN [120; 107]) (Some (bN [120; 107])) (bN [120; 112; 50]) false None None (JO []) 6 (JO []).
Definition ex_watch : account :=
  mkAccount (bN [108]) (bN [67]) [] [] None (bN [120; 112; 51]) false None None (JO []) 7 (JO []).
Definition ex_badseed : account :=
  mkAccount (bN [108]) (bN [68]) toy_bad_seed [] (Some (bN [120; 52])) (bN [120; 112; 117; 98; 98; 97; 100]) false None None (JO []) 8 (JO []).

Definition ex_pw : bytes := bN [112; 119].
Definition ex_pw2 : bytes := bN [113].
Definition ex_wallet : wallet := mkWallet (bN [87]) [] [ex_seeded; ex_keyonly; ex_watch] (Some ex_pw).

(* the toy primitives accept every string as UTF-8 and as an extended key, so only the shape of the account matters *)
Lemma toy_wf a : a_encrypted a = false ->
  (nonempty (a_seed a) = true -> bytes_eqb (a_seed a) (skipn 4 (a_pub a)) = true) ->
  match a_priv a with Some x => nonempty x = true | None => a_pks a = [] end ->
  a_iv_seed a = None -> a_iv_priv a = None -> wf_account toy a.
Proof.
  intros He Hs Hk Hi Hj. constructor; auto; try (rewrite Hi || rewrite Hj; exact I).
  - intros x Hx. rewrite Hx in Hk. auto.
  - intros Hx. rewrite Hx in Hk. exact Hk.
Qed.

Lemma ex_wallet_wf : wf_wallet toy ex_wallet.
Proof. constructor; [|constructor; [|constructor; [|constructor]]]; apply toy_wf; try intros _; reflexivity. Qed.

Lemma ex_rnd_ok : Forall len16 [iv_a; iv_b; iv_c].
Proof. repeat constructor. Qed.

(* the premise of the failed-unlock theorem holds for the locked example wallet and another password: the two
   accounts with secrets refuse it, the watch-only account (nothing to decrypt) opens under any password and is
   trivially sealed under it *)
Lemma ex_locked_sealed :
  match lock toy [iv_a; iv_b; iv_c] ex_wallet with
  | Ok w1 => Forall (sealed_if_opened toy ex_pw2) (w_accounts w1) /\ fst (unlock toy ex_pw2 w1) = UFalse
  | Err _ => False
  end.
Proof.
  cbn [lock ex_wallet w_pw w_accounts w_name w_prefs].
  split; [|vm_compute; reflexivity]. repeat constructor.
  - intros _ H. vm_compute in H. discriminate H.
  - intros _ H. vm_compute in H. discriminate H.
  - intros _ _. exists ex_watch, []. split; [apply toy_wf; try intros _; reflexivity|].
    split; [constructor|vm_compute; reflexivity].
Qed.
