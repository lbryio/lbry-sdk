(* Every operation keeps four invariants ([All]): [Inv] (every writer is as [w_ok] says; at most one save is in flight,
   and what is queued, handed to the executor or stored is a correct copy of the accepted length), [Qok] (a queued
   result has the current length), [Reg] (pending writers are in the dict), [Cl] (a finished writer still open has its
   close queued).
   What is said about writers is indifferent to the callbacks of a save ([wframe]), what is said about a save to writer
   transitions ([same_ctl]); [loop_iter] carries a relation between a state and a later one across the event loop.
   The save is an automaton ([phase], [moved]): what is known of a save is a predicate on phase and state that every
   move keeps ([kept], [At]). *)
From Coq Require Import NArith ZArith List Bool Lia Arith.
From Coq.Strings Require Import Byte.
From LV Require Import Lib.Bytes Lib.Lists Lib.Alist Model.C01.
Import ListNotations.

Lemma nth_error_upd_eq {A} (l : list A) i x y : nth_error l i = Some y -> nth_error (upd i x l) i = Some x.
Proof. revert i; induction l; intros [|i]; simpl; try discriminate; auto. Qed.

Lemma nth_error_upd_neq {A} (l : list A) i j x : i <> j -> nth_error (upd i x l) j = nth_error l j.
Proof. revert i j; induction l; intros [|i] [|j]; simpl; auto; congruence. Qed.

Lemma nth_error_upd_none {A} (l : list A) i x : nth_error l i = None -> upd i x l = l.
Proof. revert i; induction l; intros [|i]; simpl; try discriminate; auto. intros; f_equal; auto. Qed.

Lemma upd_same {A} (l : list A) i x : nth_error l i = Some x -> upd i x l = l.
Proof. revert i; induction l; intros [|i]; simpl; try discriminate. congruence. intros; f_equal; auto. Qed.

Lemma upd_length {A} (l : list A) i x : length (upd i x l) = length l.
Proof. revert i; induction l; intros [|i]; simpl; auto. Qed.

Lemma filter_upd_length {A} (p : A -> bool) l i x y : nth_error l i = Some y ->
  length (filter p (upd i x l)) + (if p y then 1 else 0) = length (filter p l) + (if p x then 1 else 0).
Proof.
  revert i; induction l as [|a l IH]; intros [|i] Hn; simpl in *; try discriminate.
  - inversion Hn; subst a. destruct (p x), (p y); simpl; lia.
  - specialize (IH i Hn). destruct (p a); simpl; lia.
Qed.

Lemma Forall_upd {A} (P : A -> Prop) l i x : Forall P l -> P x -> Forall P (upd i x l).
Proof. intros Hl Hx; revert i; induction Hl; intros [|i]; simpl; auto. Qed.

Lemma Forall_nth_error {A} (P : A -> Prop) l i x : Forall P l -> nth_error l i = Some x -> P x.
Proof. intros Hl Hn. rewrite Forall_forall in Hl. apply Hl. eapply nth_error_In; eauto. Qed.

Lemma nth_error_upd_cases {A} (l : list A) i j x y :
  nth_error (upd i x l) j = Some y ->
  (j = i /\ y = x /\ exists z, nth_error l i = Some z) \/ (j <> i /\ nth_error l j = Some y).
Proof.
  intros E. destruct (Nat.eq_dec j i) as [->|Hne].
  - left. destruct (nth_error l i) eqn:Hn.
    + erewrite nth_error_upd_eq in E by eauto. inversion E; eauto.
    + rewrite nth_error_upd_none in E by auto. congruence.
  - right. rewrite nth_error_upd_neq in E by auto. auto.
Qed.

Lemma nth_error_snoc {A} (l : list A) x i y :
  nth_error (l ++ [x]) i = Some y -> nth_error l i = Some y \/ (i = length l /\ y = x).
Proof.
  revert i; induction l; intros [|i]; simpl; auto.
  - intros E; inversion E; auto.
  - destruct i; discriminate.
  - intros E. destruct (IHl i E) as [|(-> & ->)]; auto.
Qed.

Lemma lookup_alook k m : lookup k m = alook N.eqb m k.
Proof. induction m as [|[k0 j0] m IH]; simpl; [|rewrite IH]; reflexivity. Qed.

Lemma map_set_aupd k i m : map_set k i m = aupd N.eqb (fun _ => i) k m.
Proof. induction m as [|[k0 j0] m IH]; simpl; [|destruct (N.eqb_spec k0 k) as [->|]; rewrite ?IH]; reflexivity. Qed.

Lemma NoDup_map_set k i m : NoDup (map fst m) -> NoDup (map fst (map_set k i m)).
Proof. rewrite map_set_aupd. apply (aupd_NoDup _ N.eqb_spec). Qed.

Lemma In_map_set k i m k' j : NoDup (map fst m) ->
  In (k', j) (map_set k i m) <-> (k' = k /\ j = i) \/ (k' <> k /\ In (k', j) m).
Proof.
  intro Nd. rewrite map_set_aupd, !(alook_In _ N.eqb_spec), (alook_aupd _ N.eqb_spec) by (try apply (aupd_NoDup _ N.eqb_spec); exact Nd).
  destruct (N.eqb_spec k' k) as [->|Ne]; [split; [intros [= ->]; auto | intros [[_ ->]|[[] _]]; reflexivity]|].
  split; [auto | intros [[-> _]|[_ H]]; [congruence | exact H]].
Qed.

(* with one entry per key, deleting the first entry under [k] is deleting every entry under [k] *)
Lemma map_del_adel k m : NoDup (map fst m) -> map_del k m = adel N.eqb m k.
Proof.
  unfold adel. induction m as [|[k0 j0] m IH]; simpl; intros Nd; auto. inversion Nd as [|? ? Hn Nd']; subst.
  destruct (N.eqb_spec k0 k) as [->|]; simpl; [|f_equal; auto].
  clear IH Nd Nd'. induction m as [|[k1 j1] m IH]; simpl in *; auto.
  destruct (N.eqb_spec k1 k) as [->|]; simpl; [tauto|f_equal; auto].
Qed.

Lemma lookup_In k j m : NoDup (map fst m) -> In (k, j) m -> lookup k m = Some j.
Proof. intro Nd. rewrite lookup_alook. apply (alook_In _ N.eqb_spec), Nd. Qed.

Lemma fut_done_false f : fut_done f = false <-> f = FPending.
Proof. destruct f; simpl; split; congruence. Qed.
Lemma fut_done_true f : fut_done f = true <-> f <> FPending.
Proof. destruct f; simpl; split; congruence. Qed.

Lemma set_length_refused n s : (n < 0 \/ Z.of_N MAX_BLOB_SIZE < n)%Z -> set_length n s = s.
Proof.
  intros Hn. unfold set_length. destruct (s_len s); auto.
  destruct (Z.leb_spec 0 n); destruct (Z.leb_spec n (Z.of_N MAX_BLOB_SIZE)); simpl; auto; lia.
Qed.

Lemma set_length_accepted n s : (0 <= n <= Z.of_N MAX_BLOB_SIZE)%Z -> s_len s = None ->
  s_len (set_length n s) = Some (Z.to_N n).
Proof.
  intros Hn E. unfold set_length. rewrite E.
  destruct (Z.leb_spec 0 n); destruct (Z.leb_spec n (Z.of_N MAX_BLOB_SIZE)); simpl; auto; lia.
Qed.

Section C01.
Variable H : bytes -> bytes.
Variable h : bytes.
Variable kd : kind.
Variable cb : bool.

Notation wr_write := (wr_write H h).

(* a complete correct copy of an admissible size *)
Definition good (b : bytes) : Prop := (0 < N.of_nat (length b) <= MAX_BLOB_SIZE)%N /\ H b = h.

(* What holds of every writer of a blob whose accepted length is [len]: a result is a correct copy, it is what was
   hashed, and its writer is closed; an open pending writer has hashed its buffer, and less than the length. *)
Record w_ok (len : option N) (w : writer) : Prop := {
  ok_res : forall b, w_fut w = FOk b -> good b /\ b = w_seen w /\ w_open w = false;
  ok_live : w_open w = true -> w_fut w = FPending ->
            w_seen w = w_buf w /\ forall L, len = Some L -> L <> 0%N -> (N.of_nat (length (w_seen w)) < L)%N;
  ok_closed : w_open w = false -> w_fut w <> FPending;
  ok_nolen : len = None \/ len = Some 0%N -> w_fut w = FPending -> w_seen w = [];
  ok_hash : w_fut w = FErrHash -> w_open w = false /\ H (w_seen w) <> h }.

(* How a transition of one writer moves its future and its buffer; the flag tells that the future just became done. *)
Record wmove (f : writer -> writer * bool) : Prop := {
  wm_key : forall w, w_key (fst (f w)) = w_key w;
  wm_fire : forall w, snd (f w) = true -> w_fut w = FPending /\ fut_done (w_fut (fst (f w))) = true;
  wm_nofire : forall w, snd (f w) = false -> w_fut (fst (f w)) = w_fut w;
  wm_open : forall w, w_open (fst (f w)) = true -> w_open w = true }.

(* ... and what it keeps, for a blob whose accepted length is [len] *)
Record wtrans (len : option N) (f : writer -> writer * bool) : Prop := {
  wt_move : wmove f;
  wt_ok : forall w, w_ok len w -> w_ok len (fst (f w));
  wt_newok : forall w b, w_ok len w -> w_fut w = FPending -> w_fut (fst (f w)) = FOk b ->
             exists L, len = Some L /\ N.of_nat (length b) = L }.

Lemma wmove_done_keeps g w : wmove g -> fut_done (w_fut w) = true ->
  w_fut (fst (g w)) = w_fut w /\ snd (g w) = false.
Proof.
  intros Wm D. destruct (snd (g w)) eqn:E.
  - destruct (wm_fire _ Wm w E) as (P & _). rewrite P in D. discriminate.
  - split; auto. apply (wm_nofire _ Wm); auto.
Qed.

Lemma wmove_close : wmove close_handle_w.
Proof.
  split; intros w; unfold close_handle_w; destruct (fut_done (w_fut w)) eqn:D; simpl; auto; try discriminate.
  intros _. apply fut_done_false in D. auto.
Qed.

Lemma wmove_cancel : wmove cancel_w.
Proof.
  split; intros w; unfold cancel_w; destruct (fut_done (w_fut w)) eqn:D; simpl; auto; try discriminate.
  intros _. apply fut_done_false in D. auto.
Qed.

Lemma wtrans_close len : wtrans len close_handle_w.
Proof.
  split; [exact wmove_close| |]; intros w; unfold close_handle_w; destruct (fut_done (w_fut w)) eqn:D; simpl; try discriminate.
  - intros [A B C E G]. split; simpl; auto; try discriminate.
    + intros b Eb. destruct (A b Eb) as (? & ? & _). auto.
    + intros _. apply fut_done_true; auto.
    + intros Eh. destruct (G Eh); auto.
  - intros [A B C E G]. split; simpl; auto; discriminate.
  - intros b _ P E. congruence.
Qed.

Lemma wtrans_cancel len : wtrans len cancel_w.
Proof.
  split; [exact wmove_cancel| |]; intros w; unfold cancel_w; destruct (fut_done (w_fut w)) eqn:D; simpl; auto; try discriminate.
  - intros [A B C E G]. split; simpl; auto; discriminate.
  - intros b _ P E. congruence.
Qed.

(* Settling the future of an open writer.  A pending future takes [F], the handle is closed and the callbacks fire.  On a
   future that is done, set_exception raises InvalidStateError before close_handle is reached ([exn]), while set_result
   is guarded and the handle is closed. *)
Definition settle (w : writer) (buf seen : bytes) (F : fut) (exn : bool) : writer * bool * res :=
  if fut_done (w_fut w) then (mkW (w_key w) exn buf seen (w_fut w), false, if exn then RInvalid else ROk)
  else (mkW (w_key w) false buf seen F, true, ROk).

(* what HashBlobWriter.write does, [t] being what is hashed by then and [b] the buffer with the chunk *)
Inductive wr_outcome (len : option N) (w : writer) (t b : bytes) : writer * bool * res -> Prop :=
| wo_refused : len = None \/ len = Some 0%N \/ w_open w = false /\ w_fut w <> FPending ->
    wr_outcome len w t b (w, false, ROSError)
| wo_cancel L : len = Some L -> L <> 0%N -> w_open w = false -> w_fut w = FPending ->
    wr_outcome len w t b (mkW (w_key w) false (w_buf w) (w_seen w) FCancelled, true, ROk)
| wo_long L : len = Some L -> L <> 0%N -> w_open w = true -> (L < N.of_nat (length t))%N ->
    wr_outcome len w t b (settle w (w_buf w) t FErrLen true)
| wo_good L : len = Some L -> L <> 0%N -> w_open w = true -> N.of_nat (length t) = L -> H t = h ->
    wr_outcome len w t b (settle w b t (FOk b) false)
| wo_bad L : len = Some L -> L <> 0%N -> w_open w = true -> N.of_nat (length t) = L -> H t <> h ->
    wr_outcome len w t b (settle w b t FErrHash true)
| wo_partial L : len = Some L -> L <> 0%N -> w_open w = true -> (N.of_nat (length t) < L)%N ->
    wr_outcome len w t b (mkW (w_key w) true b t (w_fut w), false, ROk).

Lemma wr_write_outcome len w d : wr_outcome len w (w_seen w ++ d) (w_buf w ++ d) (wr_write len w d).
Proof.
  unfold C01.wr_write. destruct len as [L|]; [|apply wo_refused; auto].
  destruct (N.eqb_spec L 0) as [->|L0]; [apply wo_refused; auto|].
  destruct (w_open w) eqn:O; simpl.
  2: { destruct (fut_done (w_fut w)) eqn:D.
       - apply wo_refused. right; right. split; [exact O|apply fut_done_true, D].
       - eapply wo_cancel; eauto. apply fut_done_false, D. }
  destruct (N.ltb_spec L (N.of_nat (length (w_seen w ++ d)))) as [Hn|Hn]; [eapply wo_long; eauto|].
  destruct (N.eqb_spec (N.of_nat (length (w_seen w ++ d))) L) as [E|Ne].
  - destruct (bytes_eqb_spec (H (w_seen w ++ d)) h); [eapply wo_good|eapply wo_bad]; eauto.
  - eapply wo_partial; eauto. lia.
Qed.

(* of a writer whose future is done [w_ok] says two things *)
Lemma w_ok_done len w : w_fut w <> FPending ->
  (forall b, w_fut w = FOk b -> good b /\ b = w_seen w /\ w_open w = false) ->
  (w_fut w = FErrHash -> w_open w = false /\ H (w_seen w) <> h) -> w_ok len w.
Proof. intros D A G. split; auto; intros; contradiction. Qed.

(* ... and nothing if it is still open: a result or a hash error comes with a closed handle *)
Lemma w_ok_stale len w o buf seen : w_ok len w -> w_open w = true -> fut_done (w_fut w) = true ->
  w_ok len (mkW (w_key w) o buf seen (w_fut w)).
Proof.
  intros Hok O D. apply w_ok_done; simpl.
  - apply fut_done_true, D.
  - intros b Eb. destruct (ok_res _ _ Hok b Eb) as (_ & _ & X). congruence.
  - intros Eh. destruct (ok_hash _ _ Hok Eh). congruence.
Qed.

Lemma wmove_write len d : wmove (fun x => fst (wr_write len x d)).
Proof.
  split; intros w; cbv beta; destruct (wr_write_outcome len w d); unfold settle;
    destruct (fut_done (w_fut w)) eqn:D; simpl; auto; try discriminate.
  all: intros _; apply fut_done_false in D; auto.
Qed.

Lemma wtrans_write len d : (forall L, len = Some L -> (L <= MAX_BLOB_SIZE)%N) -> wtrans len (fun x => fst (wr_write len x d)).
Proof.
  intros G. split; [apply wmove_write| |]; intros w; cbv beta.
  - intros Hok.
    destruct (wr_write_outcome len w d) as [| |? ? ? O ?|L EL L0 O Hn Hh|? ? ? O ? Hh|L EL L0 O Hn];
      [exact Hok|apply w_ok_done; simpl; discriminate|..].
    all: unfold settle; destruct (fut_done (w_fut w)) eqn:D; [apply w_ok_stale; auto|apply fut_done_false in D; simpl].
    + apply w_ok_done; simpl; discriminate.
    + apply w_ok_done; simpl; try discriminate. intros b [= <-].
      destruct (ok_live _ _ Hok O D) as (<- & _). pose proof (G L EL). repeat split; auto; lia.
    + apply w_ok_done; simpl; auto; discriminate.
    + destruct (ok_live _ _ Hok O D) as (S & _). rewrite D. split; simpl; try discriminate.
      * intros _ _. split; congruence.
      * intros [X|X]; congruence.
  - intros b Hok P.
    destruct (wr_write_outcome len w d) as [| | |L EL ? O Hn ?| |]; unfold settle; rewrite ?P; simpl; intros E; try congruence.
    injection E as <-. exists L. split; auto. destruct (ok_live _ _ Hok O P) as (<- & _). auto.
Qed.

(* the chunk of a writer that is as [w_ok] says (closed only when done) is hashed exactly when write() gets past its
   two guards *)
Definition counts (r : res) : bool := match r with ROk | RInvalid => true | _ => false end.

Lemma wr_write_seen len w d : w_ok len w ->
  w_seen (fst (fst (wr_write len w d))) = w_seen w ++ if counts (snd (wr_write len w d)) then d else [].
Proof.
  intros Hok. destruct (wr_write_outcome len w d) as [R|L EL L0 O P| | | |];
    [symmetry; apply app_nil_r|destruct (ok_closed _ _ Hok O P)|..].
  all: unfold settle; destruct (fut_done (w_fut w)); reflexivity.
Qed.

Definition live (L : N) (w : writer) : Prop :=
  w_open w = true /\ w_fut w = FPending /\ w_seen w = w_buf w /\ L <> 0%N.

(* the writer after a live writer whose buffer holds [buf] has received bytes making the total [t] *)
Definition live_result (L : N) (k : N) (buf t : bytes) : writer * bool * res :=
  if (L <? N.of_nat (length t))%N then (mkW k false buf t FErrLen, true, ROk)
  else if (N.of_nat (length t) =? L)%N then
    (if bytes_eqb (H t) h then (mkW k false t t (FOk t), true, ROk) else (mkW k false t t FErrHash, true, ROk))
  else (mkW k true t t FPending, false, ROk).

Lemma wr_write_live L w d : live L w ->
  wr_write (Some L) w d = live_result L (w_key w) (w_buf w) (w_buf w ++ d).
Proof.
  intros (O & P & S & Hne). unfold C01.wr_write, live_result. rewrite O, P, S. simpl.
  destruct (N.eqb_spec L 0); [contradiction|]. auto.
Qed.

Lemma writer_write_exact L w d : live L w ->
  let t := w_buf w ++ d in
  let w' := fst (fst (wr_write (Some L) w d)) in
  ((N.of_nat (length t) < L)%N -> w' = mkW (w_key w) true t t FPending)
  /\ (N.of_nat (length t) = L -> H t = h -> w' = mkW (w_key w) false t t (FOk t))
  /\ (N.of_nat (length t) = L -> H t <> h -> w' = mkW (w_key w) false t t FErrHash)
  /\ ((L < N.of_nat (length t))%N -> w' = mkW (w_key w) false (w_buf w) t FErrLen)
  /\ (forall b, w_fut w' = FOk b <-> b = t /\ N.of_nat (length t) = L /\ H t = h)
  /\ snd (wr_write (Some L) w d) = ROk.
Proof.
  intros Lv t w'. unfold w'. rewrite wr_write_live by auto. fold t. unfold live_result.
  destruct (N.ltb_spec L (N.of_nat (length t))); simpl.
  { repeat split; auto; try lia; try discriminate. }
  destruct (N.eqb_spec (N.of_nat (length t)) L); simpl.
  - destruct (bytes_eqb (H t) h) eqn:E; simpl.
    + apply bytes_eqb_eq in E. repeat split; auto; try lia; try congruence. intros (-> & _); auto.
    + apply bytes_eqb_neq in E. repeat split; auto; try lia; try congruence; try discriminate. intros (_ & _ & X); contradiction.
  - repeat split; auto; try lia; try congruence; try discriminate; try (intros (_ & X & _); contradiction).
Qed.

Fixpoint feed (len : option N) (w : writer) (cs : list bytes) : writer :=
  match cs with [] => w | c :: r => feed len (fst (fst (wr_write len w c))) r end.

Lemma feed_dead L w cs : w_open w = false -> fut_done (w_fut w) = true -> feed (Some L) w cs = w.
Proof.
  intros O D. induction cs; simpl; auto.
  unfold C01.wr_write. destruct (L =? 0)%N; simpl; auto. rewrite O, D. simpl. auto.
Qed.

Lemma live_result_short L k buf t : (N.of_nat (length t) < L)%N ->
  live_result L k buf t = (mkW k true t t FPending, false, ROk).
Proof.
  intros Hl. unfold live_result.
  destruct (N.ltb_spec L (N.of_nat (length t))); [lia|].
  destruct (N.eqb_spec (N.of_nat (length t)) L); [lia|]. auto.
Qed.

Lemma live_result_buf L k buf buf' t : (N.of_nat (length t) <= L)%N ->
  live_result L k buf t = live_result L k buf' t.
Proof.
  intros Hl. unfold live_result. destruct (N.ltb_spec L (N.of_nat (length t))); [lia|]. auto.
Qed.

Lemma feed_concat L w cs : live L w -> (N.of_nat (length (w_buf w)) < L)%N ->
  (N.of_nat (length (w_buf w ++ concat cs)) <= L)%N ->
  feed (Some L) w cs = fst (fst (wr_write (Some L) w (concat cs))).
Proof.
  revert w. induction cs as [|c r IH]; intros w Lv Hlt Hle.
  - cbn [feed concat]. rewrite wr_write_live by auto. rewrite app_nil_r.
    rewrite live_result_short by auto. simpl.
    destruct Lv as (O & P & S & _). destruct w; simpl in *. congruence.
  - cbn [feed concat]. rewrite !wr_write_live by auto. rewrite app_assoc.
    set (t := w_buf w ++ c) in *.
    assert (Hl : (N.of_nat (length (t ++ concat r)) <= L)%N).
    { unfold t. rewrite <- app_assoc. exact Hle. }
    assert (Hl' := Hl). rewrite app_length in Hl'.
    destruct (N.eq_dec (N.of_nat (length t)) L) as [El|Hn].
    + (* complete at this chunk: everything that follows is empty *)
      assert (Er : concat r = []) by (apply length_zero_iff_nil; lia).
      rewrite Er, app_nil_r. unfold live_result.
      destruct (N.ltb_spec L (N.of_nat (length t))); [lia|].
      destruct (N.eqb_spec (N.of_nat (length t)) L); [|contradiction].
      destruct (bytes_eqb (H t) h); simpl; apply feed_dead; auto.
    + rewrite (live_result_short L (w_key w) (w_buf w) t) by lia. cbn [fst].
      destruct Lv as (_ & _ & _ & X).
      rewrite IH.
      * rewrite wr_write_live by (repeat split; auto). cbn [w_key w_buf].
        rewrite (live_result_buf L (w_key w) t (w_buf w)); auto.
      * repeat split; auto.
      * simpl. lia.
      * simpl. exact Hl.
Qed.

Lemma chunking_irrelevant L w cs1 cs2 : live L w -> (N.of_nat (length (w_buf w)) < L)%N ->
  concat cs1 = concat cs2 -> (N.of_nat (length (w_buf w ++ concat cs1)) <= L)%N ->
  feed (Some L) w cs1 = feed (Some L) w cs2.
Proof.
  intros Lv Hlt E Hle. rewrite !feed_concat; auto; congruence.
Qed.

Notation step := (step H h kd cb).
Notation run := (run H h kd cb).

Lemma app_w_spec f i s :
  (nth_error (s_ws s) i = None /\ app_w f i s = s)
  \/ exists w, nth_error (s_ws s) i = Some w
               /\ app_w f i s = enq (fire i w (snd (f w))) (set_ws (upd i (fst (f w)) (s_ws s)) s).
Proof. unfold app_w. destruct (nth_error (s_ws s) i) as [w|]; auto. right. exists w. destruct (f w); auto. Qed.

Lemma in_fire i w fl it : In it (fire i w fl) -> it = QClose i \/ it = QRemove (w_key w) i \/ it = QWfc i.
Proof. destruct fl; simpl; [intros [<-|[<-|[<-|[]]]]; auto|intros []]. Qed.

Lemma app_w_len f i s : s_len (app_w f i s) = s_len s.
Proof. destruct (app_w_spec f i s) as [(_ & ->)|(w & _ & ->)]; auto. Qed.

Lemma app_w_nws g j s : length (s_ws (app_w g j s)) = length (s_ws s).
Proof. destruct (app_w_spec g j s) as [(_ & ->)|(w & _ & ->)]; auto. apply upd_length. Qed.

Lemma write_fst i d s : fst (write H h i d s) = app_w (fun x => fst (wr_write (s_len s) x d)) i s.
Proof. unfold write, app_w. destruct (nth_error (s_ws s) i); auto. Qed.

Lemma write_frame i d s :
  let s' := fst (write H h i d s) in
  s_store s' = s_store s /\ s_io s' = s_io s /\ s_verified s' = s_verified s /\ s_writing s' = s_writing s
  /\ s_completed s' = s_completed s /\ s_len s' = s_len s /\ s_map s' = s_map s
  /\ (forall b, In (QTask b) (s_q s') -> In (QTask b) (s_q s)).
Proof.
  simpl. rewrite write_fst. destruct (app_w_spec (fun x => fst (wr_write (s_len s) x d)) i s) as [(_ & ->)|(w & _ & ->)].
  tauto. simpl. repeat split; auto.
  intros b Hin. apply in_app_or in Hin. destruct Hin as [|Hin]; auto.
  apply in_fire in Hin. destruct Hin as [X|[X|X]]; discriminate.
Qed.

Lemma run_writes_feed i cs : forall s w, nth_error (s_ws s) i = Some w ->
  nth_error (s_ws (run (map (Write i) cs) s)) i = Some (feed (s_len s) w cs).
Proof.
  induction cs as [|c r IH]; intros s w Hn; simpl; auto. rewrite write_fst. erewrite IH.
  - rewrite app_w_len. reflexivity.
  - destruct (app_w_spec (fun x => fst (wr_write (s_len s) x c)) i s) as [(E & _)|(w0 & E & ->)]; [congruence|].
    simpl. erewrite nth_error_upd_eq by eauto. congruence.
Qed.

Lemma save_verified_eq b s :
  save_verified kd b s
  = if s_verified s || s_writing s || file_exists kd s then s else enq [QTask b] (set_writing true s).
Proof. unfold save_verified, writeable. destruct (s_verified s), (s_writing s), (file_exists kd s); reflexivity. Qed.

Lemma set_length_cases n s :
  set_length n s = s
  \/ (s_len s = None /\ exists L, (L <= MAX_BLOB_SIZE)%N /\ set_length n s = set_len (Some L) s).
Proof.
  unfold set_length. destruct (s_len s); auto.
  destruct ((0 <=? n)%Z && (n <=? Z.of_N MAX_BLOB_SIZE)%Z) eqn:E; auto. right. split; auto.
  apply andb_true_iff in E. destruct E as [E1 E2]. apply Z.leb_le in E1, E2.
  eexists; split; [|reflexivity]. unfold MAX_BLOB_SIZE in *. lia.
Qed.

Lemma open_writer_cases k s :
  fst (open_writer kd k s) = s
  \/ ((forall j w, lookup k (s_map s) = Some j -> nth_error (s_ws s) j = Some w -> w_open w = false)
      /\ fst (open_writer kd k s)
         = set_map (map_set k (length (s_ws s)) (s_map s)) (set_ws (s_ws s ++ [mkW k true [] [] FPending]) s)).
Proof.
  unfold open_writer. destruct (file_exists kd s); auto.
  destruct (lookup k (s_map s)) as [j|]; [destruct (nth_error (s_ws s) j) as [w|] eqn:Hj; [destruct (w_open w) eqn:O|]|];
    auto; right; split; auto; congruence.
Qed.

Lemma read_frame s :
  let s' := fst (read_blob kd s) in
  s_ws s' = s_ws s /\ s_q s' = s_q s /\ s_map s' = s_map s /\ s_len s' = s_len s /\ s_io s' = s_io s
  /\ s_writing s' = s_writing s /\ s_completed s' = s_completed s.
Proof.
  unfold read_blob. destruct (s_verified s); simpl; [|tauto]. destruct (s_store s); simpl; [|tauto].
  destruct kd; simpl; tauto.
Qed.

Lemma settled_spec s : settled s = true -> s_q s = [] /\ s_io s = None /\ s_writing s = false.
Proof.
  unfold settled. destruct (s_q s); [|discriminate]. destruct (s_io s); [discriminate|].
  intros X. apply negb_true_iff in X. auto.
Qed.

(* the operations other than the two resets (a consuming read, delete()) and a failing executor job *)
Definition core_op (o : op) : Prop := match o with Read | Delete | IoFail => False | _ => True end.
Definition core_ops (ops : list op) : Prop := Forall core_op ops.

Lemma loop_inv (P : state -> Prop) :
  (forall it r s, P s -> s_q s = it :: r -> P (run_item kd cb it (set_q r s))) ->
  forall n s, P s -> P (iter kd cb n s).
Proof.
  intros Hp. induction n; simpl; auto. intros s Ps. apply IHn. unfold step1.
  destruct (s_q s) eqn:Eq; auto.
Qed.

Lemma run_inv (P : state -> Prop) (ok : op -> Prop) :
  (forall o s, ok o -> P s -> P (fst (step o s))) -> forall ops s, Forall ok ops -> P s -> P (run ops s).
Proof. intros Hp ops s F. apply fold_left_inv_In. intros s' o Hin. apply Hp, (proj1 (Forall_forall _ _) F), Hin. Qed.

Lemma run_inv_all_ops (P : state -> Prop) :
  (forall o s, P s -> P (fst (step o s))) -> forall ops s, P s -> P (run ops s).
Proof. intros Hp. apply fold_left_inv. intros s o. apply Hp. Qed.

Lemma fold_pres {A} (P : state -> Prop) (g : A -> state -> state) l s :
  (forall x st, P st -> P (g x st)) -> P s -> P (fold_right g s l).
Proof. intros Hg Hs. induction l; simpl; auto. Qed.

(* A relation between a state and a later one that holds across closing and cancelling a writer and across changes
   of the dict holds across the two popitem loops; if it also holds across any change that leaves writers and length
   alone, it holds across everything the event loop does. *)
Record loop_rel (R : state -> state -> Prop) : Prop := {
  lr_refl : forall s, R s s;
  lr_trans : forall a b c, R a b -> R b c -> R a c;
  lr_close : forall j s, R s (close_handle j s);
  lr_cancel : forall j s, R s (cancel j s);
  lr_map : forall m s, R s (set_map m s) }.
Definition framed (R : state -> state -> Prop) : Prop :=
  forall s s', s_ws s' = s_ws s -> s_len s' = s_len s -> R s s'.

Section Loop.
Variable R : state -> state -> Prop.
Hypothesis LR : loop_rel R.

Lemma loop_fold {A} (g : A -> state -> state) l s : (forall x st, R st (g x st)) -> R s (fold_right g s l).
Proof. intros Hg. induction l; simpl. apply LR. eapply LR; eauto. Qed.

Lemma loop_close_others i s : R s (close_others i s).
Proof.
  unfold close_others. eapply (lr_trans _ LR); [|apply (lr_map _ LR)]. apply loop_fold.
  intros x st. destruct (Nat.eqb (snd x) i); apply LR.
Qed.

Lemma loop_close_blob s : R s (close_blob s).
Proof. unfold close_blob. eapply (lr_trans _ LR); [|apply (lr_map _ LR)]. apply loop_fold. intros; apply LR. Qed.

Hypothesis Fr : framed R.

Lemma loop_run_item it s : R s (run_item kd cb it s).
Proof.
  destruct it; simpl; try (apply Fr; reflexivity).
  - apply LR.
  - destruct (nth_error (s_ws s) i); [|apply LR]. destruct (w_fut w); try apply LR.
    eapply (lr_trans _ LR); [apply loop_close_others|].
    rewrite save_verified_eq. destruct (_ || _ || _); [apply LR|apply Fr; reflexivity].
  - destruct kd; [|destruct (s_store s)]; apply Fr; reflexivity.
Qed.

Lemma loop_iter n s : R s (iter kd cb n s).
Proof.
  revert s; induction n; simpl; intros. apply LR. eapply (lr_trans _ LR); [|apply IHn].
  unfold step1. destruct (s_q s); [apply LR|]. eapply (lr_trans _ LR); [|apply loop_run_item]. apply Fr; reflexivity.
Qed.
End Loop.

Definition keeps {A} (f : state -> A) (s s' : state) : Prop := f s' = f s.

Lemma keeps_rel {A} (f : state -> A) :
  (forall j s, f (close_handle j s) = f s) -> (forall j s, f (cancel j s) = f s) ->
  (forall m s, f (set_map m s) = f s) -> loop_rel (keeps f).
Proof. intros; split; unfold keeps; auto; congruence. Qed.

Lemma len_rel : loop_rel (keeps s_len).
Proof. apply keeps_rel; intros; auto; apply app_w_len. Qed.
Lemma nws_rel : loop_rel (keeps (fun s => length (s_ws s))).
Proof. apply keeps_rel; intros; auto; apply app_w_nws. Qed.

Lemma iter_len n s : s_len (iter kd cb n s) = s_len s.
Proof. apply (loop_iter _ len_rel). intros s1 s2 _ E. exact E. Qed.
Lemma iter_nws n s : length (s_ws (iter kd cb n s)) = length (s_ws s).
Proof. apply (loop_iter _ nws_rel). intros s1 s2 E _. unfold keeps. congruence. Qed.

(* The operations other than Open and Write do to the writers only what the event loop does. *)
Lemma step_loop R o s : loop_rel R -> (forall s s', s_ws s' = s_ws s -> R s s') ->
  match o with Open _ | Write _ _ => True | _ => R s (fst (step o s)) end.
Proof.
  intros LR Fr. assert (Fr' : framed R) by (intros s1 s2 E _; auto).
  destruct o; simpl; auto; try apply LR.
  - apply Fr. destruct (set_length_cases n s) as [->|(_ & L & _ & ->)]; auto.
  - apply (loop_close_blob _ LR).
  - apply (loop_iter _ LR Fr').
  - apply (loop_iter _ LR Fr').
  - apply Fr. unfold io_done. destruct (s_io s); auto.
  - apply Fr, read_frame.
  - unfold delete_blob. destruct (settled s); simpl; [|apply LR].
    eapply (lr_trans _ LR); [apply (loop_close_blob _ LR)|apply Fr; reflexivity].
  - apply Fr. unfold io_fail. destruct (s_io s); auto.
Qed.

Lemma step_len_kept o s L : o <> Delete -> s_len s = Some L -> s_len (fst (step o s)) = Some L.
Proof.
  intros Hnd E. rewrite <- E. destruct o; simpl; auto.
  - unfold set_length. rewrite E. auto.
  - destruct (open_writer_cases k s) as [->|(_ & ->)]; auto.
  - rewrite write_fst. apply app_w_len.
  - apply app_w_len.
  - apply (loop_close_blob _ len_rel).
  - apply iter_len.
  - apply iter_len.
  - unfold io_done. destruct (s_io s); auto.
  - apply read_frame.
  - contradiction.
  - unfold io_fail. destruct (s_io s); auto.
Qed.

Definition no_delete (ops : list op) : Prop := Forall (fun o => o <> Delete) ops.

Lemma run_len_kept ops s L : no_delete ops -> s_len s = Some L -> s_len (run ops s) = Some L.
Proof. intros Nd. revert s Nd. apply (run_inv (fun s => s_len s = Some L)). intros; apply step_len_kept; auto. Qed.

Lemma run_app ops1 ops2 s : run (ops1 ++ ops2) s = run ops2 (run ops1 s).
Proof. unfold C01.run. apply fold_left_app. Qed.

Lemma core_no_delete ops : core_ops ops -> no_delete ops.
Proof. intros F. eapply Forall_impl; [|exact F]. intros o Co ->. exact Co. Qed.

(* [lia] takes every section variable in sight into its proof term: without the [clear] here and below,
   [drain_quiescent] would ask for a hash function *)
Lemma qweight_app a b : qweight (a ++ b) = (qweight a + qweight b)%nat.
Proof. clear H h. induction a; simpl; auto. rewrite IHa. lia. Qed.

(* a future that becomes done pays for its three callbacks *)
Lemma fuel_app_w g j s : wmove g -> fuel (app_w g j s) = fuel s.
Proof.
  clear H h. intros Wt. destruct (app_w_spec g j s) as [(_ & ->)|(w & Hj & ->)]; auto.
  unfold fuel, enq, pending_count; simpl. rewrite qweight_app.
  pose proof (filter_upd_length (fun x => negb (fut_done (w_fut x))) _ _ (fst (g w)) _ Hj) as P. cbv beta in P.
  destruct (snd (g w)) eqn:Fl.
  - destruct (wm_fire _ Wt w Fl) as (P1 & P2). rewrite P1, P2 in P. simpl in *. lia.
  - rewrite (wm_nofire _ Wt w Fl) in P. simpl. lia.
Qed.

Lemma fuel_rel : loop_rel (keeps fuel).
Proof. apply keeps_rel; intros; auto; apply fuel_app_w; [apply wmove_close|apply wmove_cancel]. Qed.

Lemma fuel_run_item it r s : s_q s = it :: r -> (fuel (run_item kd cb it (set_q r s)) < fuel s)%nat.
Proof.
  clear H h. intros Eq. assert (F0 : fuel s = (wt it + fuel (set_q r s))%nat).
  { unfold fuel. rewrite Eq. simpl. lia. }
  rewrite F0. destruct it; simpl wt; simpl run_item.
  4: destruct kd; [|change (s_store (set_q r s)) with (s_store s); destruct (s_store s)].
  3: { change (s_ws (set_q r s)) with (s_ws s).
       destruct (nth_error (s_ws s) i); [|lia]. destruct (w_fut w); try lia.
       pose proof (loop_close_others _ fuel_rel i (set_q r s)) as P. unfold keeps in P.
       rewrite save_verified_eq. destruct (_ || _ || _); [lia|].
       unfold fuel, enq in *; simpl in *. rewrite qweight_app. simpl. lia. }
  1: rewrite (lr_close _ fuel_rel).
  (* every other callback weighs more than what it schedules *)
  all: unfold fuel, enq; simpl; rewrite ?qweight_app; unfold done_cbs, fail_cbs; destruct cb; simpl; lia.
Qed.

Lemma iter_quiet n s : s_q s = [] -> iter kd cb n s = s.
Proof. intros E. induction n; simpl; auto. unfold step1. rewrite E. auto. Qed.

Lemma iter_fuel n : forall s, (fuel s <= n)%nat -> s_q (iter kd cb n s) = [].
Proof.
  clear H h. induction n; intros s Hf.
  - simpl. destruct (s_q s) as [|it r] eqn:Eq; auto. unfold fuel in Hf. rewrite Eq in Hf. simpl in Hf.
    destruct it; simpl in Hf; lia.
  - simpl. destruct (s_q s) as [|it r] eqn:Eq.
    + unfold step1. rewrite Eq. rewrite iter_quiet; auto.
    + apply IHn. unfold step1. rewrite Eq. pose proof (fuel_run_item it r s Eq). lia.
Qed.

Lemma drain_quiescent s : s_q (drain kd cb s) = [].
Proof. clear H h. unfold drain. apply iter_fuel. lia. Qed.

(* writers only move forward: a done future keeps its value, a closed buffer stays closed *)
Definition wmono (s s' : state) : Prop :=
  forall i w, nth_error (s_ws s) i = Some w ->
    exists w', nth_error (s_ws s') i = Some w' /\ w_key w' = w_key w
               /\ (fut_done (w_fut w) = true -> w_fut w' = w_fut w)
               /\ (w_open w' = true -> w_open w = true).

Lemma wmono_refl s : wmono s s.
Proof. intros i w Hn. exists w; auto. Qed.

Lemma wmono_trans s1 s2 s3 : wmono s1 s2 -> wmono s2 s3 -> wmono s1 s3.
Proof.
  intros A B i w Hn. destruct (A i w Hn) as (w2 & N2 & K2 & F2 & O2).
  destruct (B i w2 N2) as (w3 & N3 & K3 & F3 & O3). exists w3. repeat split; auto; try congruence.
  intros D. rewrite F3; auto. rewrite F2; auto.
Qed.

Lemma wmono_app_w g j s : wmove g -> wmono s (app_w g j s).
Proof.
  intros Wt i w Hn. destruct (app_w_spec g j s) as [(_ & ->)|(w0 & Hj & ->)]; [exists w; auto|]. simpl.
  destruct (Nat.eq_dec j i) as [->|Hne].
  - rewrite Hn in Hj. inversion Hj; subst w0. exists (fst (g w)). erewrite nth_error_upd_eq by eauto.
    repeat split; try apply Wt. intros D. apply (wmove_done_keeps _ _ Wt D).
  - exists w. rewrite nth_error_upd_neq by auto. auto.
Qed.

Lemma wmono_ws s s' : s_ws s' = s_ws s -> wmono s s'.
Proof. intros E i w Hn. exists w. rewrite E. auto. Qed.

Lemma wmono_rel : loop_rel wmono.
Proof.
  split; [apply wmono_refl|apply wmono_trans| | |]; intros.
  - apply wmono_app_w, wmove_close.
  - apply wmono_app_w, wmove_cancel.
  - apply wmono_ws; reflexivity.
Qed.

Lemma wmono_framed : framed wmono.
Proof. intros s s' E _. apply wmono_ws, E. Qed.

Lemma wmono_step o s : wmono s (fst (step o s)).
Proof.
  pose proof (step_loop wmono o s wmono_rel wmono_ws) as X. destruct o; try exact X; simpl.
  - destruct (open_writer_cases k s) as [->|(_ & ->)]; [apply wmono_refl|].
    intros i w Hn. exists w. simpl. rewrite nth_error_app1; auto. apply nth_error_Some. congruence.
  - rewrite write_fst. apply wmono_app_w, wmove_write.
Qed.

Lemma wmono_run ops s : wmono s (run ops s).
Proof.
  apply (run_inv_all_ops (wmono s)); [|apply wmono_refl].
  intros o s' M. eapply wmono_trans; [exact M|apply wmono_step].
Qed.

Lemma done_mono s s' j : wmono s s' -> length (s_ws s') = length (s_ws s) ->
  (forall w, nth_error (s_ws s) j = Some w -> fut_done (w_fut w) = true) ->
  (forall w, nth_error (s_ws s') j = Some w -> fut_done (w_fut w) = true).
Proof.
  intros M Ln Hd w' Hn.
  assert (Hi : (j < length (s_ws s))%nat) by (rewrite <- Ln; apply nth_error_Some; congruence).
  destruct (nth_error (s_ws s) j) as [w|] eqn:Hw; [|apply nth_error_None in Hw; lia].
  destruct (M j w Hw) as (w2 & N2 & _ & F2 & _). rewrite Hn in N2. inversion N2; subst w2.
  rewrite F2; auto.
Qed.

Definition NP (s : state) : Prop := forall i w, nth_error (s_ws s) i = Some w -> fut_done (w_fut w) = true.

Lemma NP_mono s s' : wmono s s' -> length (s_ws s') = length (s_ws s) -> NP s -> NP s'.
Proof. intros M Ln Np i. apply (done_mono s s' i M Ln), Np. Qed.

(* control-neutral transitions: only writers, the map and plain callbacks change *)
Definition plain (it : qitem) : Prop :=
  match it with QClose _ | QRemove _ _ | QWfc _ | QNop => True | _ => False end.

Definition same_ctl (s s' : state) : Prop :=
  s_writing s' = s_writing s /\ s_verified s' = s_verified s /\ s_io s' = s_io s
  /\ s_store s' = s_store s /\ s_completed s' = s_completed s /\ s_len s' = s_len s
  /\ exists l, s_q s' = s_q s ++ l /\ Forall plain l.

Lemma same_ctl_refl s : same_ctl s s.
Proof. unfold same_ctl; repeat split; auto. exists []; rewrite app_nil_r; auto. Qed.

Lemma same_ctl_trans s1 s2 s3 : same_ctl s1 s2 -> same_ctl s2 s3 -> same_ctl s1 s3.
Proof.
  intros (A1 & A2 & A3 & A4 & A5 & A6 & l1 & A7 & A8) (B1 & B2 & B3 & B4 & B5 & B6 & l2 & B7 & B8).
  unfold same_ctl; repeat split; try congruence.
  exists (l1 ++ l2). split. rewrite B7, A7, app_assoc; auto. apply Forall_app; auto.
Qed.

Lemma same_ctl_app_w f i s : same_ctl s (app_w f i s).
Proof.
  destruct (app_w_spec f i s) as [(_ & ->)|(w & _ & ->)]; [apply same_ctl_refl|].
  unfold same_ctl; simpl; repeat split; auto. eexists; split; eauto.
  apply Forall_forall. intros it Hin. apply in_fire in Hin. destruct Hin as [E|[E|E]]; rewrite E; exact I.
Qed.

Lemma same_ctl_set_map m s : same_ctl s (set_map m s).
Proof. unfold same_ctl; simpl; repeat split; auto. exists []; rewrite app_nil_r; auto. Qed.

Lemma same_ctl_rel : loop_rel same_ctl.
Proof.
  split; [apply same_ctl_refl|apply same_ctl_trans| | |]; intros;
    apply same_ctl_app_w || apply same_ctl_set_map.
Qed.

Lemma same_ctl_set_length n s : s_len s <> None -> same_ctl s (set_length n s).
Proof. intros Hn. unfold set_length. destruct (s_len s); [apply same_ctl_refl|contradiction]. Qed.

(* the operations that leave the save alone *)
Definition quiet (o : op) : bool :=
  match o with Open _ | Write _ _ | CloseW _ | CloseBlob | Advance _ | IsVerified _ | Ensure => true | _ => false end.

Lemma step_quiet o s : quiet o = true -> same_ctl s (fst (step o s)).
Proof.
  destruct o; try discriminate; intros _; simpl; try apply same_ctl_refl.
  - destruct (open_writer_cases k s) as [->|(_ & ->)]; [apply same_ctl_refl|].
    unfold same_ctl; simpl; repeat split; auto. exists []; rewrite app_nil_r; auto.
  - rewrite write_fst. apply same_ctl_app_w.
  - apply same_ctl_app_w.
  - apply (loop_close_blob _ same_ctl_rel).
Qed.

(* the callbacks that concern writers, and a frame for what is said about writers *)
Definition witem (it : qitem) : bool := match it with QClose _ | QRemove _ _ | QWfc _ => true | _ => false end.
Definition wframe (s s' : state) : Prop :=
  s_ws s' = s_ws s /\ s_map s' = s_map s /\ s_len s' = s_len s
  /\ forall it, witem it = true -> (In it (s_q s') <-> In it (s_q s)).

Lemma wframe_same s s' : s_ws s' = s_ws s -> s_map s' = s_map s -> s_len s' = s_len s -> s_q s' = s_q s -> wframe s s'.
Proof. intros E1 E2 E3 E4. unfold wframe. rewrite E4. tauto. Qed.

Lemma wframe_enq l s s' : wframe s s' -> existsb witem l = false -> wframe s (enq l s').
Proof.
  intros (E1 & E2 & E3 & Q) Hl. split; [|split; [|split]]; auto. intros x Wi. simpl. rewrite in_app_iff, (Q x Wi).
  split; auto. intros [X|X]; auto. assert (existsb witem l = true) by (apply existsb_exists; eauto). congruence.
Qed.

Lemma wframe_pop s it r : s_q s = it :: r -> witem it = false -> wframe s (set_q r s).
Proof.
  intros Eq Wi. split; [|split; [|split]]; auto. intros x Wx. simpl. rewrite Eq. simpl. split; auto. intros [<-|X]; auto. congruence.
Qed.

Lemma save_verified_wframe b s : wframe s (save_verified kd b s).
Proof.
  rewrite save_verified_eq. destruct (_ || _ || _); [|apply wframe_enq; auto]; apply wframe_same; auto.
Qed.

Lemma run_item_wframe it s : witem it = false -> wframe s (run_item kd cb it s).
Proof.
  intros Wi. destruct it; try discriminate Wi; simpl; try (apply wframe_same; reflexivity);
    try (apply wframe_enq; [apply wframe_same; reflexivity|unfold done_cbs, fail_cbs; destruct cb; reflexivity]).
  destruct kd; [apply wframe_same; reflexivity|].
  destruct (s_store s); (apply wframe_enq; [apply wframe_same; reflexivity|unfold done_cbs, fail_cbs; destruct cb; reflexivity]).
Qed.

(* the operations that touch neither writers nor dict nor length *)
Definition ctl_op (o : op) : bool :=
  match o with IoDone | IoFail | Read | Advance _ | IsVerified _ | Ensure => true | _ => false end.

Lemma step_wframe o s : ctl_op o = true -> wframe s (fst (step o s)).
Proof.
  destruct o; try discriminate; intros _; simpl; try (apply wframe_same; reflexivity).
  - unfold io_done. destruct (s_io s); [apply wframe_enq; auto|]; apply wframe_same; reflexivity.
  - apply wframe_same; apply read_frame.
  - unfold io_fail. destruct (s_io s); [apply wframe_enq; auto|]; apply wframe_same; reflexivity.
Qed.

Definition is_task it := match it with QTask _ => true | _ => false end.
Definition is_ss it := match it with QSetState | QSetStateF => true | _ => false end.
Definition is_wk it := match it with QWakeup | QWakeupF => true | _ => false end.
Definition is_up it := match it with QUpdate | QUpdateF => true | _ => false end.
Definition is_cp it := match it with QCompleted => true | _ => false end.
Definition cnt (p : qitem -> bool) (q : list qitem) : nat := length (filter p q).
Definition b2n (b : bool) : nat := if b then 1 else 0.

Arguments cnt : simpl never.

Lemma cnt_app p a b : cnt p (a ++ b) = (cnt p a + cnt p b)%nat.
Proof. unfold cnt. rewrite filter_app, app_length. auto. Qed.
Lemma cnt_single p it : cnt p [it] = b2n (p it).
Proof. unfold cnt. simpl. destruct (p it); auto. Qed.
Lemma cnt_cons p it r : cnt p (it :: r) = (cnt p [it] + cnt p r)%nat.
Proof. apply (cnt_app p [it] r). Qed.
Lemma filter_plain p l : Forall plain l -> (forall it, plain it -> p it = false) -> filter p l = [].
Proof. intros Hl Hp. induction Hl; simpl; auto. rewrite Hp by auto. auto. Qed.

(* The save as an automaton.  [Idle]: not verified, nothing under way; [Task b]: the write task is queued; [Job b]: the
   executor has the job; [SetSt], [Wake], [Upd]: the three callbacks that follow, with [ok = false] after a job that
   failed; [Done]: verified. *)
Inductive phase := Idle | Task (b : bytes) | Job (b : bytes) | SetSt (ok : bool) | Wake (ok : bool) | Upd (ok : bool) | Done.

(* the callbacks of a save: exactly one of them is queued while a save is between its task and its end *)
Definition stg (it : qitem) : bool := is_task it || is_ss it || is_wk it || is_up it.

(* the callback of the save that is queued *)
Definition tok (ph : phase) : list qitem :=
  match ph with
  | Task b => [QTask b]
  | SetSt ok => [if ok then QSetState else QSetStateF]
  | Wake ok => [if ok then QWakeup else QWakeupF]
  | Upd ok => [if ok then QUpdate else QUpdateF]
  | _ => []
  end.
Definition job (ph : phase) : option bytes := match ph with Job b => Some b | _ => None end.
Definition saving (ph : phase) : bool := match ph with Idle | Done => false | _ => true end.
Definition is_done (ph : phase) : bool := match ph with Done => true | _ => false end.
Definition stored_in (ph : phase) : bool := match ph with SetSt true | Wake true | Upd true | Done => true | _ => false end.

Record Phase (ph : phase) (s : state) : Prop := {
  ph_q : filter stg (s_q s) = tok ph;
  ph_io : s_io s = job ph;
  ph_w : s_writing s = saving ph;
  ph_v : s_verified s = is_done ph;
  ph_st : s_store s <> None -> stored_in ph = true }.

Lemma Phase_idle ph s : Phase ph s -> s_verified s = false -> s_writing s = false -> ph = Idle.
Proof. intros [_ _ W V _] Ev Ew. rewrite V in Ev. rewrite W in Ew. destruct ph; auto; discriminate. Qed.

Lemma Phase_done ph s : Phase ph s -> s_verified s = true -> ph = Done.
Proof. intros [_ _ _ V _] Ev. rewrite V in Ev. destruct ph; auto; discriminate. Qed.

Lemma tok_in ph s it : Phase ph s -> In it (tok ph) -> In it (s_q s).
Proof. intros P Hin. rewrite <- (ph_q _ _ P) in Hin. apply filter_In in Hin. apply Hin. Qed.

(* the completion callback: one call per save.  Calls made + calls queued + the call a save still owes (none once its
   done-callbacks are queued or the blob is verified) never changes under callbacks and core operations *)
Definition calls (s : state) : nat := (s_completed s + cnt is_cp (s_q s))%nat.
Definition owes (ph : phase) : nat := if cb then match ph with Upd true | Done => 0 | _ => 1 end else 0.

(* what callbacks and core operations do to the phase *)
Inductive pstep : phase -> phase -> Prop :=
| ps_stay ph : pstep ph ph
| ps_start b : pstep Idle (Task b)
| ps_submit b : pstep (Task b) (Job b)
| ps_buffer b : pstep (Task b) (Upd true)
| ps_stored b : pstep (Job b) (SetSt true)
| ps_set ok : pstep (SetSt ok) (Wake ok)
| ps_wake ok : pstep (Wake ok) (Upd ok)
| ps_upd ok : pstep (Upd ok) (if ok then Done else Idle).

(* ... and to the store: the bytes of the task, resp. of the job, arrive *)
Definition pstore (ph ph' : phase) (st : option bytes) : option bytes :=
  match ph, ph' with Task b, Upd _ | Job b, SetSt true => Some b | _, _ => st end.

Record moved (ph : phase) (s : state) (ph' : phase) (s' : state) : Prop := {
  mv_step : pstep ph ph';
  mv_phase : Phase ph' s';
  mv_calls : (calls s' + owes ph' = calls s + owes ph)%nat;
  mv_store : s_store s' = pstore ph ph' (s_store s) }.

Lemma pstep_stored ph ph' st : pstep ph ph' -> (st <> None -> stored_in ph = true) ->
  pstore ph ph' st <> None -> stored_in ph' = true.
Proof. intros Ps. destruct Ps as [ph0|b|b|b|b|ok|ok|ok]; try destruct ph0; try destruct ok; simpl; auto. Qed.

Lemma moved_intro ph ph' s s' :
  pstep ph ph' -> Phase ph s ->
  filter stg (s_q s') = tok ph' -> s_io s' = job ph' -> s_writing s' = saving ph' -> s_verified s' = is_done ph' ->
  (calls s' + owes ph' = calls s + owes ph)%nat -> s_store s' = pstore ph ph' (s_store s) -> moved ph s ph' s'.
Proof. intros Ps P Q Io W V C E. split; auto. split; auto. rewrite E. apply (pstep_stored _ _ _ Ps), P. Qed.

(* a writer move, a change of the dict or plain callbacks queued after [s1], itself at the phase and count of [s] *)
Lemma moved_same_ctl ph s s1 s' : Phase ph s1 -> calls s1 = calls s -> s_store s1 = s_store s -> same_ctl s1 s' ->
  moved ph s ph s'.
Proof.
  intros [Q Io W V St] C E (A1 & A2 & A3 & A4 & A5 & _ & l & A7 & A8).
  assert (C' : calls s' = calls s1).
  { unfold calls, cnt. rewrite A5, A7, filter_app, (filter_plain is_cp l), app_nil_r; auto. intros []; simpl; auto; contradiction. }
  split; [constructor|split|lia|rewrite A4, E; destruct ph; reflexivity]; rewrite ?A1, ?A2, ?A3, ?A4, ?A7; auto.
  rewrite filter_app, (filter_plain stg l), app_nil_r; auto. intros []; simpl; auto; contradiction.
Qed.

(* save_verified_blob starts a save exactly when the blob is neither verified nor being saved *)
Lemma save_verified_moved ph s0 s b : moved ph s0 ph s ->
  moved ph s0 (match ph with Idle => Task b | _ => ph end) (save_verified kd b s).
Proof.
  intros [_ P C E]. rewrite save_verified_eq, (ph_v _ _ P), (ph_w _ _ P).
  destruct ph; simpl; try (split; auto; constructor).
  pose proof P as [Q Io W V St]. simpl in Q, Io, W, V, St.
  assert (Fe : file_exists kd s = false) by (unfold file_exists; destruct kd, (s_store s); auto; discriminate St; discriminate).
  rewrite Fe. split; [apply ps_start|split; simpl; auto| |exact E].
  - rewrite filter_app, Q; auto.
  - unfold calls, owes in *; simpl. rewrite cnt_app. change (cnt is_cp [QTask b]) with 0%nat. lia.
Qed.

Lemma Phase_pop ph s it r : Phase ph s -> s_q s = it :: r -> stg it = false ->
  Phase ph (set_q r s) /\ (calls (set_q r s) + b2n (is_cp it) = calls s)%nat.
Proof.
  intros [Q Io W V St] Eq Sg. unfold calls. rewrite Eq in *. simpl in Q. rewrite Sg in Q. split; [split; auto|].
  simpl. rewrite (cnt_cons is_cp it r), cnt_single. lia.
Qed.

Lemma Phase_head ph s it r : Phase ph s -> s_q s = it :: r -> stg it = true -> tok ph = [it] /\ filter stg r = [].
Proof.
  intros P Eq Sg. pose proof (ph_q _ _ P) as Q. rewrite Eq in Q. simpl in Q. rewrite Sg in Q.
  destruct ph as [| | |[]|[]|[]|]; simpl in *; inversion Q; auto.
Qed.

(* While [Idle], a save starts exactly when the callback is a writer_finished_callback that carries a result, and it is
   a save of that result. *)
Definition starts (ph : phase) (it : qitem) (s : state) (ph' : phase) : Prop :=
  ph = Idle -> forall b, ph' = Task b <-> exists i w, it = QWfc i /\ nth_error (s_ws s) i = Some w /\ w_fut w = FOk b.

(* the head callback [it] belongs to the save: it queues [l] and leaves the fields of [ph'] *)
Lemma head_moves ph ph' it r l s s' :
  Phase ph s -> s_q s = it :: r -> stg it = true -> pstep ph ph' ->
  s_q s' = r ++ l -> filter stg l = tok ph' -> (cnt is_cp l + owes ph' = owes ph)%nat -> s_completed s' = s_completed s ->
  s_io s' = job ph' -> s_writing s' = saving ph' -> s_verified s' = is_done ph' ->
  s_store s' = pstore ph ph' (s_store s) -> exists ph', moved ph s ph' s' /\ starts ph it s ph'.
Proof.
  intros P Eq Sg Ps Eq' Fl Cl Ec Io W V E. destruct (Phase_head ph s it r P Eq Sg) as (T & Fr).
  exists ph'. split; [apply moved_intro; auto|intros ->; discriminate T].
  - rewrite Eq', filter_app, Fr; auto.
  - unfold calls. rewrite Ec, Eq', Eq, cnt_app, (cnt_cons is_cp it r), cnt_single.
    destruct it; try discriminate Sg; simpl; lia.
Qed.

(* The one walk over the callbacks for what concerns the save. *)
Lemma run_item_phase ph it r s : Phase ph s -> s_q s = it :: r ->
  exists ph', moved ph s ph' (run_item kd cb it (set_q r s)) /\ starts ph it s ph'.
Proof.
  intros P Eq. destruct (stg it) eqn:Sg.
  - destruct (Phase_head ph s it r P Eq Sg) as (T & _). pose proof P as [_ Io W V St].
    destruct it; try discriminate Sg; destruct ph as [| | |[]|[]|[]|]; try discriminate T; simpl in *.
    + inversion T; subst b0. destruct kd.
      * apply (head_moves _ (Job b) _ _ [] _ _ P Eq Sg (ps_submit b)); auto using app_nil_end.
      * change (s_store (set_q r s)) with (s_store s). destruct (s_store s) eqn:Es; [discriminate St; discriminate|].
        apply (head_moves _ (Upd true) _ _ (done_cbs cb) _ _ P Eq Sg (ps_buffer b)); simpl; auto;
          unfold done_cbs, owes; destruct cb; auto.
    + apply (head_moves _ (Wake true) _ _ [QNop; QWakeup] _ _ P Eq Sg (ps_set true)); auto.
    + apply (head_moves _ (Upd true) _ _ (done_cbs cb) _ _ P Eq Sg (ps_wake true)); auto;
        unfold done_cbs, owes; destruct cb; auto.
    + apply (head_moves _ Done _ _ [] _ _ P Eq Sg (ps_upd true)); auto using app_nil_end.
    + apply (head_moves _ (Wake false) _ _ [QNop; QWakeupF] _ _ P Eq Sg (ps_set false)); auto.
    + apply (head_moves _ (Upd false) _ _ (fail_cbs cb) _ _ P Eq Sg (ps_wake false)); auto;
        unfold fail_cbs, owes; destruct cb; auto.
    + apply (head_moves _ Idle _ _ [] _ _ P Eq Sg (ps_upd false)); auto using app_nil_end.
  - destruct (Phase_pop ph s it r P Eq Sg) as (P0 & C0).
    (* not a writer_finished_callback with a result: nothing of the save moves *)
    assert (X : (forall i w b, it = QWfc i -> nth_error (s_ws s) i = Some w -> w_fut w <> FOk b) ->
                is_cp it = false -> forall s', same_ctl (set_q r s) s' ->
                exists ph', moved ph s ph' s' /\ starts ph it s ph').
    { intros Nr Nc s' Sc. exists ph. split.
      - apply (moved_same_ctl ph s (set_q r s)); auto. rewrite Nc in C0. simpl in C0. lia.
      - intros -> b. split; [discriminate|]. intros (i & w & E & Hn & Ef). destruct (Nr i w b E Hn Ef). }
    destruct it; try discriminate Sg; simpl run_item.
    + apply X; try discriminate; auto. apply same_ctl_app_w.
    + apply X; try discriminate; auto. apply same_ctl_set_map.
    + change (s_ws (set_q r s)) with (s_ws s). destruct (nth_error (s_ws s) i) as [w|] eqn:Hn.
      2: { apply X; auto; [|apply same_ctl_refl]. intros i0 w0 b0 E. inversion E; subst i0. congruence. }
      destruct (w_fut w) eqn:Ef; try (apply X; auto; [|apply same_ctl_refl];
        intros i0 w0 b0 E; inversion E; subst i0; congruence).
      assert (M : moved ph s ph (close_others i (set_q r s))).
      { apply (moved_same_ctl ph s (set_q r s)); auto. simpl in C0. lia. apply (loop_close_others _ same_ctl_rel). }
      exists (match ph with Idle => Task b | _ => ph end). split; [apply save_verified_moved, M|].
      intros -> b0. split; [intros E; inversion E; subst b0; eauto|].
      intros (i0 & w0 & E0 & Hn0 & Ef0). inversion E0; subst i0. congruence.
    + apply X; try discriminate; auto. apply same_ctl_refl.
    + exists ph. split; [|intros -> b0; split; [discriminate|intros (i & w & E & _); discriminate]].
      destruct P0 as [Q Io W V St]. split; [constructor|split; auto| |simpl; destruct ph; reflexivity].
      unfold calls in *; simpl in *. lia.
Qed.

(* What is said of the phase and the state, and is kept by every move, is kept by every callback and every core
   operation. *)
Definition kept (Q : phase -> state -> Prop) : Prop := forall ph s ph' s', moved ph s ph' s' -> Q ph s -> Q ph' s'.
Definition At (Q : phase -> state -> Prop) (s : state) : Prop := exists ph, Phase ph s /\ Q ph s.

Lemma At_moved Q ph s ph' s' : kept Q -> moved ph s ph' s' -> Q ph s -> At Q s'.
Proof. intros Cq M Hq. exists ph'. split; [apply M|eapply Cq; eauto]. Qed.

Lemma calls_kept C : kept (fun ph s => (calls s + owes ph)%nat = C).
Proof. intros ph s ph' s' M <-. apply M. Qed.

Lemma At_run_item Q it r s : kept Q -> At Q s -> s_q s = it :: r -> At Q (run_item kd cb it (set_q r s)).
Proof.
  intros Cq (ph & P & Hq) Eq. destruct (run_item_phase ph it r s P Eq) as (ph' & M & _). eapply At_moved; eauto.
Qed.

Lemma At_iter Q n s : kept Q -> At Q s -> At Q (iter kd cb n s).
Proof. intros Cq. apply loop_inv. intros; apply At_run_item; auto. Qed.

(* The core operations other than a turn of the loop: one move, which never starts a save. *)
Lemma step_moved ph o s : core_op o -> o <> Tick -> o <> Drain -> Phase ph s ->
  exists ph', moved ph s ph' (fst (step o s)) /\ (ph = Idle -> ph' = Idle).
Proof.
  intros Co Nt Nd P.
  assert (Sc : forall s', same_ctl s s' -> exists ph', moved ph s ph' s' /\ (ph = Idle -> ph' = Idle)).
  { intros s' X. exists ph. split; auto. apply (moved_same_ctl ph s s); auto. }
  destruct (quiet o) eqn:Qo; [apply Sc, step_quiet; auto|].
  destruct o; try discriminate Qo; try contradiction; simpl.
  - destruct (set_length_cases n s) as [->|(_ & L & _ & ->)]; [apply Sc, same_ctl_refl|].
    exists ph. split; auto. destruct P as [Q Io W V St].
    split; [constructor|split; auto|unfold calls; simpl; lia|destruct ph; reflexivity].
  - unfold io_done. destruct (s_io s) as [b|] eqn:Ei; [|apply Sc, same_ctl_refl].
    pose proof P as [Q0 Io W V St]. rewrite Io in Ei. destruct ph; try discriminate Ei. inversion Ei; subst b0. simpl in *.
    exists (SetSt true). split; [|discriminate].
    apply moved_intro; simpl; auto; [apply ps_stored|rewrite filter_app, Q0; auto|].
    unfold calls, owes; simpl. rewrite cnt_app. change (cnt is_cp [QSetState]) with 0%nat. lia.
Qed.

Lemma At_step Q o s : kept Q -> core_op o -> At Q s -> At Q (fst (step o s)).
Proof.
  intros Cq Co (ph & P & Hq).
  assert (X : o <> Tick -> o <> Drain -> At Q (fst (step o s))).
  { intros Nt Nd. destruct (step_moved ph o s Co Nt Nd P) as (ph' & M & _). eapply At_moved; eauto. }
  destruct o; try (apply X; discriminate); apply At_iter; auto; exists ph; auto.
Qed.

Lemma At_run Q ops s : kept Q -> core_ops ops -> At Q s -> At Q (run ops s).
Proof. intros Cq Co. revert s Co. apply (run_inv (At Q) core_op). intros; apply At_step; auto. Qed.

(* the bytes of the save in flight *)
Definition pdata (ph : phase) : option bytes := match ph with Task x | Job x => Some x | _ => None end.

(* The two resets and a failing executor job: afterwards no bytes are in flight and none are promised, and the store is
   as it was or empty. *)
Lemma reset_phase ph o s : Phase ph s -> ~ core_op o ->
  fst (step o s) = s \/ exists ph', Phase ph' (fst (step o s)) /\ pdata ph' = None /\ stored_in ph' = false
    /\ (s_store (fst (step o s)) = None \/ (s_store (fst (step o s)) = s_store s /\ s_len (fst (step o s)) = s_len s)).
Proof.
  intros P Nc. pose proof P as [Q Io W V St]. destruct o; try (destruct Nc; exact I); simpl.
  - unfold read_blob. destruct (s_verified s) eqn:Ev; simpl; auto. destruct (s_store s); simpl; auto. destruct kd; auto.
    right. exists Idle. destruct ph; try discriminate V. repeat split; simpl; auto.
  - unfold delete_blob. destruct (settled s) eqn:Se; auto. simpl. right. exists Idle.
    destruct (settled_spec s Se) as (_ & _ & Wf). rewrite W in Wf.
    destruct (moved_same_ctl ph s s (close_blob s) P eq_refl eq_refl (loop_close_blob _ same_ctl_rel s))
      as [_ [Q' Io' W' V' _] _ _].
    destruct ph; try discriminate Wf; repeat split; simpl; auto; intros X; contradiction.
  - unfold io_fail. destruct (s_io s) eqn:Ei; auto. right. destruct ph; try discriminate Io. exists (SetSt false).
    repeat split; simpl; auto. rewrite filter_app, Q; auto.
Qed.

Lemma Phase_step ph o s : Phase ph s -> exists ph', Phase ph' (fst (step o s)).
Proof.
  intros P.
  assert (Co : core_op o -> exists ph', Phase ph' (fst (step o s))).
  { intros Co. destruct (At_step (fun _ _ => True) o s (fun _ _ _ _ _ _ => I) Co (ex_intro _ ph (conj P I))) as (ph' & P' & _). eauto. }
  assert (Nc : ~ core_op o -> exists ph', Phase ph' (fst (step o s))).
  { intros Nc. destruct (reset_phase ph o s P Nc) as [->|(ph' & P' & _)]; eauto. }
  destruct o; (apply Co; exact I) || (apply Nc; intros []).
Qed.

(* The same by counting: at most one save is in flight, and bytes are stored only when the blob is verified or in the
   successful tail of a save. *)
Definition stage_q q := (cnt is_task q + cnt is_ss q + cnt is_wk q + cnt is_up q)%nat.
Definition io01 (s : state) : nat := match s_io s with Some _ => 1 | None => 0 end.

Arguments stage_q : simpl never.

(* a callback of the SUCCESSFUL tail of a save (the bytes are stored) is queued *)
Definition succ_in (q : list qitem) : Prop := In QSetState q \/ In QWakeup q \/ In QUpdate q.

Definition Inv2 (s : state) : Prop :=
  (stage_q (s_q s) + io01 s = b2n (s_writing s))%nat
  /\ (s_verified s = true -> s_writing s = false)
  /\ (s_store s <> None -> s_verified s = true \/ succ_in (s_q s)).

Lemma stage_len q : length (filter stg q) = stage_q q.
Proof. unfold stage_q, cnt. induction q as [|[] q IH]; simpl; lia. Qed.

Lemma succ_in_filter q : succ_in q <-> succ_in (filter stg q).
Proof.
  unfold succ_in. rewrite !filter_In. split; [intros [X|[X|X]]; auto|intros [(X & _)|[(X & _)|(X & _)]]; auto].
Qed.

(* [Inv2] sees of the queue only the callbacks of the save: none, or one, which tells the phase *)
Lemma Inv2_Phase s : Inv2 s <-> exists ph, Phase ph s.
Proof.
  unfold Inv2, io01. rewrite <- stage_len, succ_in_filter. unfold succ_in. split.
  - intros (I1 & I2 & I3).
    assert (Sg : forall it, In it (filter stg (s_q s)) -> stg it = true) by (intros it X; apply filter_In in X; apply X).
    destruct (s_writing s) eqn:W, (s_io s) as [b|] eqn:Io, (filter stg (s_q s)) as [|it [|]] eqn:F; try discriminate I1;
      destruct (s_verified s) eqn:V; try discriminate (I2 eq_refl);
      [exists (Job b)
      |specialize (Sg it (or_introl eq_refl)); destruct it; try discriminate Sg;
       [exists (Task b)|exists (SetSt true)|exists (Wake true)|exists (Upd true)
        |exists (SetSt false)|exists (Wake false)|exists (Upd false)]
      |exists Done|exists Idle];
      (split; [exact F|exact Io|exact W|exact V|intros Hs]); try reflexivity;
      (* in the other phases nothing is stored *)
      destruct (I3 Hs) as [X|X]; try discriminate X; clear - X; simpl in X; decompose [or] X; discriminate || contradiction.
  - intros (ph & [Q Io W V St]). rewrite Q, Io, W, V. clear - St.
    destruct ph as [| | |[]|[]|[]|];
      (split; [reflexivity|split; [intros X; (discriminate X || reflexivity)|intros Hs; specialize (St Hs)]]);
      (discriminate St || (simpl; auto 6)).
Qed.

Lemma Inv2_step o s : Inv2 s -> Inv2 (fst (step o s)).
Proof. rewrite !Inv2_Phase. intros (ph & P). exact (Phase_step ph o s P). Qed.

Lemma Inv2_run ops s : Inv2 s -> Inv2 (run ops s).
Proof. apply run_inv_all_ops. intros o s'. apply Inv2_step. Qed.

Definition goodS (s : state) (b : bytes) : Prop :=
  exists L, s_len s = Some L /\ N.of_nat (length b) = L /\ good b.

(* a queued writer_finished_callback that carries a result carries one of the CURRENT length *)
Definition Qok (s : state) : Prop :=
  forall i w b, In (QWfc i) (s_q s) -> nth_error (s_ws s) i = Some w -> w_fut w = FOk b -> goodS s b.

(* [Inv], of the writers: the accepted length is admissible and every writer is as [w_ok] says; of the save: the bytes in
   flight and the bytes stored are correct copies of the accepted length, and bytes are stored in the successful tail
   of a save and when the blob is verified. *)
Definition Wok (s : state) : Prop :=
  (forall L, s_len s = Some L -> (L <= MAX_BLOB_SIZE)%N) /\ Forall (w_ok (s_len s)) (s_ws s).
Definition dat (P : bytes -> Prop) (ph : phase) (st : option bytes) : Prop :=
  (forall x, pdata ph = Some x -> P x) /\ (forall x, st = Some x -> P x).
Definition Cok (s : state) : Prop :=
  At (fun ph s => (stored_in ph = true -> s_store s <> None) /\ dat (goodS s) ph (s_store s)) s.
Definition Inv (s : state) : Prop := Wok s /\ Cok s.

(* the bytes move from the task to the job to the store; new ones come in only when a save starts *)
Lemma pstep_dat (P : bytes -> Prop) ph ph' st : pstep ph ph' -> (forall x, ph = Idle -> ph' = Task x -> P x) ->
  dat P ph st -> dat P ph' (pstore ph ph' st).
Proof.
  intros Ps Hs (D & S). destruct Ps as [ph0|x0|x0|x0|x0|ok|ok|ok]; try destruct ph0; try destruct ok; simpl in *;
    split; auto; try (intros; discriminate); intros x X; inversion X; subst; auto.
Qed.

Lemma pstep_has ph ph' st : pstep ph ph' -> (stored_in ph = true -> st <> None) ->
  stored_in ph' = true -> pstore ph ph' st <> None.
Proof.
  intros Ps. destruct Ps as [ph0|x0|x0|x0|x0|ok|ok|ok]; try destruct ph0; try destruct ok; simpl; auto; discriminate.
Qed.

Lemma Cok_store s : Cok s -> (forall b, s_store s = Some b -> goodS s b) /\ (s_verified s = true -> s_store s <> None).
Proof. intros (ph & P & Hh & _ & S). split; auto. intros V. rewrite (Phase_done ph s P V) in Hh. auto. Qed.

Lemma Cok_moved ph s ph' s' : moved ph s ph' s' -> s_len s' = s_len s ->
  (forall x, ph = Idle -> ph' = Task x -> goodS s x) ->
  (stored_in ph = true -> s_store s <> None) /\ dat (goodS s) ph (s_store s) -> Cok s'.
Proof.
  intros [Ps P _ E] El Hs (Hh & D). exists ph'. split; auto. cbv beta. rewrite E. unfold goodS. rewrite El.
  split; [apply (pstep_has _ _ _ Ps Hh)|apply (pstep_dat _ _ _ _ Ps Hs D)].
Qed.

Lemma Cok_same_ctl s s' : same_ctl s s' -> Cok s -> Cok s'.
Proof.
  intros Sc (ph & P & C). pose proof Sc as (_ & _ & _ & _ & _ & A6 & _).
  apply (Cok_moved ph s ph s'); auto; [apply (moved_same_ctl ph s s); auto|intros x -> X; discriminate X].
Qed.

Lemma Cok_run_item it r s : Cok s -> Qok s -> s_q s = it :: r -> Cok (run_item kd cb it (set_q r s)).
Proof.
  intros (ph & P & C) K Eq. destruct (run_item_phase ph it r s P Eq) as (ph' & M & Hs).
  apply (Cok_moved ph s ph' _ M); auto.
  - exact (loop_run_item _ len_rel (fun s1 s2 _ E => E) it (set_q r s)).
  - intros x E1 E2. destruct (proj1 (Hs E1 x) E2) as (i & w & -> & Hn & Ef). apply (K i w x); auto. rewrite Eq; left; auto.
Qed.

Lemma Cok_reset o s : ~ core_op o -> Cok s -> Cok (fst (step o s)).
Proof.
  intros Nc (ph & P & Hh & D & S). destruct (reset_phase ph o s P Nc) as [->|(ph' & P' & Pd & Sf & X)]; [exists ph; split; auto; split; auto; split; auto|].
  exists ph'. split; auto. split; [rewrite Sf; discriminate|]. split; [rewrite Pd; discriminate|].
  destruct X as [->|(-> & El)]; [discriminate|]. unfold goodS. rewrite El. exact S.
Qed.

Lemma Wok_app_w g j s : wtrans (s_len s) g -> Forall (w_ok (s_len s)) (s_ws s) ->
  Forall (w_ok (s_len (app_w g j s))) (s_ws (app_w g j s)).
Proof.
  intros Wt F. destruct (app_w_spec g j s) as [(_ & ->)|(w & Hj & ->)]; auto. simpl.
  apply Forall_upd; auto. apply (wt_ok _ _ Wt). eapply Forall_nth_error; eauto.
Qed.

Lemma Wok_rel : loop_rel (fun s s' => Wok s -> Wok s').
Proof.
  split; auto; intros j s (B & F); (split; [unfold close_handle, cancel; rewrite app_w_len; auto|]); apply Wok_app_w; auto;
    [apply wtrans_close|apply wtrans_cancel].
Qed.

Lemma Wok_framed : framed (fun s s' => Wok s -> Wok s').
Proof. intros s s' E1 E2. unfold Wok. rewrite E1, E2. auto. Qed.

Lemma Qok_frame s s' : wframe s s' -> Qok s -> Qok s'.
Proof.
  intros (E1 & _ & E3 & Q) K i w b Hq Hn Ef. rewrite E1 in Hn. apply Q in Hq; auto.
  destruct (K i w b Hq Hn Ef) as (L & X). exists L. rewrite E3. auto.
Qed.

Lemma Qok_sub s q : (forall it, In it q -> In it (s_q s)) -> Qok s -> Qok (set_q q s).
Proof. intros Q K i w b Hq. apply (K i w b). auto. Qed.

Lemma Qok_app_w g j s : wtrans (s_len s) g -> Forall (w_ok (s_len s)) (s_ws s) -> Qok s -> Qok (app_w g j s).
Proof.
  intros Wt F K. destruct (app_w_spec g j s) as [(_ & ->)|(w & Hj & ->)]; auto.
  pose proof (Forall_nth_error _ _ _ _ F Hj) as Wok.
  intros i x b Hq Hn Ef. unfold goodS. simpl in *.
  apply nth_error_upd_cases in Hn. destruct Hn as [(-> & -> & _)|(Hne & Hn)].
  - destruct (fut_done (w_fut w)) eqn:D.
    + (* already done: same future, and its callback was queued before *)
      destruct (wmove_done_keeps _ _ (wt_move _ _ Wt) D) as (Nf & Fl). rewrite Fl in Hq. simpl in Hq. rewrite app_nil_r in Hq.
      rewrite Nf in Ef. apply (K j w b); auto.
    + apply fut_done_false in D.
      destruct (wt_newok _ _ Wt w b Wok D Ef) as (L & E1 & E2). exists L. split; auto. split; auto.
      apply (ok_res _ _ (wt_ok _ _ Wt w Wok)); auto.
  - apply in_app_or in Hq. destruct Hq as [Hq|Hq]; [apply (K i x b); auto|].
    apply in_fire in Hq. destruct Hq as [Hq|[Hq|Hq]]; try discriminate. inversion Hq; subst. contradiction.
Qed.

Lemma WQ_rel : loop_rel (fun s s' => Wok s /\ Qok s -> Wok s' /\ Qok s').
Proof.
  split; auto; intros j s (Wk & K);
    (split; [apply (lr_close _ Wok_rel) || apply (lr_cancel _ Wok_rel); auto|apply Qok_app_w; auto; try apply Wk]);
    apply wtrans_close || apply wtrans_cancel.
Qed.

Lemma Qok_run_item it r s : Wok s -> Qok s -> s_q s = it :: r -> Qok (run_item kd cb it (set_q r s)).
Proof.
  intros Wk K Eq.
  assert (K0 : Qok (set_q r s)) by (apply Qok_sub; auto; intros x Hx; rewrite Eq; right; auto).
  assert (F0 : Forall (w_ok (s_len (set_q r s))) (s_ws (set_q r s))) by apply Wk.
  destruct (witem it) eqn:Wi; [|eapply Qok_frame; [apply run_item_wframe|]; auto].
  destruct it; try discriminate Wi; simpl; auto.
  - apply Qok_app_w; auto. apply wtrans_close.
  - change (s_ws (set_q r s)) with (s_ws s). destruct (nth_error (s_ws s) i); auto. destruct (w_fut w); auto.
    eapply Qok_frame; [apply save_verified_wframe|]. apply (loop_close_others _ WQ_rel); split; auto.
Qed.

Lemma IK_iter n s : Inv s /\ Qok s -> Inv (iter kd cb n s) /\ Qok (iter kd cb n s).
Proof.
  apply (loop_inv (fun s => Inv s /\ Qok s)). intros it r s0 (Iv & K) Eq.
  split; [split; [apply (loop_run_item _ Wok_rel Wok_framed it (set_q r s0)), Iv|apply Cok_run_item; auto; apply Iv]|apply Qok_run_item; auto; apply Iv].
Qed.

(* a finished writer whose buffer is still open has its close_handle callback queued *)
Definition Cl (s : state) : Prop :=
  forall i w, nth_error (s_ws s) i = Some w -> w_open w = true -> fut_done (w_fut w) = true -> In (QClose i) (s_q s).

Lemma Cl_grow s s' : s_ws s' = s_ws s -> (forall it, In it (s_q s) -> In it (s_q s')) -> Cl s -> Cl s'.
Proof. intros E Q C i w Hn O D. rewrite E in Hn. apply Q. eapply C; eauto. Qed.

Lemma Cl_frame s s' : wframe s s' -> Cl s -> Cl s'.
Proof. intros (E & _ & _ & Q) C i w Hn O D. rewrite E in Hn. apply Q; auto. eapply C; eauto. Qed.

Lemma Cl_app_w g j s : wmove g -> Cl s -> Cl (app_w g j s).
Proof.
  intros Wt C. destruct (app_w_spec g j s) as [(_ & ->)|(w & Hj & ->)]; auto.
  intros i x Hn O D. simpl in *. apply in_or_app.
  apply nth_error_upd_cases in Hn. destruct Hn as [(-> & -> & _)|(Hne & Hn)]; [|left; eapply C; eauto].
  destruct (snd (g w)) eqn:Fl; [right; simpl; auto|left].
  apply (C j w); auto. apply (wm_open _ Wt); auto. rewrite <- (wm_nofire _ Wt w Fl); auto.
Qed.

Lemma Cl_rel : loop_rel (fun s s' => Cl s -> Cl s').
Proof.
  split; auto; intros j s C; apply Cl_app_w; auto; apply wmove_close || apply wmove_cancel.
Qed.

Lemma Cl_run_item it r s : Cl s -> s_q s = it :: r -> Cl (run_item kd cb it (set_q r s)).
Proof.
  intros C Eq. destruct (witem it) eqn:Wi.
  2:{ eapply Cl_frame; [apply run_item_wframe; auto|]. eapply Cl_frame; [eapply wframe_pop; eauto|auto]. }
  assert (C0 : (forall j, it <> QClose j) -> Cl (set_q r s)).
  { intros Hne i w Hn O D. simpl in *. pose proof (C i w Hn O D) as X. rewrite Eq in X.
    destruct X as [X|X]; auto. exfalso; eapply Hne; eauto. }
  destruct it; try discriminate Wi; simpl.
  - (* QClose i closes writer i; the others still have theirs queued *)
    destruct (app_w_spec close_handle_w i (set_q r s)) as [(Hi & E)|(w & Hi & E)]; unfold close_handle; rewrite E;
      intros j x Hn O D; simpl in *.
    + pose proof (C j x Hn O D) as X. rewrite Eq in X.
      destruct X as [X|X]; auto. inversion X; subst. congruence.
    + apply nth_error_upd_cases in Hn. destruct Hn as [(-> & -> & _)|(Hne & Hn)].
      * unfold close_handle_w in O. destruct (fut_done (w_fut w)); discriminate.
      * pose proof (C j x Hn O D) as X. rewrite Eq in X. apply in_or_app; left.
        destruct X as [X|X]; auto. inversion X; subst; contradiction.
  - apply Cl_grow with (s := set_q r s); [reflexivity|auto|]. apply C0; intros; discriminate.
  - change (s_ws (set_q r s)) with (s_ws s).
    assert (C1 : Cl (set_q r s)) by (apply C0; intros; discriminate).
    destruct (nth_error (s_ws s) i); auto. destruct (w_fut w); auto.
    eapply Cl_frame; [apply save_verified_wframe|]. apply (loop_close_others _ Cl_rel); auto.
Qed.

Lemma Cl_iter n s : Cl s -> Cl (iter kd cb n s).
Proof. apply loop_inv. intros; apply Cl_run_item; auto. Qed.

Lemma Cl_step o s : Cl s -> Cl (fst (step o s)).
Proof.
  intros C. destruct (ctl_op o) eqn:Co; [eapply Cl_frame; [apply step_wframe|]; auto|].
  destruct o; try discriminate Co; simpl; try apply Cl_iter; auto.
  - destruct (set_length_cases n s) as [->|(_ & L & _ & ->)]; auto.
  - destruct (open_writer_cases k s) as [->|(_ & ->)]; auto.
    intros i w Hn O D. simpl in *. apply nth_error_snoc in Hn. destruct Hn as [Hn|(_ & ->)]; [eapply C; eauto|discriminate].
  - rewrite write_fst. apply Cl_app_w; auto. apply wmove_write.
  - apply Cl_app_w; auto. apply wmove_close.
  - apply (loop_close_blob _ Cl_rel); auto.
  - unfold delete_blob. destruct (settled s); simpl; auto.
    apply Cl_grow with (s := close_blob s); auto. apply (loop_close_blob _ Cl_rel); auto.
Qed.

Lemma Cl_run ops s : Cl s -> Cl (run ops s).
Proof. apply run_inv_all_ops. intros o s'. apply Cl_step. Qed.

Definition shut (s : state) : Prop :=
  forall i w, nth_error (s_ws s) i = Some w -> w_open w = false /\ w_fut w <> FPending.

Lemma all_closed s : Cl s -> NP s -> s_q s = [] -> shut s.
Proof.
  intros C Np Q i w Hn. pose proof (Np i w Hn) as D. split; [|apply fut_done_true, D].
  destruct (w_open w) eqn:O; auto. exfalso. pose proof (C i w Hn O D) as X. rewrite Q in X. destruct X.
Qed.

Lemma NoDup_keys_inj (m : list (N * nat)) k a b : NoDup (map fst m) -> In (k, a) m -> In (k, b) m -> a = b.
Proof using H h.
  intros Nd Ha Hb. exact (f_equal snd (NoDup_map_inj fst m (k, a) (k, b) Nd Ha Hb eq_refl)).
Qed.

(* the dict has one entry per key, every pending writer is registered under its key, and a queued remove_writer
   belongs to a writer that is done *)
Definition Reg (s : state) : Prop :=
  NoDup (map fst (s_map s))
  /\ (forall i w, nth_error (s_ws s) i = Some w -> w_fut w = FPending -> In (w_key w, i) (s_map s))
  /\ (forall k j, In (QRemove k j) (s_q s) -> exists w, nth_error (s_ws s) j = Some w /\ fut_done (w_fut w) = true).

Lemma Reg_grow_q s s' : s_ws s' = s_ws s -> s_map s' = s_map s ->
  (forall k j, In (QRemove k j) (s_q s') -> In (QRemove k j) (s_q s)) -> Reg s -> Reg s'.
Proof.
  intros E1 E2 Q (R1 & R2 & R3). unfold Reg. rewrite E1, E2. repeat split; auto. intros k j Hq; apply (R3 k j); auto.
Qed.

Lemma Reg_frame s s' : wframe s s' -> Reg s -> Reg s'.
Proof. intros (E1 & E2 & _ & Q). apply Reg_grow_q; auto. intros k j. apply Q. reflexivity. Qed.

Lemma Reg_app_w g j s : wmove g -> Reg s -> Reg (app_w g j s).
Proof.
  intros Wt (R1 & R2 & R3). pose proof (wmono_app_w g j s Wt) as M.
  destruct (app_w_spec g j s) as [(_ & ->)|(w & Hj & E)]; [repeat split; auto|]. rewrite E in *.
  unfold Reg; simpl. repeat split; auto.
  - intros i x Hn P. apply nth_error_upd_cases in Hn. destruct Hn as [(-> & -> & _)|(Hne & Hn)]; auto.
    rewrite (wm_key _ Wt). apply R2; auto.
    destruct (fut_done (w_fut w)) eqn:D; [|apply fut_done_false; auto].
    destruct (wmove_done_keeps _ _ Wt D) as (X & _). rewrite P in X. rewrite <- X in D. discriminate.
  - intros k j' Hq. apply in_app_or in Hq. destruct Hq as [Hq|Hq].
    + destruct (R3 k j' Hq) as (w0 & N0 & D0). destruct (M j' w0 N0) as (w' & N' & _ & F' & _).
      exists w'. rewrite F'; auto.
    + destruct (snd (g w)) eqn:Fl; [|destruct Hq]. apply in_fire in Hq. destruct Hq as [Hq|[Hq|Hq]]; try discriminate.
      inversion Hq; subst k j'. eexists. erewrite nth_error_upd_eq by eauto. split; auto. apply (wm_fire _ Wt w Fl).
Qed.

Lemma cancel_w_done w : fut_done (w_fut (fst (cancel_w w))) = true.
Proof. unfold cancel_w. destruct (fut_done (w_fut w)) eqn:D; simpl; auto. Qed.
Lemma close_handle_w_done w : fut_done (w_fut (fst (close_handle_w w))) = true.
Proof. unfold close_handle_w. destruct (fut_done (w_fut w)) eqn:D; simpl; auto. Qed.

(* The two popitem loops (close: cancel everybody; writer_finished_callback: close everybody but the winner):
   [f] leaves its writer done, so afterwards nobody is pending, provided the skipped writers were done. *)
Section PopLoop.
Variable f : writer -> writer * bool.
Variable skip : nat -> bool.
Hypothesis Wf : wmove f.
Hypothesis Df : forall w, fut_done (w_fut (fst (f w))) = true.
Notation g := (fun (kj : N * nat) st => if skip (snd kj) then st else app_w f (snd kj) st).

Lemma pop_loop_mono m s : wmono s (fold_right g s m) /\ length (s_ws (fold_right g s m)) = length (s_ws s).
Proof.
  split; [apply (loop_fold _ wmono_rel)|apply (loop_fold _ nws_rel)]; intros x st; destruct (skip (snd x));
    try apply wmono_refl; try reflexivity; [eapply wmono_app_w; eauto|apply app_w_nws].
Qed.

Lemma pop_loop_done m s j : In j (map snd m) -> skip j = false ->
  forall w, nth_error (s_ws (fold_right g s m)) j = Some w -> fut_done (w_fut w) = true.
Proof.
  intros Hin Sk. induction m as [|[k0 j0] m IH]; simpl in *; [tauto|]. destruct Hin as [E|E].
  - subst j0. rewrite Sk. intros w. destruct (app_w_spec f j (fold_right g s m)) as [(E & ->)|(w0 & E & ->)]; [congruence|].
    simpl. erewrite nth_error_upd_eq by eauto. intros X; inversion X; subst; auto.
  - destruct (skip j0); auto. eapply done_mono; [eapply wmono_app_w; eauto|apply app_w_nws|]. apply IH; auto.
Qed.

Lemma pop_loop_NP s : Reg s ->
  (forall j w, skip j = true -> nth_error (s_ws s) j = Some w -> fut_done (w_fut w) = true) ->
  NP (fold_right g s (s_map s)).
Proof.
  intros (_ & R2 & _) Sk j w' Hn. destruct (pop_loop_mono (s_map s) s) as (M & Ln).
  assert (Hi : (j < length (s_ws s))%nat) by (rewrite <- Ln; apply nth_error_Some; congruence).
  destruct (nth_error (s_ws s) j) as [w|] eqn:Hw; [|apply nth_error_None in Hw; lia].
  destruct (fut_done (w_fut w)) eqn:D.
  - apply (done_mono s _ j M Ln); auto. intros w0 E. congruence.
  - destruct (skip j) eqn:Sj; [rewrite (Sk j w Sj Hw) in D; discriminate|].
    apply fut_done_false in D. apply (pop_loop_done (s_map s) s j (in_map snd _ _ (R2 j w Hw D)) Sj w' Hn).
Qed.

Lemma pop_loop_Reg s : Reg s ->
  (forall j w, skip j = true -> nth_error (s_ws s) j = Some w -> fut_done (w_fut w) = true) ->
  Reg (set_map [] (fold_right g s (s_map s))) /\ NP (fold_right g s (s_map s)).
Proof.
  intros R Sk. pose proof (pop_loop_NP s R Sk) as Np. split; auto.
  assert (Rf : Reg (fold_right g s (s_map s))).
  { apply fold_pres; auto. intros x st Hst. destruct (skip (snd x)); auto. apply Reg_app_w; auto. }
  destruct Rf as (_ & _ & R3). unfold Reg; simpl. repeat split; auto. constructor.
  intros i w Hn P. pose proof (Np i w Hn) as D. rewrite P in D. discriminate.
Qed.
End PopLoop.

Lemma close_blob_Reg s : Reg s -> Reg (close_blob s) /\ NP (close_blob s).
Proof.
  intros R. apply (pop_loop_Reg cancel_w (fun _ => false) wmove_cancel cancel_w_done s R). intros; discriminate.
Qed.

Lemma close_others_Reg i s : Reg s -> (forall w, nth_error (s_ws s) i = Some w -> fut_done (w_fut w) = true) ->
  Reg (close_others i s) /\ NP (close_others i s).
Proof.
  intros R Di. apply (pop_loop_Reg close_handle_w (fun j => Nat.eqb j i) wmove_close close_handle_w_done s R).
  intros j w E. apply Nat.eqb_eq in E. subst j. apply Di.
Qed.

Lemma Reg_sub s q' : (forall it, In it q' -> In it (s_q s)) -> Reg s -> Reg (set_q q' s).
Proof. intros Q. apply Reg_grow_q; auto. Qed.

Lemma Reg_run_item it r s : Reg s -> s_q s = it :: r -> Reg (run_item kd cb it (set_q r s)).
Proof.
  intros R Eq. destruct (witem it) eqn:Wi.
  2:{ eapply Reg_frame; [apply run_item_wframe; auto|]. eapply Reg_frame; [eapply wframe_pop; eauto|auto]. }
  assert (R0 : Reg (set_q r s)). { apply Reg_sub; auto. intros x Hx. rewrite Eq. right; auto. }
  destruct it; try discriminate Wi; simpl.
  - apply Reg_app_w; auto. apply wmove_close.
  - (* remove_writer deletes the entry only if it still is writer i's: writer i is done, so no pending writer loses its entry *)
    destruct R as (R1 & R2 & R3). unfold map_del_if. change (s_map (set_q r s)) with (s_map s).
    destruct (lookup k (s_map s)) as [j0|] eqn:Lk; [|exact R0].
    destruct (Nat.eqb_spec j0 i) as [->|Hne]; [|exact R0].
    unfold Reg; simpl. rewrite map_del_adel by auto. repeat split.
    + apply NoDup_map_filter; auto.
    + intros i' w Hn P. pose proof (R2 i' w Hn P) as X. apply filter_In. split; auto. simpl.
      destruct (N.eqb_spec (w_key w) k) as [E|]; auto. exfalso.
      rewrite E in X. rewrite (lookup_In _ _ _ R1 X) in Lk. inversion Lk; subst i'.
      destruct (R3 k i) as (w0 & N0 & D); [rewrite Eq; left; auto|]. rewrite Hn in N0. inversion N0; subst w0.
      rewrite P in D; discriminate.
    + intros k' j Hq. apply (R3 k' j). rewrite Eq; right; auto.
  - change (s_ws (set_q r s)) with (s_ws s). destruct (nth_error (s_ws s) i) eqn:Hi; auto.
    destruct (w_fut w) eqn:Ef; auto.
    eapply Reg_frame; [apply save_verified_wframe|]. apply close_others_Reg; auto.
    simpl. intros w0 Hw0. rewrite Hi in Hw0. inversion Hw0; subst. rewrite Ef; auto.
Qed.

Lemma Reg_iter n s : Reg s -> Reg (iter kd cb n s).
Proof. apply loop_inv. intros; apply Reg_run_item; auto. Qed.

(* a key is handed out again only when its writer is closed, hence (w_ok) done: no pending writer loses its entry *)
Lemma Reg_open k s : Wok s -> Reg s -> Reg (fst (open_writer kd k s)).
Proof.
  intros (_ & I2) (R1 & R2 & R3). destruct (open_writer_cases k s) as [->|(Busy & ->)]; [repeat split; auto|].
  unfold Reg; simpl. repeat split.
  - apply NoDup_map_set; auto.
  - intros i w Hn P. apply nth_error_snoc in Hn. destruct Hn as [Hn|(-> & ->)]; [|apply In_map_set; auto].
    pose proof (R2 i w Hn P) as X.
    destruct (N.eq_dec (w_key w) k) as [Ek|Ek]; [|apply In_map_set; auto].
    exfalso. rewrite Ek in X.
    apply (ok_closed _ _ (Forall_nth_error _ _ _ _ I2 Hn)); auto. apply (Busy i); auto. apply lookup_In; auto.
  - intros k' j Hq. destruct (R3 k' j Hq) as (w0 & N0 & D0). exists w0. split; auto.
    rewrite nth_error_app1; auto. apply nth_error_Some. congruence.
Qed.

Lemma Reg_step o s : Wok s -> Reg s -> Reg (fst (step o s)).
Proof.
  intros I R. destruct (ctl_op o) eqn:Co; [eapply Reg_frame; [apply step_wframe|]; auto|].
  destruct o; try discriminate Co; simpl; try apply Reg_iter; auto.
  - destruct (set_length_cases n s) as [->|(_ & L & _ & ->)]; auto.
  - apply Reg_open; auto.
  - rewrite write_fst. apply Reg_app_w; auto. apply wmove_write.
  - apply Reg_app_w; auto. apply wmove_close.
  - apply close_blob_Reg; auto.
  - unfold delete_blob. destruct (settled s); simpl; auto.
    apply Reg_grow_q with (s := close_blob s); auto. apply close_blob_Reg; auto.
Qed.

Lemma w_ok_set_len w L : w_ok None w -> w_ok (Some L) w.
Proof.
  intros [A B C F E]. split; auto.
  intros O P. destruct (B O P) as (S1 & _). split; auto.
  intros L0 _ Hne. rewrite (F (or_introl eq_refl) P). simpl. lia.
Qed.

Lemma w_ok_unset len w : fut_done (w_fut w) = true -> w_ok len w -> w_ok None w.
Proof.
  intros D [A B C F E]. apply fut_done_true in D. split; auto; try discriminate; intros; contradiction.
Qed.

Lemma Wok_step o s : Wok s -> Reg s -> Wok (fst (step o s)).
Proof.
  intros Wk R. pose proof Wk as (B & F).
  destruct (ctl_op o) eqn:Co; [destruct (step_wframe o s Co) as (E1 & _ & E3 & _); apply (Wok_framed s); auto|].
  destruct o; try discriminate Co; simpl; auto.
  - destruct (set_length_cases n s) as [->|(El & L & HL & ->)]; auto. split; simpl.
    + intros L0 E. congruence.
    + eapply Forall_impl; [|exact F]. intros w. rewrite El. apply w_ok_set_len; auto.
  - destruct (open_writer_cases k s) as [->|(_ & ->)]; auto. split; auto. simpl.
    apply Forall_app; split; auto. constructor; auto.
    split; simpl; auto; try discriminate. intros _ _. split; auto. intros; lia.
  - rewrite write_fst. split; [rewrite app_w_len; auto|apply Wok_app_w; auto; apply wtrans_write, B].
  - apply (lr_close _ Wok_rel); auto.
  - apply (loop_close_blob _ Wok_rel); auto.
  - apply (loop_iter _ Wok_rel Wok_framed); auto.
  - apply (loop_iter _ Wok_rel Wok_framed); auto.
  - (* delete() cancels every writer: done writers are as they should be for any length *)
    unfold delete_blob. destruct (settled s); simpl; auto.
    pose proof (loop_close_blob _ Wok_rel s Wk) as (_ & Fc). pose proof (proj2 (close_blob_Reg s R)) as Np.
    split; simpl; [discriminate|]. apply Forall_forall. intros w Hin. destruct (In_nth_error _ _ Hin) as (i & Hn).
    eapply w_ok_unset; [eapply Np; eauto|]. rewrite Forall_forall in Fc; auto.
Qed.

(* close() on a settled blob: every callback it schedules belongs to a writer it has just cancelled *)
Lemma close_blob_wfc_cancelled s : s_q s = [] ->
  forall i, In (QWfc i) (s_q (close_blob s)) ->
  exists w, nth_error (s_ws (close_blob s)) i = Some w /\ w_fut w = FCancelled.
Proof.
  intros Q. unfold close_blob. simpl.
  apply (fold_pres (fun st => forall i, In (QWfc i) (s_q st) ->
                      exists w, nth_error (s_ws st) i = Some w /\ w_fut w = FCancelled)).
  - intros x st Hst i Hq. unfold cancel in *.
    destruct (app_w_spec cancel_w (snd x) st) as [(_ & E)|(w0 & Hj & E)]; rewrite E in *; auto.
    unfold cancel_w in *. destruct (fut_done (w_fut w0)) eqn:D; simpl in *.
    + rewrite app_nil_r in Hq. rewrite (upd_same _ _ _ Hj). auto.
    + apply in_app_or in Hq. destruct Hq as [Hq|Hq].
      * destruct (Hst i Hq) as (w & N & F). destruct (Nat.eq_dec (snd x) i) as [E0|Hne].
        -- rewrite E0 in Hj. rewrite Hj in N. inversion N; subst. rewrite F in D. discriminate.
        -- exists w. rewrite nth_error_upd_neq by auto. auto.
      * destruct Hq as [Hq|[Hq|[Hq|[]]]]; try discriminate. inversion Hq; subst i.
        eexists. erewrite nth_error_upd_eq by eauto. split; reflexivity.
  - intros i Hq. rewrite Q in Hq. destruct Hq.
Qed.

Lemma Qok_delete s : Qok s -> Qok (fst (delete_blob s)).
Proof.
  intros K. unfold delete_blob. destruct (settled s) eqn:St; simpl; auto.
  destruct (settled_spec s St) as (Q & _).
  intros i w b Hq Hn Ef.
  change (In (QWfc i) (s_q (close_blob s))) in Hq. change (nth_error (s_ws (close_blob s)) i = Some w) in Hn.
  destruct (close_blob_wfc_cancelled s Q i Hq) as (w' & N & F). rewrite Hn in N. inversion N; subst. congruence.
Qed.

(* the save: not touched, reset, or moved on without a new save starting *)
Lemma Cok_step o s : Inv s -> Qok s -> Cok (fst (step o s)).
Proof.
  intros Iv K. pose proof Iv as (_ & Ck).
  destruct (quiet o) eqn:Qo; [apply (Cok_same_ctl s); auto; apply step_quiet; auto|].
  destruct o; try discriminate Qo; try (apply Cok_reset; simpl; auto; fail); simpl; try apply (IK_iter _ s (conj Iv K)).
  - destruct (set_length_cases n s) as [->|(El & L & _ & ->)]; auto.
    (* no length yet: nothing is in flight or stored *)
    destruct Ck as (ph & P & Hh & D & S). exists ph. split; [destruct P; split; auto|]. split; auto.
    split; intros x X; [destruct (D x X) as (L0 & E0 & _)|destruct (S x X) as (L0 & E0 & _)]; congruence.
  - destruct Ck as (ph & P & C). destruct (step_moved ph IoDone s I) as (ph' & M & X); try discriminate; auto.
    apply (Cok_moved ph s ph' _ M); auto; [simpl; unfold io_done; destruct (s_io s); auto|].
    intros x E1 E2. rewrite (X E1) in E2. discriminate.
Qed.

Lemma Qok_step o s : Inv s -> Qok s -> Qok (fst (step o s)).
Proof.
  intros Iv K. pose proof Iv as ((B & F) & _).
  destruct (ctl_op o) eqn:Co; [eapply Qok_frame; [apply step_wframe|]; auto|].
  destruct o; try discriminate Co; simpl; try apply (IK_iter _ s (conj Iv K)).
  - destruct (set_length_cases n s) as [->|(El & L & _ & ->)]; auto.
    intros i w b Hq Hn Ef. destruct (K i w b Hq Hn Ef) as (L0 & X & _). congruence.
  - destruct (open_writer_cases k s) as [->|(_ & ->)]; auto.
    intros i w b Hq Hn Ef. simpl in *. apply nth_error_snoc in Hn.
    destruct Hn as [Hn|(_ & ->)]; [apply (K i w b); auto|discriminate].
  - rewrite write_fst. apply Qok_app_w; auto. apply wtrans_write, B.
  - apply Qok_app_w; auto. apply wtrans_close.
  - apply (loop_close_blob _ WQ_rel); split; auto; apply Iv.
  - apply Qok_delete; auto.
Qed.

Definition All (s : state) : Prop := Inv s /\ Qok s /\ Reg s /\ Cl s.

Lemma All_step o s : All s -> All (fst (step o s)).
Proof.
  intros (I & K & R & C). pose proof I as (Wk & _).
  split; [split; [apply Wok_step|apply Cok_step]|split; [apply Qok_step|split; [apply Reg_step|apply Cl_step]]]; auto.
Qed.

Lemma All_run ops : forall s, All s -> All (run ops s).
Proof. apply run_inv_all_ops. intros o s. apply All_step. Qed.

Lemma only_matching s : Inv s ->
  (s_verified s = true ->
     exists b L, s_store s = Some b /\ s_len s = Some L /\ N.of_nat (length b) = L
                 /\ (0 < L <= MAX_BLOB_SIZE)%N /\ H b = h)
  /\ (forall b, s_store s = Some b ->
     exists L, s_len s = Some L /\ N.of_nat (length b) = L /\ (0 < L <= MAX_BLOB_SIZE)%N /\ H b = h).
Proof.
  intros (_ & Ck). destruct (Cok_store s Ck) as (I5 & I6).
  assert (G : forall b, s_store s = Some b ->
     exists L, s_len s = Some L /\ N.of_nat (length b) = L /\ (0 < L <= MAX_BLOB_SIZE)%N /\ H b = h).
  { intros b Eb. destruct (I5 b Eb) as (L & E1 & E2 & (E3 & E4)). subst L. eexists. repeat split; eauto; lia. }
  split; auto.
  intros V. destruct (s_store s) as [b|] eqn:Es; [|exfalso; apply I6; auto].
  destruct (G b eq_refl) as (L & X). exists b, L. tauto.
Qed.

(* BlobManager.is_blob_verified / ensure_completed_blobs_status for the cached object say "yes" (and the latter then
   records the blob as finished, which is what gets it announced) only for a verified blob holding the named bytes *)
Lemma manager_yes_only_verified s o : Inv s ->
  (o = Ensure \/ exists n, o = IsVerified n) ->
  snd (step o s) = RBool true ->
  fst (step o s) = s /\ s_verified s = true /\
  exists b L, s_store s = Some b /\ s_len s = Some L /\ N.of_nat (length b) = L
              /\ (0 < L <= MAX_BLOB_SIZE)%N /\ H b = h.
Proof.
  intros Iv Ho E. assert (E1 : manager_verified kd s = true /\ fst (step o s) = s).
  { destruct Ho as [->|(n & ->)]; simpl in *; inversion E; auto. }
  destruct E1 as (E1 & Fs). unfold manager_verified in E1. apply andb_true_iff in E1. destruct E1 as (_ & V).
  split; auto. split; auto. apply (only_matching s); auto.
Qed.

(* every writer result is a complete correct copy of an admissible size (its length was the accepted length when
   it completed: writer_write_exact) *)
Lemma writer_result_good s : Inv s -> forall i w b, nth_error (s_ws s) i = Some w -> w_fut w = FOk b -> good b.
Proof. intros ((_ & I2) & _) i w b Hn Ef. apply (ok_res _ _ (Forall_nth_error _ _ _ _ I2 Hn)); auto. Qed.

Definition won (s : state) : Prop :=
  exists i w b, In (QWfc i) (s_q s) /\ nth_error (s_ws s) i = Some w /\ w_fut w = FOk b.

Lemma won_mono s s' : wmono s s' -> (forall it, In it (s_q s) -> In it (s_q s')) -> won s -> won s'.
Proof.
  intros M Q (i & w & b & A & B & C). destruct (M i w B) as (w' & N' & _ & F' & _).
  exists i, w', b. repeat split; auto. rewrite F'; auto. rewrite C; auto.
Qed.

(* no callback removes what is queued behind it, and none clears verified *)
Definition grows (s s' : state) : Prop :=
  (exists l, s_q s' = s_q s ++ l) /\ (s_verified s = true -> s_verified s' = true).

Lemma run_item_grows it s : grows s (run_item kd cb it s).
Proof.
  assert (Sc : forall s', same_ctl s s' -> grows s s').
  { intros s' (_ & A2 & _ & _ & _ & _ & l & A7 & _). unfold grows. rewrite A2. eauto. }
  destruct it; simpl; try (apply Sc; apply same_ctl_refl || apply same_ctl_app_w || apply same_ctl_set_map).
  3-9: unfold grows; simpl; split; eauto; exists []; symmetry; apply app_nil_r.
  - destruct (nth_error (s_ws s) i); [destruct (w_fut w)|]; try apply Sc, same_ctl_refl.
    destruct (Sc _ (loop_close_others _ same_ctl_rel i s)) as ((l & Q) & V).
    rewrite save_verified_eq. destruct (_ || _ || _); [split; eauto|].
    unfold grows, enq, set_writing, set_q; cbn [s_q s_verified]. rewrite Q, <- app_assoc. eauto.
  - destruct kd; [|destruct (s_store s)]; unfold grows; simpl; split; eauto; exists []; symmetry; apply app_nil_r.
Qed.

Lemma won_run_item it s : won s -> won (run_item kd cb it s).
Proof.
  destruct (run_item_grows it s) as ((l & Q) & _). apply won_mono; [apply (loop_run_item _ wmono_rel wmono_framed)|].
  intros x Hin. rewrite Q. apply in_or_app; auto.
Qed.

Lemma iter_verified n s : s_verified s = true -> s_verified (iter kd cb n s) = true.
Proof. revert s. apply (loop_inv (fun s => s_verified s = true)). intros it r s Hs _. apply run_item_grows, Hs. Qed.

(* no callback of a FAILED save is queued *)
Definition is_fail (it : qitem) : bool := match it with QSetStateF | QWakeupF | QUpdateF => true | _ => false end.
Definition nofail (s : state) : Prop := forall it, In it (s_q s) -> is_fail it = false.

(* A save that does not fail only moves forward.  [fwd n s]: no failed save is winding down and the save has reached
   stage [n] at least (1: under way or done, 2: handed to the executor, 3: stored). *)
Definition failing (ph : phase) : bool := match ph with SetSt false | Wake false | Upd false => true | _ => false end.
Definition rank (ph : phase) : nat :=
  match ph with Idle => 0 | Task _ => 1 | Job _ => 2 | SetSt _ => 3 | Wake _ => 4 | Upd _ => 5 | Done => 6 end.
Lemma rank_idle ph : (rank ph < 1)%nat -> ph = Idle.
Proof. destruct ph; simpl; auto; lia. Qed.

Definition fwd (n : nat) (s : state) : Prop := At (fun ph _ => failing ph = false /\ (n <= rank ph)%nat) s.

Lemma forward_kept n : kept (fun ph _ => failing ph = false /\ (n <= rank ph)%nat).
Proof. intros ph s ph' s' [Ps _ _ _] (F & R). destruct Ps; try destruct ok; simpl in *; try discriminate; split; auto; lia. Qed.

Lemma nofail_fwd ph s : Phase ph s -> nofail s -> fwd 0 s.
Proof.
  intros P N. exists ph. split; auto. split; [|lia].
  destruct ph as [| | |[]|[]|[]|]; auto; discriminate (N _ (tok_in _ s _ P (or_introl eq_refl))).
Qed.

(* with nothing queued the save is idle, with the executor, or over *)
Lemma fwd_done n s : fwd n s -> s_q s = [] -> (s_io s = None /\ 1 <= n)%nat \/ (3 <= n)%nat -> s_verified s = true.
Proof.
  intros (ph & [Q Io W V _] & F & R) Eq X. rewrite Eq in Q. rewrite V.
  destruct ph as [| | |[]|[]|[]|]; simpl in *; try discriminate; auto; destruct X as [(X & ?)|?]; try lia; congruence.
Qed.

(* a save is under way or done, or a result's callback is queued *)
Definition LiveI (s : state) : Prop := fwd 1 s \/ (fwd 0 s /\ won s).

Lemma LiveI_run_item it r s : LiveI s -> s_q s = it :: r -> LiveI (run_item kd cb it (set_q r s)).
Proof.
  intros Lv Eq.
  assert (St : fwd 1 s -> LiveI (run_item kd cb it (set_q r s))).
  { intros Bz. left. apply At_run_item; auto. apply forward_kept. }
  destruct Lv as [Bz|((ph & P & F & _) & (i & w & b & A & B & C))]; auto.
  destruct (le_lt_dec 1 (rank ph)) as [R|R]; [apply St; exists ph; auto|].
  apply rank_idle in R. subst ph.
  destruct (run_item_phase Idle it r s P Eq) as (ph' & M & Hs).
  rewrite Eq in A. destruct A as [A|A].
  - (* the winner's callback runs: the save starts *)
    assert (ph' = Task b) by (apply Hs; eauto). subst ph'. left. exists (Task b). split; [apply M|simpl; auto].
  - right. split; [eapply At_moved; [apply (forward_kept 0)|exact M|simpl; auto]|].
    apply won_run_item. exists i, w, b; auto.
Qed.

Lemma LiveI_iter n s : LiveI s -> LiveI (iter kd cb n s).
Proof. apply loop_inv. intros; apply LiveI_run_item; auto. Qed.

Lemma LiveI_step o s : core_op o -> LiveI s -> LiveI (fst (step o s)).
Proof.
  intros Co [Bz|(F & Wn)]; [left; apply At_step; auto; apply forward_kept|].
  assert (F' : fwd 0 (fst (step o s))) by (apply At_step; auto; apply forward_kept).
  destruct (quiet o) eqn:Q.
  { right. split; auto. destruct (step_quiet o s Q) as (_ & _ & _ & _ & _ & _ & l & A7 & _).
    eapply won_mono; [apply wmono_step| |exact Wn]. intros it Hin. rewrite A7. apply in_or_app; auto. }
  destruct o; try discriminate Q; try contradiction; try (apply LiveI_iter; right; auto); right; split; auto; simpl.
  - destruct (set_length_cases n s) as [->|(_ & L & _ & ->)]; auto.
  - unfold io_done. destruct (s_io s) as [b0|]; auto. destruct Wn as (i & w & b & A & B & C).
    exists i, w, b. simpl. repeat split; auto. apply in_or_app; auto.
Qed.

Lemma LiveI_quiescent s : LiveI s -> s_q s = [] -> s_io s = None -> s_verified s = true.
Proof.
  intros [Bz|(_ & i & _ & _ & A & _)] Q Io; [apply (fwd_done 1 s); auto|]. rewrite Q in A. destruct A.
Qed.

(* drain; the executor job; drain: after the first drain the save is with the executor or over, the job stores the
   bytes, and the second drain ends with no callback of the save left: then the blob is verified *)
Lemma wins_verified s : LiveI s -> s_verified (drain kd cb (io_done (drain kd cb s))) = true.
Proof.
  intros Lv. set (s2 := drain kd cb s). assert (Q2 : s_q s2 = []) by apply drain_quiescent.
  assert (F2 : fwd 2 s2).
  { pose proof (LiveI_iter (fuel s) s Lv) as L2. change (LiveI s2) in L2.
    destruct L2 as [(ph & P & F & R)|(_ & i & _ & _ & A & _)]; [|rewrite Q2 in A; destruct A].
    exists ph. split; auto. split; auto. pose proof (ph_q _ _ P) as Q. rewrite Q2 in Q.
    destruct ph; simpl in *; try discriminate; lia. }
  assert (F3 : fwd 3 (io_done s2)).
  { destruct (At_step _ IoDone s2 (forward_kept 2) I F2) as (ph & P & F & R). exists ph. split; auto. split; auto.
    assert (Io : s_io (io_done s2) = None) by (unfold io_done; destruct (s_io s2) eqn:E; auto).
    simpl in P. rewrite (ph_io _ _ P) in Io. destruct ph; simpl in *; try discriminate; lia. }
  apply (fwd_done 3); [apply At_iter; auto; apply forward_kept|apply drain_quiescent|auto].
Qed.

(* the winner's callback closes every registered writer: nothing stays pending *)
Definition PW (s : state) : Prop := NP s \/ won s.

Lemma PW_iter n s : Reg s /\ PW s -> Reg (iter kd cb n s) /\ PW (iter kd cb n s).
Proof.
  revert s. apply (loop_inv (fun s => Reg s /\ PW s)). intros it r s (R & P) Eq. split; [apply Reg_run_item; auto|].
  destruct P as [Np|(i & w & b & A & B & C)].
  - left. eapply NP_mono; [apply (loop_run_item _ wmono_rel wmono_framed)|apply (loop_run_item _ nws_rel); intros ? ? E _; unfold keeps; congruence|auto].
  - rewrite Eq in A. destruct A as [A|A].
    + subst it. left. simpl. change (s_ws (set_q r s)) with (s_ws s). rewrite B, C.
      intros j x. destruct (save_verified_wframe b (close_others i (set_q r s))) as (-> & _). revert j x.
      apply close_others_Reg.
      * apply Reg_sub; auto. intros x Hx. rewrite Eq; right; auto.
      * simpl. intros w0 Hw0. rewrite B in Hw0. inversion Hw0; subst. rewrite C; auto.
    + right. apply won_run_item. exists i, w, b; auto.
Qed.

Lemma PW_quiescent s : PW s -> s_q s = [] -> NP s.
Proof. intros [Np|(i & _ & _ & A & _)] Q; auto. rewrite Q in A. destruct A. Qed.

Lemma won_closes s1 : Reg s1 -> Cl s1 -> won s1 ->
  let s2 := run [Drain] s1 in
  let s4 := run [Drain; IoDone; Drain] s1 in
  shut s2 /\ shut s4 /\ length (s_ws s4) = length (s_ws s1).
Proof.
  intros Rg1 C1 Wn s2 s4.
  assert (Np2 : NP s2) by (apply PW_quiescent; [apply PW_iter; split; [|right]; auto|apply drain_quiescent]).
  assert (Ws : s_ws (io_done s2) = s_ws s2) by (unfold io_done; destruct (s_io s2); auto).
  assert (Np4 : NP s4).
  { change s4 with (iter kd cb (fuel (io_done s2)) (io_done s2)).
    eapply NP_mono; [apply (loop_iter _ wmono_rel wmono_framed)|apply iter_nws|]. intros j x. rewrite Ws. apply Np2. }
  split; [|split]; try (apply all_closed; [apply (Cl_run _ s1 C1)|assumption|apply drain_quiescent]).
  change s4 with (iter kd cb (fuel (io_done s2)) (io_done s2)). rewrite iter_nws, Ws. apply iter_nws.
Qed.

(* exactly those bytes: while nothing is being saved, the first queued writer_finished_callback that carries a
   result decides what is stored *)
Section Exact.
Variable b : bytes.      (* the bytes of the first complete correct copy *)

(* writer j finished without a result *)
Definition loser (s : state) (j : nat) : Prop :=
  exists wj, nth_error (s_ws s) j = Some wj /\ fut_done (w_fut wj) = true /\ forall x, w_fut wj <> FOk x.
Definition losers (s : state) (pre : list qitem) : Prop :=
  Forall (fun it => match it with QWfc j => loser s j | _ => True end) pre.

Definition Ex (s : state) : Prop :=
  (forall x, In (QTask x) (s_q s) -> x = b)
  /\ (forall x, s_io s = Some x -> x = b)
  /\ (forall x, s_store s = Some x -> x = b)
  /\ (s_verified s = false -> s_writing s = false ->
      exists pre post i w, s_q s = pre ++ QWfc i :: post /\ nth_error (s_ws s) i = Some w /\ w_fut w = FOk b
                           /\ losers s pre).

Lemma loser_mono s s' j : wmono s s' -> loser s j -> loser s' j.
Proof.
  intros M (wj & A & B & C). destruct (M j wj A) as (w' & N' & _ & F' & _).
  exists w'. rewrite F' by auto. auto.
Qed.

Lemma losers_mono s s' pre : wmono s s' -> losers s pre -> losers s' pre.
Proof.
  intros M L. unfold losers in *. eapply Forall_impl; [|exact L]. intros [] X; auto. eapply loser_mono; eauto.
Qed.

(* What [Ex] says while nothing is being saved: a callback carrying [b] is queued and no result is queued before it.
   It stays so while callbacks are queued behind and writers move forward. *)
Definition first (s : state) : Prop :=
  exists pre post i w, s_q s = pre ++ QWfc i :: post /\ nth_error (s_ws s) i = Some w /\ w_fut w = FOk b /\ losers s pre.

Lemma first_mono s s' l : wmono s s' -> s_q s' = s_q s ++ l -> first s -> first s'.
Proof.
  intros M Q (pre & post & i & w & E & N & F & L). destruct (M i w N) as (w' & N' & _ & F' & _).
  exists pre, (post ++ l), i, w'. rewrite Q, E, <- app_assoc, F' by (rewrite F; auto).
  repeat split; auto. eapply losers_mono; eauto.
Qed.

Lemma Ex_idle s : Phase Idle s -> first s -> Ex s.
Proof.
  intros [Q Io _ _ St] Fi. simpl in *. unfold Ex. rewrite Io. repeat split; auto; try discriminate.
  - intros x Hin. assert (X : In (QTask x) (filter stg (s_q s))) by (apply filter_In; auto). rewrite Q in X. destruct X.
  - intros x Hx. rewrite Hx in St. discriminate St; discriminate.
Qed.

Lemma Ex_sub s r : (forall it, In it r -> In it (s_q s)) ->
  (s_verified s = false -> s_writing s = false -> False) -> Ex s -> Ex (set_q r s).
Proof.
  intros Q NI (E1 & E2 & E3 & E4). unfold Ex; simpl. repeat split; auto. intros V W. exfalso; auto.
Qed.

(* While a save is under way and does not fail, its bytes move from the task to the job to the store: [Ex] is then a
   statement about the phase and the store. *)
Definition carries (ph : phase) (st : option bytes) : Prop :=
  (failing ph = false /\ (1 <= rank ph)%nat) /\ dat (fun x => x = b) ph st.

Lemma carries_kept : kept (fun ph s => carries ph (s_store s)).
Proof.
  intros ph s ph' s' M (FR & D). rewrite (mv_store _ _ _ _ M).
  split; [apply (forward_kept 1 _ _ _ _ M FR)|apply (pstep_dat _ _ _ _ (mv_step _ _ _ _ M)); auto].
  intros x ->. destruct FR as (_ & R). simpl in R. lia.
Qed.

Lemma Ex_carries ph s : Phase ph s -> failing ph = false -> (1 <= rank ph)%nat -> Ex s -> carries ph (s_store s).
Proof.
  intros P F R (E1 & E2 & E3 & _). repeat split; auto. intros x Hx. destruct ph; try discriminate Hx; inversion Hx; subst x.
  - apply E1, (tok_in _ s _ P). left; auto.
  - apply E2, (ph_io _ _ P).
Qed.

Lemma carries_Ex s : At (fun ph s => carries ph (s_store s)) s -> Ex s.
Proof.
  intros (ph & P & (F & R) & D & S). pose proof P as [Q Io W V _]. unfold Ex. repeat split; auto.
  - intros x Hin. apply D. assert (X : In (QTask x) (tok ph)) by (rewrite <- Q; apply filter_In; auto).
    destruct ph as [| | |[]|[]|[]|]; simpl in X; try tauto; destruct X as [X|[]]; try discriminate X; inversion X; auto.
  - intros x Hx. apply D. rewrite Io in Hx. destruct ph; try discriminate Hx; auto.
  - intros Ev Ew. rewrite V in Ev; rewrite W in Ew. destruct ph; simpl in *; try discriminate; lia.
Qed.

Lemma Ex_run_item it r s : fwd 0 s -> Ex s -> s_q s = it :: r -> Ex (run_item kd cb it (set_q r s)).
Proof.
  intros (ph & P & F & _) E Eq. destruct (run_item_phase ph it r s P Eq) as (ph' & M & Hs).
  destruct (le_lt_dec 1 (rank ph)) as [R|R].
  { apply carries_Ex. eapply At_moved; [apply carries_kept|exact M|]. apply Ex_carries; auto. }
  (* idle: the first result-bearing callback in the queue is ours *)
  apply rank_idle in R. subst ph. specialize (Hs eq_refl).
  pose proof P as [_ _ W V St]. destruct E as (_ & _ & _ & E4).
  destruct (E4 V W) as (pre & post & i & w & Q & N & Fw & L). rewrite Eq in Q.
  destruct pre as [|p pre']; simpl in Q; inversion Q; subst.
  - (* at the head: the save starts, with b *)
    assert (ph' = Task b) by (apply Hs; eauto). subst ph'.
    apply carries_Ex. exists (Task b). split; [apply M|]. rewrite (mv_store _ _ _ _ M). simpl.
    destruct (s_store s); [discriminate St; discriminate|].
    repeat split; auto; [intros x X; inversion X; auto|intros; discriminate].
  - (* the callback of a writer without a result, or a plain one, runs: nothing starts, ours moves one place forward *)
    inversion L as [|? ? Lh Lt]; subst.
    assert (ph' = Idle).
    { pose proof (mv_step _ _ _ _ M) as Ps. inversion Ps; subst; auto.
      destruct (proj1 (Hs _) eq_refl) as (j & wj & -> & Nj & Fj). destruct Lh as (wj' & A & _ & C).
      rewrite Nj in A. inversion A; subst. destruct (C _ Fj). }
    subst ph'. apply Ex_idle; [apply M|].
    destruct (run_item_grows p (set_q (pre' ++ QWfc i :: post) s)) as ((l & Ql) & _).
    apply (first_mono (set_q (pre' ++ QWfc i :: post) s) _ l); [apply (loop_run_item _ wmono_rel wmono_framed)|exact Ql|].
    exists pre', post, i, w. auto.
Qed.

Lemma Ex_iter n s : fwd 0 s /\ Ex s -> fwd 0 (iter kd cb n s) /\ Ex (iter kd cb n s).
Proof.
  revert s. apply (loop_inv (fun s => fwd 0 s /\ Ex s)). intros it r s (N & E) Eq.
  split; [apply At_run_item; auto; apply forward_kept|apply Ex_run_item; auto].
Qed.

Lemma Ex_step o s : core_op o -> fwd 0 s -> Ex s -> Ex (fst (step o s)).
Proof.
  intros Co F0 E. pose proof F0 as (ph & P & F & _). destruct (le_lt_dec 1 (rank ph)) as [R|R].
  { apply carries_Ex, At_step; auto; [apply carries_kept|]. exists ph; split; auto. apply Ex_carries; auto. }
  apply rank_idle in R. subst ph.
  destruct (quiet o) eqn:Q.
  { pose proof (step_quiet o s Q) as Sc. pose proof Sc as (_ & _ & _ & _ & _ & _ & l & A7 & _). destruct E as (_ & _ & _ & E4).
    apply Ex_idle; [apply (moved_same_ctl Idle s s _ P eq_refl eq_refl Sc)|].
    exact (first_mono s _ l (wmono_step o s) A7 (E4 (ph_v _ _ P) (ph_w _ _ P))). }
  destruct o; try discriminate Q; try contradiction; simpl; try (apply Ex_iter; auto).
  - destruct (set_length_cases n s) as [->|(_ & L & _ & ->)]; auto.
  - unfold io_done. rewrite (ph_io _ _ P). auto.
Qed.

Lemma Ex_run ops s : core_ops ops -> fwd 0 s -> Ex s -> Ex (run ops s).
Proof.
  intros Co N E. apply (run_inv (fun s => fwd 0 s /\ Ex s) core_op); auto.
  intros o s' Co' (N' & E'). split; [apply At_step; auto; apply forward_kept|apply Ex_step; auto].
Qed.

End Exact.

(* In a state where the invariants hold a live writer receives the chunk [d] that completes a correct copy: what follows.
   (1) The winner shuts every writer down: after the first drain (and still after drain; io; drain) none is open or
       pending, and none was created meanwhile.
   Unless a save that FAILED (executor job raised) is still winding down:
   (2) whatever operations other than a reset of the object or a failing executor job ([core_ops]) follow, once the
       loop is idle and the executor has nothing pending the blob is verified; drain; io; drain reaches such a state,
       and if nothing was being saved before, the completion callback is called exactly once more than the calls
       already made or already queued;
   (3) if moreover nothing is being saved and no other writer's result is waiting in the queue, nothing but that copy is
       ever stored afterwards (until the object is reset or an executor job fails). *)
Section Arrives.
Variables (s : state) (i : nat) (w : writer) (d : bytes) (L : N).
Hypothesis A : All s.
Hypotheses (Hn : nth_error (s_ws s) i = Some w) (O : w_open w = true) (P : w_fut w = FPending)
  (El : s_len s = Some L) (Lp : (0 < L)%N) (Ln : N.of_nat (length (w_buf w ++ d)) = L) (Hh : H (w_buf w ++ d) = h).
Let s1 := fst (step (Write i d) s).

Lemma winning_write :
  All s1 /\ s_len s1 = Some L /\ s_q s1 = s_q s ++ cbs i (w_key w)
  /\ exists w1, nth_error (s_ws s1) i = Some w1 /\ w_fut w1 = FOk (w_buf w ++ d).
Proof.
  split; [apply All_step, A|]. split; [apply step_len_kept; auto; discriminate|].
  destruct A as (((_ & I2) & _) & _).
  destruct (ok_live _ _ (Forall_nth_error _ _ _ _ I2 Hn) O P) as (Sb & _).
  assert (Lv : live L w) by (repeat split; auto; lia).
  unfold s1. simpl. unfold write. rewrite Hn. simpl. unfold app_w. rewrite Hn, El.
  rewrite wr_write_live by auto. unfold live_result.
  destruct (N.ltb_spec L (N.of_nat (length (w_buf w ++ d)))); [lia|].
  destruct (N.eqb_spec (N.of_nat (length (w_buf w ++ d))) L); [|contradiction].
  rewrite <- Hh. rewrite bytes_eqb_refl. simpl. split; auto.
  eexists. erewrite nth_error_upd_eq by eauto. split; reflexivity.
Qed.

Lemma write_won : won s1.
Proof.
  destruct winning_write as (_ & _ & Q1 & w1 & N1 & F1). exists i, w1, (w_buf w ++ d). rewrite Q1.
  repeat split; auto. apply in_or_app; right; simpl; auto.
Qed.

Lemma write_fwd : nofail s -> fwd 0 s1.
Proof.
  intros Nf. destruct A as ((_ & ph0 & Ph0 & _) & _).
  apply (At_step _ (Write i d) s (forward_kept 0) I), (nofail_fwd ph0); auto.
Qed.

Lemma copy_closes_others :
  let s2 := run [Drain] s1 in
  let s4 := run [Drain; IoDone; Drain] s1 in
  shut s2 /\ shut s4 /\ length (s_ws s4) = length (s_ws s).
Proof.
  destruct winning_write as ((_ & _ & R1 & C1) & _). destruct (won_closes s1 R1 C1 write_won) as (X2 & X4 & Ln4).
  split; [exact X2|split; [exact X4|]]. transitivity (length (s_ws s1)); [exact Ln4|].
  unfold s1. simpl. rewrite write_fst. apply app_w_nws.
Qed.

Lemma copy_wins : nofail s ->
  (forall ops', core_ops ops' -> let s' := run ops' s1 in s_q s' = [] -> s_io s' = None ->
     s_verified s' = true /\ exists b, s_store s' = Some b /\ H b = h /\ N.of_nat (length b) = L)
  /\ (let s4 := run [Drain; IoDone; Drain] s1 in
      s_q s4 = [] /\ s_verified s4 = true /\ s_writing s4 = false
      /\ (exists b, s_store s4 = Some b /\ H b = h /\ N.of_nat (length b) = L)
      /\ (s_verified s = false -> s_writing s = false ->
          s_completed s4 = (s_completed s + cnt is_cp (s_q s) + if cb then 1 else 0)%nat)).
Proof.
  intros Nf. destruct winning_write as (A1 & El1 & _).
  assert (L1 : LiveI s1) by (right; split; [apply write_fwd, Nf|apply write_won]).
  assert (SG : forall ops', no_delete ops' -> s_verified (run ops' s1) = true ->
               exists b, s_store (run ops' s1) = Some b /\ H b = h /\ N.of_nat (length b) = L).
  { intros ops' Nd V'. destruct (All_run ops' s1 A1) as (I' & _).
    destruct (proj1 (only_matching _ I') V') as (b & L' & X1 & X2 & X4 & _ & X3).
    exists b. repeat split; auto. rewrite (run_len_kept ops' s1 L Nd El1) in X2. congruence. }
  split.
  - intros ops' Co s' Q Io.
    assert (V : s_verified s' = true) by (apply LiveI_quiescent; auto; apply (run_inv LiveI core_op LiveI_step); auto).
    split; auto. apply SG; auto. apply core_no_delete; auto.
  - intros s4. assert (Q4 : s_q s4 = []) by apply drain_quiescent.
    assert (V : s_verified s4 = true) by (apply wins_verified; auto).
    destruct (All_run [Drain; IoDone; Drain] s1 A1) as ((_ & ph4 & P4 & _) & _). change (Phase ph4 s4) in P4.
    rewrite (Phase_done ph4 s4 P4 V) in P4. pose proof (ph_w _ _ P4) as W4.
    repeat split; auto. { apply (SG [Drain; IoDone; Drain]); auto. repeat constructor; discriminate. }
    intros V0 Wr0. destruct A as ((_ & ph0 & Ph0 & _) & _). rewrite (Phase_idle ph0 s Ph0 V0 Wr0) in Ph0.
    destruct (At_run _ (Write i d :: [Drain; IoDone; Drain]) s (calls_kept (calls s + owes Idle))) as (ph5 & P5 & E5);
      [repeat constructor|exists Idle; auto|].
    change (calls s4 + owes ph5 = calls s + owes Idle)%nat in E5.
    assert (ph5 = Done) by (apply (Phase_done ph5 s4); auto). subst ph5.
    unfold calls, owes in E5. rewrite Q4 in E5. change (cnt is_cp []) with 0%nat in E5. destruct cb; lia.
Qed.

Lemma copy_exact : s_verified s = false -> s_writing s = false -> (forall j, In (QWfc j) (s_q s) -> loser s j) ->
  nofail s -> forall ops' x, core_ops ops' -> s_store (run ops' s1) = Some x -> x = w_buf w ++ d.
Proof.
  intros V W Lo Nf ops' x Co. destruct winning_write as (_ & _ & Q1 & w1 & N1 & F1).
  destruct A as ((_ & ph0 & Ph0 & _) & _).
  rewrite (Phase_idle ph0 s Ph0 V W) in Ph0.
  assert (E : Ex (w_buf w ++ d) s1).
  { apply Ex_idle; [apply (moved_same_ctl Idle s s s1 Ph0 eq_refl eq_refl (step_quiet (Write i d) s eq_refl))|].
    exists (s_q s ++ [QClose i; QRemove (w_key w) i]), [], i, w1. repeat split; auto.
    - rewrite Q1. unfold cbs. rewrite <- app_assoc. reflexivity.
    - unfold losers. apply Forall_app. split; [|repeat constructor].
      apply Forall_forall. intros it Hin. destruct it; auto. eapply loser_mono; [apply (wmono_step (Write i d))|auto]. }
  intros Es. pose proof (Ex_run (w_buf w ++ d) ops' s1 Co (write_fwd Nf) E) as (_ & _ & E3 & _). auto.
Qed.

End Arrives.

Definition seen_at (s : state) (i : nat) : bytes :=
  match nth_error (s_ws s) i with Some w => w_seen w | None => [] end.

Lemma seen_at_ws s s' i : s_ws s' = s_ws s -> seen_at s' i = seen_at s i.
Proof. unfold seen_at. intros ->. auto. Qed.

Lemma seen_at_app_w g j s i : (forall w, w_seen (fst (g w)) = w_seen w) -> seen_at (app_w g j s) i = seen_at s i.
Proof.
  intros Hg. destruct (app_w_spec g j s) as [(_ & ->)|(w & Hj & ->)]; auto. unfold seen_at. simpl.
  destruct (Nat.eq_dec j i) as [->|Hne].
  - erewrite nth_error_upd_eq by eauto. rewrite Hj. auto.
  - rewrite nth_error_upd_neq by auto. auto.
Qed.

Lemma seen_rel i : loop_rel (keeps (fun s => seen_at s i)).
Proof.
  apply keeps_rel; intros; auto; apply seen_at_app_w; intros w;
    [unfold close_handle_w|unfold cancel_w]; destruct (fut_done (w_fut w)); auto.
Qed.

Definition contrib (i : nat) (o : op) (r : res) : bytes :=
  match o with Write j d => if (Nat.eqb j i && counts r)%bool then d else [] | _ => [] end.

Lemma step_seen_at o s i : Wok s -> seen_at (fst (step o s)) i = seen_at s i ++ contrib i o (snd (step o s)).
Proof.
  intros (_ & I2). pose proof (step_loop _ o s (seen_rel i) (fun s1 s2 => seen_at_ws s1 s2 i)) as X.
  destruct o; simpl; rewrite ?app_nil_r; try exact X.
  - destruct (open_writer_cases k s) as [->|(_ & ->)]; auto.
    unfold seen_at; simpl. destruct (Nat.lt_ge_cases i (length (s_ws s))) as [Hi|Hi].
    + rewrite nth_error_app1 by auto. auto.
    + rewrite nth_error_app2 by auto. assert (Hn : nth_error (s_ws s) i = None) by (apply nth_error_None; auto).
      rewrite Hn. destruct (i - length (s_ws s))%nat as [|n0]; simpl; auto. destruct n0; auto.
  - unfold write. destruct (nth_error (s_ws s) i0) as [w|] eqn:Hw; simpl; [|rewrite andb_false_r, app_nil_r; auto].
    unfold app_w, seen_at. rewrite Hw. destruct (fst (wr_write (s_len s) w d)) as [w' fl] eqn:Ew. simpl.
    destruct (Nat.eqb_spec i0 i) as [->|Hne]; simpl.
    + erewrite nth_error_upd_eq by eauto. rewrite Hw.
      replace w' with (fst (fst (wr_write (s_len s) w d))) by (rewrite Ew; auto).
      apply wr_write_seen. eapply Forall_nth_error; eauto.
    + rewrite nth_error_upd_neq by auto. rewrite app_nil_r; auto.
Qed.

Fixpoint written (i : nat) (ops : list op) (rs : list res) : bytes :=
  match ops, rs with
  | o :: ops', r :: rs' => contrib i o r ++ written i ops' rs'
  | _, _ => []
  end.

Definition results (ops : list op) (s : state) : list res := map snd (run_log H h kd cb ops s).

Lemma seen_trace ops : forall s i, All s -> seen_at (run ops s) i = seen_at s i ++ written i ops (results ops s).
Proof.
  induction ops as [|o r IH]; intros s i A; simpl.
  - rewrite app_nil_r; auto.
  - rewrite IH by (apply All_step; auto). rewrite step_seen_at by apply A. rewrite <- app_assoc. reflexivity.
Qed.

(* Where a history begins: the invariants hold, there is no writer yet, nothing is queued and the completion callback
   has not been called.  The fresh object [init] is such a state, and so is the object BlobManager.get_blob creates
   over a directory that already holds a file ([start], see start_begins below). *)
Definition begins (s : state) : Prop :=
  All s /\ s_ws s = [] /\ s_q s = [] /\ s_completed s = 0%nat.

Section Reach.
Variable s0 : state.
Hypothesis B0 : begins s0.

Lemma reach_all ops : All (run ops s0).
Proof. apply All_run, B0. Qed.

(* an accepted length is at most 2^21 and is changed by nothing but delete() *)
Lemma length_once_bounded ops1 ops2 L :
  s_len (run ops1 s0) = Some L ->
  (L <= MAX_BLOB_SIZE)%N /\ (no_delete ops2 -> s_len (run (ops1 ++ ops2) s0) = Some L).
Proof.
  intros E. split.
  - destruct (reach_all ops1) as (((I1 & _) & _) & _). auto.
  - intros Nd. rewrite run_app. apply run_len_kept; auto.
Qed.

(* every writer, after any history (resets included): what it hashed is the concatenation of the chunks whose
   write() call got past the guards, and the state of its future is determined by those bytes *)
Lemma writer_history ops i w :
  nth_error (s_ws (run ops s0)) i = Some w ->
  let t := written i ops (results ops s0) in
  w_seen w = t
  /\ (forall b, w_fut w = FOk b -> b = t /\ H t = h /\ (0 < N.of_nat (length t) <= MAX_BLOB_SIZE)%N)
  /\ (w_fut w = FErrHash -> H t <> h)
  /\ (w_fut w = FPending -> forall L, s_len (run ops s0) = Some L -> L <> 0%N -> (N.of_nat (length t) < L)%N).
Proof.
  intros Hn t. destruct B0 as (A0 & W0 & _).
  assert (St : w_seen w = t).
  { pose proof (seen_trace ops s0 i A0) as X. unfold seen_at in X. rewrite Hn, W0 in X.
    destruct i; simpl in X; exact X. }
  destruct (reach_all ops) as (((_ & I2) & _) & _). destruct (Forall_nth_error _ _ _ _ I2 Hn) as [A B C _ G].
  rewrite St in *. split; auto. split; [|split].
  - intros b Eb. destruct (A b Eb) as ((E3 & E4) & -> & _). auto.
  - intros E. apply G; auto.
  - intros E L EL Hne. destruct (w_open w) eqn:O; [|exfalso; apply C; auto].
    destruct (B eq_refl E) as (_ & X). apply X; auto.
Qed.

(* the completion callback never fires twice unless the object was reset (read out / deleted) in between *)
Lemma completed_at_most_once ops : core_ops ops -> (s_completed (run ops s0) <= 1)%nat.
Proof.
  intros Co. destruct B0 as (((_ & ph & P & _) & _) & _ & Q0 & C0).
  destruct (At_run _ ops s0 (calls_kept (calls s0 + owes ph)) Co) as (ph' & _ & E); [exists ph; auto|].
  unfold calls at 2 in E. rewrite Q0, C0 in E. change (cnt is_cp []) with 0%nat in E.
  assert (owes ph <= 1)%nat by (unfold owes; destruct cb, ph as [| | |[]|[]|[]|]; simpl; lia).
  unfold calls in E. lia.
Qed.

End Reach.
End C01.

(* BlobFile.__init__ over a blob directory that already holds a file under the blob's name (restart) takes the file
   over unless its size differs from a non-zero expected length *)
Definition taken_over (f : bytes) (expected : option N) : Prop :=
  match expected with Some L => L = 0%N \/ L = N.of_nat (length f) | None => True end.

(* what the theorems assume about the start: the expected length, if given, is at most 2^21 (it is taken as it is
   by the constructor), and a pre-existing file THAT IS TAKEN OVER is an intact copy.  A file whose size differs
   from the (non-zero) expected length needs no assumption at all: it is deleted. *)
Definition start_ok (H : bytes -> bytes) (h : bytes) (kd : kind) (file : option bytes) (expected : option N) : Prop :=
  (forall L, expected = Some L -> (L <= MAX_BLOB_SIZE)%N)
  /\ (forall f, kd = KFile -> file = Some f -> taken_over f expected -> good H h f).

Lemma start_cases kd file expected :
  (exists e, (e = None \/ e = expected) /\ start kd file expected = mkS e [] [] [] false false None None O)
  \/ (exists f, kd = KFile /\ file = Some f /\ taken_over f expected
                /\ start kd file expected = mkS (Some (N.of_nat (length f))) [] [] [] false true None (Some f) O).
Proof.
  unfold start. destruct kd; [|left; eauto]. destruct file as [f|]; [|left; eauto].
  destruct expected as [L|]; simpl.
  - destruct (N.eqb_spec L 0); simpl.
    + right. exists f. repeat split; auto.
    + destruct (N.eqb_spec L (N.of_nat (length f))); simpl; [|left; exists None; auto].
      right. exists f. repeat split; auto.
  - right. exists f. repeat split; auto.
Qed.

Lemma start_begins H h kd file expected : start_ok H h kd file expected -> begins H h (start kd file expected).
Proof.
  intros (HL & HF). destruct (start_cases kd file expected) as [(e & He & E)|(f & Ek & Ef & Ta & E)]; rewrite E.
  - assert (Ck : Cok H h (mkS e [] [] [] false false None None O)).
    { exists Idle. split; [split; simpl; auto; tauto|]. repeat split; simpl; intros; discriminate. }
    unfold begins, All, Inv, Wok, Qok, Reg, Cl; simpl. repeat split; auto; try discriminate; try tauto.
    + intros L ->. destruct He as [|<-]; [discriminate|auto].
    + constructor.
    + intros [|i] w; discriminate.
    + intros [|i] w; discriminate.
  - destruct (HF f Ek Ef Ta) as ((G1 & G2) & G3).
    assert (Ck : Cok H h (mkS (Some (N.of_nat (length f))) [] [] [] false true None (Some f) O)).
    { exists Done. split; [split; simpl; auto|]. repeat split; simpl; try discriminate.
      intros x [= <-]. eexists; repeat split; eauto. }
    unfold begins, All, Inv, Wok, Qok, Reg, Cl; simpl. repeat split; auto; try discriminate; try tauto.
    + intros L E1. inversion E1; subst. auto.
    + constructor.
    + intros [|i] w; discriminate.
    + intros [|i] w; discriminate.
Qed.

Lemma start_all H h kd cb file expected : start_ok H h kd file expected ->
  forall ops, All H h (run H h kd cb ops (start kd file expected)).
Proof. intros Ok. apply reach_all, start_begins, Ok. Qed.

(* the constructor itself: what BlobManager.get_blob(hash, expected) hands back over an existing file *)
Lemma start_existing_file f expected :
  let s := start KFile (Some f) expected in
  (taken_over f expected ->
     s_verified s = true /\ s_store s = Some f /\ s_len s = Some (N.of_nat (length f)))
  /\ (~ taken_over f expected -> s_verified s = false /\ s_store s = None /\ s_len s = None)
  /\ (forall L, expected = Some L -> L <> 0%N -> s_verified s = true -> s_len s = Some L /\ N.of_nat (length f) = L).
Proof.
  unfold start, taken_over. destruct expected as [E|]; simpl.
  - destruct (N.eqb_spec E 0); simpl.
    + split; [|split]; auto; try tauto. intros L X Hne. inversion X; subst. contradiction.
    + destruct (N.eqb_spec E (N.of_nat (length f))); simpl.
      * split; [|split]; auto; try tauto. intros L X _ _. inversion X; subst; auto.
      * split; [|split]; auto; try tauto; try (intros [X|X]; contradiction); intros; discriminate.
  - split; [|split]; auto; try tauto; intros; discriminate.
Qed.

Lemma start_fresh H h kd : start_ok H h kd None None /\ start kd None None = init.
Proof. split; [split; intros; discriminate|destruct kd; reflexivity]. Qed.

(* concrete histories used as non-vacuity examples in Props/C01.v (toy hash H b = b) *)
Definition ex_Hid (b : bytes) : bytes := b.
Definition ex_nm : bytes := [Byte.x01; Byte.x02; Byte.x03].
Definition ex_ops1 : list op :=
  [SetLength 3; Open 1; Open 2; Write 0 [Byte.x01]; Write 1 [Byte.x01]; Write 0 [Byte.x02; Byte.xff];
   Write 1 [Byte.x02]; Tick].
Definition ex_stale : list op :=
  [SetLength 3; Open 1; Write 0 [Byte.x01; Byte.x02; Byte.x03; Byte.x04]; Open 1; Tick; Open 2;
   Write 2 ex_nm; Drain; IoDone; Drain].

Lemma ex_hypotheses :
  let s := run ex_Hid ex_nm KFile true ex_ops1 init in
  (exists w, nth_error (s_ws s) 1 = Some w /\ w_open w = true /\ w_fut w = FPending
                /\ w_buf w = [Byte.x01; Byte.x02]) /\ s_len s = Some 3%N
  /\ s_verified s = false /\ s_writing s = false /\ s_q s = [].
Proof. vm_compute. split; [eexists; repeat split|repeat split]. Qed.

(* the behaviour BEFORE fix 597bcef (remove_writer deleted writers[key] whoever was registered), kept as a model of
   the old code so that the finding stays machine-checked *)
Definition run_item_old (H : bytes -> bytes) (h : bytes) (kd : kind) (cb : bool) (it : qitem) (s : state) : state :=
  match it with
  | QRemove k _ => set_map (map_del k (s_map s)) s
  | _ => run_item kd cb it s
  end.
Definition step1_old H h kd cb (s : state) : state :=
  match s_q s with [] => s | it :: r => run_item_old H h kd cb it (set_q r s) end.
Fixpoint iter_old H h kd cb (n : nat) (s : state) : state :=
  match n with O => s | S m => iter_old H h kd cb m (step1_old H h kd cb s) end.
Definition step_old H h kd cb (o : op) (s : state) : state :=
  match o with
  | Tick => iter_old H h kd cb (length (s_q s)) s
  | Drain => iter_old H h kd cb (fuel s) s
  | _ => fst (step H h kd cb o s)
  end.
Definition run_old H h kd cb (ops : list op) (s : state) : state :=
  fold_left (fun st o => step_old H h kd cb o st) ops s.

(* peer 1 fails, is opened again before the loop ran; the stale remove_writer of the failed writer unregistered
   the NEW writer in the old code, so that writer 1 was neither closed nor cancelled when peer 2 delivered the
   blob; the repaired model closes it *)
Lemma stale_reopen_old_vs_new :
  let so := run_old ex_Hid ex_nm KFile true ex_stale init in
  let sn := run ex_Hid ex_nm KFile true ex_stale init in
  (s_verified so, map w_open (s_ws so), map w_fut (s_ws so))
    = (true, [false; true; false], [FErrLen; FPending; FOk ex_nm])
  /\ (s_verified sn, map w_open (s_ws sn), map w_fut (s_ws sn))
    = (true, [false; false; false], [FErrLen; FCancelled; FOk ex_nm]).
Proof. split; vm_compute; reflexivity. Qed.

(* the behaviour BEFORE fix 82794e2 (the done-callbacks of save_verified_blob ignored the outcome of the write
   task): the three hops of a FAILED write ended like those of a successful one *)
Definition run_item_oldfail (kd : kind) (cb : bool) (it : qitem) (s : state) : state :=
  match it with
  | QSetStateF => run_item kd cb QSetState s
  | QWakeupF => run_item kd cb QWakeup s
  | QUpdateF => run_item kd cb QUpdate s
  | _ => run_item kd cb it s
  end.
Definition step1_oldfail kd cb (s : state) : state :=
  match s_q s with [] => s | it :: r => run_item_oldfail kd cb it (set_q r s) end.
Fixpoint iter_oldfail kd cb (n : nat) (s : state) : state :=
  match n with O => s | S m => iter_oldfail kd cb m (step1_oldfail kd cb s) end.
Definition step_oldfail H h kd cb (o : op) (s : state) : state :=
  match o with
  | Tick => iter_oldfail kd cb (length (s_q s)) s
  | Drain => iter_oldfail kd cb (fuel s + 8) s
  | _ => fst (step H h kd cb o s)
  end.
Definition run_oldfail H h kd cb (ops : list op) (s : state) : state :=
  fold_left (fun st o => step_oldfail H h kd cb o st) ops s.

Definition ex_failed_write : list op :=
  [SetLength 3; Open 1; Write 0 ex_nm; Drain; IoFail; Drain].

(* a peer delivers a complete correct copy, the disk write fails: the old code ended verified, announced, with
   nothing stored; the repaired code ends unverified, writeable again, nothing announced - and a second delivery
   then succeeds *)
Lemma failed_write_old_vs_new :
  let so := run_oldfail ex_Hid ex_nm KFile true ex_failed_write init in
  let sn := run ex_Hid ex_nm KFile true ex_failed_write init in
  let sr := run ex_Hid ex_nm KFile true (ex_failed_write ++ [Open 2; Write 1 ex_nm; Drain; IoDone; Drain]) init in
  (s_verified so, s_store so, s_completed so) = (true, None, 1%nat)
  /\ (s_verified sn, s_store sn, s_completed sn, s_writing sn, s_q sn) = (false, None, 0%nat, false, [])
  /\ (s_verified sr, s_store sr, s_completed sr) = (true, Some ex_nm, 1%nat).
Proof. repeat split; vm_compute; reflexivity. Qed.
