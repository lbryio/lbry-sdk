(* Fragmentation of an honest server stream does not matter.
   The client's state is a function of the bytes delivered so far: while they are a proper prefix of the header they
   sit in the buffer; from the end of the header on the state is [after c0 t], t being the body bytes so far. *)
From Coq Require Import NArith ZArith List Bool Lia.
From Coq.Strings Require Import Byte.
From LV Require Import Lib.Bytes Model.C10 Proofs.C10 Proofs.C10Client.
Import ListNotations.
Local Open Scope Z_scope.

Lemma prefix_cases {A} : forall (a b x y : list A), a ++ x = b ++ y ->
  (exists z, b = a ++ z /\ z <> []) \/ (exists t, a = b ++ t).
Proof.
  intros a b x y E. apply app_eq_app in E as [[|c l] [[-> _]|[-> _]]]; eauto.
  - right. exists []. now rewrite !app_nil_r.
  - left. exists (c :: l). split; [reflexivity | discriminate].
Qed.

Lemma firstn_all2' {A} (l : list A) k : (length l <= k)%nat -> firstn k l = l.
Proof. apply firstn_all2. Qed.

Section Body.
Variable H : bytes -> bytes.
Variable r : response.
Variable hash : bytes.
Variable n : Z.
Hypothesis Hn : 0 < n <= MAX_BLOB_SIZE.

(* a download that has just been started for (hash, known length) on an open connection *)
Definition Init (known : option Z) (c : client) : Prop :=
  c_open c = true /\ c_att c = true /\ c_fut c = FutPending /\ c_received c = 0 /\ c_buf c = [] /\
  c_has_w c = true /\ c_w c = new_writer /\ c_hash c = hash /\ c_len c = known /\ c_delivered c = O /\
  (known = None \/ known = Some n).

(* the writer once it has been handed t: it holds t cut at n and closed itself when that was full *)
Definition body_w (t : bytes) : writer :=
  let d := firstn (Z.to_nat n) t in
  mkW d (zlen d =? n) (if zlen d =? n then if bytes_eqb (H d) hash then WResult else WBadHash else WPending).
(* the response was delivered once, the length stored, t written *)
Definition after (c0 : client) (t : bytes) : client :=
  mkC (c_open c0) (c_lost c0) (c_closed_ev c0) (c_att c0) (FutResult r) (zlen (firstn (Z.to_nat n) t)) (c_buf c0)
      (c_has_w c0) (body_w t) (c_hash c0) (Some n) (c_verified c0) (c_phase c0) (c_now c0) (c_T c0) 1 (c_unk c0).

Lemma body_w_open t : zlen t < n -> body_w t = mkW t false WPending /\ zlen (firstn (Z.to_nat n) t) = zlen t.
Proof.
  intro Hlt. unfold body_w. rewrite firstn_all2 by (unfold zlen in Hlt; lia).
  destruct (Z.eqb_spec (zlen t) n); [lia|auto].
Qed.

(* _write while the writer is open: any state that holds t < n bytes and knows the length moves to t ++ d *)
Lemma write_open c t d :
  c_len c = Some n -> c_hash c = hash -> c_w c = mkW t false WPending -> c_received c = zlen t -> zlen t < n ->
  cl_write H c d = (set_w (body_w (t ++ d)) (set_received (zlen (firstn (Z.to_nat n) (t ++ d))) c), false).
Proof.
  intros Hl Hh Hw Hr Hlt. pose proof (zlen_nonneg t).
  rewrite (cl_write_open H c d n) by (rewrite ?Hw, ?Hr; cbn; auto; lia). rewrite Hw, Hr, Hh. cbn [w_data].
  assert (Hf : firstn (Z.to_nat n) (t ++ d) = t ++ firstn (Z.to_nat (n - zlen t)) d).
  { rewrite firstn_app, firstn_all2 by (unfold zlen in Hlt; lia). do 2 f_equal. unfold zlen. lia. }
  unfold body_w. rewrite Hf, zlen_app. reflexivity.
Qed.

(* ... in particular the body bytes that arrive glued to the header (none, possibly) *)
Lemma write_glued c t :
  c_len c = Some n -> c_hash c = hash -> c_w c = new_writer -> c_received c = 0 -> c_has_w c = true ->
  write_if_open H c t = (set_w (body_w t) (set_received (zlen (firstn (Z.to_nat n) t)) c), false).
Proof.
  intros Hl Hh Hw Hr Hhw. unfold write_if_open. destruct t as [|b t'].
  - destruct (body_w_open []) as [-> ->]; [cbn; lia|]. destruct c; cbn in *; subst; reflexivity.
  - rewrite Hhw, Hw. apply (write_open c [] (b :: t')); auto. cbn; lia.
Qed.

Lemma after_full c0 t d : n <= zlen t -> after c0 (t ++ d) = after c0 t.
Proof.
  intro Hge. unfold after, body_w. rewrite firstn_app.
  replace (Z.to_nat n - length t)%nat with O by (unfold zlen in Hge; lia). cbn [firstn]. rewrite app_nil_r. reflexivity.
Qed.

Variable json_loads : bytes -> jres.

Lemma step_body known c0 t d : Init known c0 -> zlen t < n ->
  step H json_loads (after c0 t) (EvData d) = after c0 (t ++ d).
Proof.
  intros (I1 & I2 & _ & _ & _ & I6 & _ & I8 & _) Hlt. destruct (body_w_open t Hlt) as [Hw Hz].
  unfold step, step_with, data_received. cbn [after c_open c_att c_received c_fut c_has_w c_w].
  rewrite I1, I2, I6, Hw, orb_true_r. cbn [negb w_closed fut_done].
  rewrite (write_open _ t d) by (cbn; auto). reflexivity.
Qed.

(* ... and once it is closed: nothing changes any more, except that a segment that makes data_received raise
   force-closes the connection *)
Lemma step_full known c0 t d : Init known c0 -> n <= zlen t ->
  let A := after c0 t in
  (step H json_loads A (EvData d) = A \/ step H json_loads A (EvData d) = force_close A) /\
  step H json_loads (force_close A) (EvData d) = force_close A.
Proof.
  intros (I1 & I2 & _ & _ & I5 & I6 & _) Hge A. split; [|reflexivity].
  assert (Hfix : fst (data_received H json_loads A d) = A).
  { apply full_data_received; cbn; auto; [|discriminate].
    rewrite zlen_firstn. apply Z.eqb_eq. lia. }
  unfold step, step_with. replace (c_open A) with true by (symmetry; exact I1).
  destruct (data_received H json_loads A d) as [c1 []]; cbn [fst] in Hfix; subst c1; auto.
Qed.

End Body.

Section Frag.
Variable H : bytes -> bytes.
Variable json_loads : bytes -> jres.
Variable hdr : bytes.
Variable r : response.
Variable hash : bytes.
Variable n : Z.
Hypothesis Hparse : json_loads hdr = JResp r.
Hypothesis Hend : exists h0, hdr = h0 ++ [rbrace].
Hypothesis Hnoprefix : forall a b, hdr = a ++ rbrace :: b -> b <> [] -> json_loads (a ++ [rbrace]) = JInvalid.
Hypothesis Hshort : zlen hdr <= MAX_RESPONSE_SIZE.
Hypothesis Hblob : r_blob r = BrIncoming (Some hash) (LInt n).
Hypothesis Hn : 0 < n <= MAX_BLOB_SIZE.

Notation Init := (Init hash n).
Notation after := (after H r hash n).

Lemma step_in_header known c0 pre d rest :
  Init known c0 -> hdr = (pre ++ d) ++ rest -> rest <> [] ->
  step H json_loads (set_buf pre c0) (EvData d) = set_buf (pre ++ d) c0.
Proof.
  intros (I1 & I2 & I3 & I4 & _) Hh Hne.
  unfold step, step_with, data_received, parse_path. cbn [set_buf c_open c_att c_received c_fut c_buf].
  rewrite I1, I2, I3, I4, (parse_header_prefix json_loads hdr Hnoprefix Hshort (pre ++ d) rest Hh Hne). cbn.
  rewrite Hh, zlen_app in Hshort. pose proof (zlen_nonneg rest).
  destruct (Z.gtb_spec (zlen (pre ++ d)) MAX_RESPONSE_SIZE); [lia|reflexivity].
Qed.

(* the segment that completes the header: set_result, then the body bytes glued to it are written *)
Lemma step_completes_header known c0 pre d t :
  Init known c0 -> pre ++ d = hdr ++ t -> step H json_loads (set_buf pre c0) (EvData d) = after c0 t.
Proof.
  intros (I1 & I2 & I3 & I4 & I5 & I6 & I7 & I8 & I9 & I10 & I11) Hh.
  destruct c0 as [o l ce a f rc b hw w hs ln v ph nw T dl uk]; cbn in I1, I2, I3, I4, I5, I6, I7, I8, I9, I10;
  subst o a f rc b hw w hs ln dl.
  unfold step, data_received, parse_path; cbn.
  pose proof (parse_header_then json_loads hdr r Hparse Hend Hnoprefix Hshort t) as Hpp.
  unfold parse_prefix in Hpp. rewrite Hh, Hpp. cbn.
  rewrite Hblob, bytes_eqb_refl, skipn_app_exact.
  assert (Hcap : (0 <=? n) && (n <=? MAX_BLOB_SIZE) = true) by (apply andb_true_iff; split; lia).
  destruct I11 as [->| ->]; unfold set_length; cbn; [rewrite Hcap; cbn|];
    rewrite (write_glued H hash n Hn) by reflexivity; reflexivity.
Qed.

Definition Inv (c0 : client) (pre : bytes) (c : client) : Prop :=
  (c = set_buf pre c0 /\ exists rest, hdr = pre ++ rest /\ rest <> []) \/
  (exists t, pre = hdr ++ t /\ (c = after c0 t \/ n <= zlen t /\ c = force_close (after c0 t))).

Lemma Inv_step known c0 pre c d more body :
  Init known c0 -> Inv c0 pre c -> (pre ++ d) ++ more = hdr ++ body ->
  Inv c0 (pre ++ d) (step H json_loads c (EvData d)).
Proof.
  intros Hi [[-> [rest [Hh Hne]]]|[t [-> Hc]]] Hs.
  - destruct (prefix_cases _ _ _ _ Hs) as [[z [Hz Hzn]]|[t Ht]].
    + left. split; [eapply step_in_header|]; eauto.
    + right. exists t. split; [exact Ht|]. left. eapply step_completes_header; eassumption.
  - right. exists (t ++ d). split; [symmetry; apply app_assoc|]. destruct (Z.lt_ge_cases (zlen t) n) as [Hlt|Hge].
    + destruct Hc as [-> | [? _]]; [|lia]. left. apply (step_body H r hash n Hn json_loads known); assumption.
    + destruct (step_full H r hash n Hn json_loads known c0 t d Hi Hge) as [Ho Hc']. pose proof (zlen_nonneg d).
      rewrite (after_full H r hash n Hn c0 t d Hge), zlen_app.
      destruct Hc as [-> | [_ ->]]; [destruct Ho as [-> | ->]|rewrite Hc']; [left|right; split|right; split]; auto; lia.
Qed.

Theorem fragmentation_irrelevant known c0 body frags :
  Init known c0 -> concat frags = hdr ++ body ->
  let c := feed H json_loads c0 frags in
  w_data (c_w c) = firstn (Z.to_nat n) body /\ c_delivered c = 1%nat /\ c_fut c = FutResult r /\
  c_buf c = [] /\ c_received c = Z.min n (zlen body) /\ c_len c = Some n.
Proof.
  intros Hi Hs c.
  destruct (fold_left_stream (fun c d => step H json_loads c (EvData d)) (fun d => d) (@concat _) (fun _ => True)
              (fun pre _ c => Inv c0 pre c) (hdr ++ body) eq_refl (fun _ _ => eq_refl)) with (evs := frags) (pre := @nil byte) (s := c0)
    as [[_ [rest [Hh Hne]]]|[t [Hp Hc]]]; [| |apply Forall_forall; auto|exact Hs| |].
  - intros pre more c1 d Hinv _ Hst. eapply Inv_step; eassumption.
  - left. split; [symmetry; apply set_buf_id, Hi|]. exists hdr. split; [reflexivity|]. destruct Hend as [h0 ->]. destruct h0; discriminate.
  - exfalso. apply (f_equal (@length _)) in Hh. rewrite !app_length in Hh. destruct rest; [congruence|cbn in Hh; lia].
  - apply app_inv_head in Hp. subst t. rewrite <- fold_left_map in Hc. change (fold_left _ _ c0) with c in Hc. destruct Hi as (_ & _ & _ & _ & I5 & _).
    assert (Hmin : zlen (firstn (Z.to_nat n) body) = Z.min n (zlen body)) by (rewrite zlen_firstn; lia).
    destruct Hc as [-> | [_ ->]]; cbn; repeat split; assumption.
Qed.

End Frag.
