(* Fee addresses are Base58 text of the stored bytes, so both directions come from the Base58 round trips of
   Proofs.C06_Base58. The signature state after any history of sign / clear is one of the two envelope shapes
   (sig_consistent), which is what lets env_roundtrip read it back. *)
From Coq Require Import NArith List.
From Coq.Strings Require Import Byte.
From LV Require Import Lib.Bytes Model.C06 Proofs.C06_Base58 Model.C16_Env Model.C16_Fee Proofs.C16_Env.
Import ListNotations.

(* every address (any byte string with a non-zero byte, leading zero bytes included -- Bitcoin-style '1...'
   addresses): the text shown for the stored bytes decodes to those bytes *)
Lemma fee_address_roundtrip b : (exists c, In c b /\ c <> x00) ->
  exists t, fee_address b = Some t /\ fee_address_bytes t = Ok b.
Proof.
  intro H. destruct (b58_roundtrip b H) as [t [He Hd]]. exists t. unfold fee_address, fee_address_bytes.
  destruct b as [|x r]; [destruct H as [c [[] _]]|]. rewrite He. split; [reflexivity | exact Hd].
Qed.

(* and the other way: an address text (not all '1') that is stored reads back as the same text *)
Lemma fee_address_text_roundtrip t b : fee_address_bytes t = Ok b -> (exists c, In c t /\ c <> one_char) ->
  fee_address b = Some t.
Proof.
  intros Hd Hn. pose proof (b58_decode_encode t b Hd Hn) as He. unfold fee_address.
  destruct b as [|x r]; [rewrite b58_encode_empty in He; discriminate|]. rewrite He. reflexivity.
Qed.

Lemma fee_address_leading_zero r t : fee_address (x00 :: r) = Some t -> exists t', t = one_char :: t'.
Proof.
  unfold fee_address, b58_encode. cbn [count_leading]. rewrite byte_eqb_refl. cbn [repeat app].
  intro H. inversion H. eexists. reflexivity.
Qed.

Definition sig_consistent (s : sigstate) : Prop :=
  match st_signature s, st_channel_hash s with
  | None, None => True
  | Some sg, Some h => length h = 20%nat /\ length sg = 64%nat
  | _, _ => False
  end.

Lemma sig_apply_consistent s o : sigop_wf o -> sig_consistent (sig_apply s o).
Proof. destruct o as [h sg|]; cbn; auto. Qed.

Lemma sig_run_snoc ops o : sig_run (ops ++ [o]) = sig_apply (sig_run ops) o.
Proof. apply fold_left_app. Qed.

Lemma sig_run_clear ops : sig_run (ops ++ [OpClear]) = sig_fresh.
Proof. exact (sig_run_snoc ops OpClear). Qed.

Lemma sig_run_consistent ops : Forall sigop_wf ops -> sig_consistent (sig_run ops).
Proof.
  (* sign and clear both overwrite the two fields, so only the last operation matters *)
  destruct ops as [|o ops _] using rev_ind; intro H; [exact I|].
  rewrite sig_run_snoc. apply sig_apply_consistent. apply Forall_app in H as [_ H]. inversion H. assumption.
Qed.

(* an object in a consistent state equals what its own bytes parse back to: the bytes decode, and the decoded
   signature state (signature AND channel) is the state of the object. A history of signing and clearing matters
   only through sig_run_consistent. *)
Lemma sig_state_reparse s payload : sig_consistent s ->
  exists d, sig_to_bytes s payload = Some d /\
            exists e, env_decode d = EnvOk e /\ sig_of_env e = s /\ env_payload e = payload.
Proof.
  destruct s as [[sg|] [h|]]; cbn; intro C; try contradiction.
  - exists (env_encode (Signed h sg payload)). split; [reflexivity|]. exists (Signed h sg payload).
    split; [apply env_roundtrip; exact C|]. split; reflexivity.
  - exists (env_encode (Unsigned payload)). split; [reflexivity|]. exists (Unsigned payload).
    split; [apply env_roundtrip; exact I|]. split; reflexivity.
Qed.

Lemma claim_view_typed c req : fst (claim_view (Some c) req) = Some c /\ (snd (claim_view (Some c) req) = true <-> c = req).
Proof. cbn. split; [reflexivity | apply N.eqb_eq]. Qed.

Lemma claim_view_fresh req : claim_view None req = (Some req, true).
Proof. reflexivity. Qed.

(* any number of requests, granted or refused, leave a typed claim with the type it had *)
Lemma claim_view_history c reqs : fold_left (fun cur r => fst (claim_view cur r)) reqs (Some c) = Some c.
Proof. induction reqs as [|r reqs IH]; [reflexivity | exact IH]. Qed.
