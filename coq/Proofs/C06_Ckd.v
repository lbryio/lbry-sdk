(* Child key derivation: deriving from the public key follows deriving from the private key through the one
   assumed fact about the curve ([group_hom]); hardened steps are refused from public keys; addresses and the
   address validators on top of Base58Check. *)
From Coq Require Import Arith NArith List Bool Lia.
From Coq.Strings Require Import Byte.
From LV Require Import Lib.Bytes Model.C06 Proofs.C06_Num Proofs.C06_Base58 Proofs.C06_Keys.
Import ListNotations.
Local Open Scope N_scope.

Lemma ORDER_lt : ORDER < 256 ^ N.of_nat 32.
Proof. vm_compute. reflexivity. Qed.

Lemma priv_add_valid k l s : priv_add k l = Some s ->
  length s = 32%nat /\ priv_valid s = true /\ be_decode s = (be_decode k + be_decode l) mod ORDER.
Proof.
  unfold priv_add. destruct (ORDER <=? be_decode l); [discriminate|].
  destruct (N.eqb_spec ((be_decode k + be_decode l) mod ORDER) 0) as [|Hnz]; [discriminate|].
  set (v := (be_decode k + be_decode l) mod ORDER) in *. intro H.
  assert (s = be_encode 32 v) by congruence. subst s.
  assert (Hv : v < ORDER) by (apply N.mod_lt; discriminate).
  assert (Hd : be_decode (be_encode 32 v) = v).
  { apply be_decode_encode. exact (N.lt_trans _ _ _ Hv ORDER_lt). }
  split; [apply be_encode_length|]. split; [|exact Hd].
  unfold priv_valid. rewrite Hd. apply andb_true_iff. split; apply N.ltb_lt; [apply N.neq_0_lt_0; exact Hnz | exact Hv].
Qed.

(* on encoded scalars the additions are plain arithmetic; no 32-byte string has to be decoded to see it *)
Lemma priv_add_encoded a b : a < 256 ^ N.of_nat 32 -> b < 256 ^ N.of_nat 32 ->
  priv_add (be_encode 32 a) (be_encode 32 b) =
  if ORDER <=? b then None else
  if (a + b) mod ORDER =? 0 then None else Some (be_encode 32 ((a + b) mod ORDER)).
Proof. intros Ha Hb. unfold priv_add. rewrite !be_decode_encode by assumption. reflexivity. Qed.

Lemma priv_valid_encoded a : a < 256 ^ N.of_nat 32 -> priv_valid (be_encode 32 a) = (0 <? a) && (a <? ORDER).
Proof. intro Ha. unfold priv_valid. rewrite be_decode_encode by assumption. reflexivity. Qed.

Lemma priv_add_examples :
  (priv_add (be_encode 32 (ORDER - 1)) (be_encode 32 2), priv_add (be_encode 32 (ORDER - 1)) (be_encode 32 1),
   priv_add (be_encode 32 5) (be_encode 32 ORDER), priv_valid (be_encode 32 (ORDER - 1)), priv_valid (be_encode 32 ORDER))
  = (Some (be_encode 32 1), None, None, true, false).
Proof.
  rewrite !priv_add_encoded, !priv_valid_encoded by (vm_compute; reflexivity).
  vm_compute. reflexivity.
Qed.

Section CKD.
  Variable hmac512 : bytes -> bytes -> bytes.
  Variable pub : bytes -> bytes.
  Variable pub_add : bytes -> bytes -> option bytes.
  Variable hash160 : bytes -> bytes.

  (* the one fact about the curve that is assumed: k |-> k*G turns scalar addition into point addition,
     failures included (t >= n on both sides; k + t = 0 mod n <-> P + t*G is the point at infinity) *)
  Hypothesis group_hom : forall k l, priv_valid k = true -> pub_add (pub k) l = option_map pub (priv_add k l).

  Notation ckd_priv := (ckd_priv hmac512 pub hash160).
  Notation ckd_pub := (ckd_pub hmac512 pub_add hash160).
  Notation ckd := (ckd hmac512 pub pub_add hash160).
  Notation derive := (derive hmac512 pub pub_add hash160).
  Notation neuter := (neuter pub).

  Definition priv_ok (k : xkey) : Prop := xk_kind k = KPriv /\ priv_valid (xk_key k) = true.

  Lemma mk_child_ok kd ppk key cc n d c : mk_child hash160 kd ppk key cc n d = Ok c ->
    c = mk_xkey kd d (fingerprint hash160 ppk) n cc key /\ length cc = 32%nat /\ d < 256.
  Proof.
    unfold mk_child. destruct (Nat.eqb_spec (length cc) 32) as [Hl|]; [|discriminate].
    destruct (N.leb_spec 256 d) as [|Hd]; [discriminate|]. intro H. injection H as <-. auto.
  Qed.

  Lemma ckd_priv_ok k i c : ckd_priv k i = Ok c ->
    priv_ok c /\ xk_n c = i /\ xk_depth c = xk_depth k + 1 /\ length (xk_cc c) = 32%nat /\ length (xk_key c) = 32%nat /\
    xk_pfp c = fingerprint hash160 (pub (xk_key k)) /\ i < INDEX_LIMIT /\ xk_depth c < 256.
  Proof.
    unfold C06.ckd_priv. destruct (N.leb_spec INDEX_LIMIT i) as [|Hi]; [discriminate|].
    destruct (priv_add _ _) as [s|] eqn:Ea; [|discriminate]. intro H.
    apply mk_child_ok in H as (-> & Hl & Hdp). destruct (priv_add_valid _ _ _ Ea) as (Hs & Hv & _).
    unfold priv_ok. cbn [xk_kind xk_key xk_n xk_depth xk_cc xk_pfp]. auto 10.
  Qed.

  Lemma ckd_pub_ok k i c : ckd_pub k i = Ok c ->
    xk_kind c = KPub /\ xk_pfp c = fingerprint hash160 (xk_key k) /\ xk_n c = i /\ xk_depth c = xk_depth k + 1.
  Proof.
    unfold C06.ckd_pub. destruct (HARDENED <=? i); [discriminate|]. destruct (pub_add _ _); [|discriminate].
    intro H. apply mk_child_ok in H as (-> & _). cbn. auto.
  Qed.

  Theorem ckd_pub_fingerprint k i c : ckd_pub k i = Ok c ->
    xk_pfp c = firstn 4 (hash160 (xk_key k)) /\ xk_n c = i /\ xk_depth c = xk_depth k + 1.
  Proof. intro H. apply (ckd_pub_ok k i c H). Qed.

  (* deriving a non-hardened child from the public key alone gives the public key of the privately
     derived child -- including the parent fingerprint, chain code, depth, child number, and including
     the cases where derivation fails *)
  Theorem ckd_public_matches_private k i : priv_ok k -> i < HARDENED ->
    ckd_pub (neuter k) i = res_map neuter (ckd_priv k i).
  Proof.
    intros [Hk Hv] Hi. unfold C06.ckd_pub, C06.ckd_priv, C06.neuter, pubkey_of.
    cbn [xk_kind xk_key xk_cc xk_depth]. rewrite Hk.
    destruct (N.leb_spec HARDENED i) as [|_]; [lia|].
    destruct (N.leb_spec INDEX_LIMIT i) as [Hbig|_]; [unfold INDEX_LIMIT, HARDENED in *; lia|].
    rewrite group_hom by exact Hv.
    destruct (priv_add _ _) as [s|]; cbn [option_map]; [|reflexivity].
    unfold mk_child. destruct (negb _); [reflexivity|]. destruct (256 <=? _); reflexivity.
  Qed.

  Lemma ckd_of_priv k i : priv_ok k -> ckd k i = ckd_priv k i.
  Proof. intros [Hk _]. unfold C06.ckd. rewrite Hk. reflexivity. Qed.

  Theorem derive_public_matches_private path : forall k, priv_ok k -> Forall (fun i => i < HARDENED) path ->
    derive (neuter k) path = res_map neuter (derive k path).
  Proof.
    induction path as [|i rest IH]; intros k Hk Hp; [reflexivity|].
    inversion Hp as [|? ? Hi Hrest]; subst.
    cbn [C06.derive]. change (ckd (neuter k) i) with (ckd_pub (neuter k) i).
    rewrite ckd_of_priv, ckd_public_matches_private by assumption.
    destruct (ckd_priv k i) as [c|e] eqn:E; cbn [res_map bind]; [|reflexivity].
    apply IH; [|assumption]. apply (ckd_priv_ok k i c E).
  Qed.

  Theorem derive_app p q : forall k, derive k (p ++ q) = bind (derive k p) (fun c => derive c q).
  Proof.
    induction p as [|i p IH]; intro k; [reflexivity|].
    cbn [app C06.derive]. destruct (ckd k i) as [c|e]; cbn [bind]; [apply IH | reflexivity].
  Qed.

  Theorem ckd_pub_hardened_refused k i : HARDENED <= i -> ckd_pub k i = Err EIndex.
  Proof. intro H. unfold C06.ckd_pub. destruct (N.leb_spec HARDENED i); [reflexivity | lia]. Qed.

  Theorem derive_pub_hardened_refused path : forall k, xk_kind k = KPub ->
    Exists (fun i => HARDENED <= i) path -> exists e, derive k path = Err e.
  Proof.
    induction path as [|i rest IH]; intros k Hk Hex; [inversion Hex|].
    cbn [C06.derive]. unfold C06.ckd. rewrite Hk.
    destruct (ckd_pub k i) as [c|e] eqn:E; cbn [bind]; [|eauto].
    inversion Hex as [? ? Hi|? ? Hrest]; subst.
    - rewrite ckd_pub_hardened_refused in E by assumption. discriminate.
    - apply IH; [apply (ckd_pub_ok k i c E) | assumption].
  Qed.

  Theorem derive_priv_ok path : forall k c, priv_ok k -> derive k path = Ok c ->
    priv_ok c /\ xk_depth c = xk_depth k + N.of_nat (length path).
  Proof.
    induction path as [|i rest IH]; intros k c Hk H.
    - injection H as <-. split; [assumption | simpl; lia].
    - cbn [C06.derive] in H. rewrite ckd_of_priv in H by exact Hk.
      destruct (ckd_priv k i) as [c1|] eqn:E; [|discriminate]. cbn [bind] in H.
      destruct (ckd_priv_ok k i c1 E) as (Hok & _ & Hd & _).
      destruct (IH c1 c Hok H) as [Hc Hdc]. split; [exact Hc|]. rewrite Hdc, Hd. cbn [length]. lia.
  Qed.

  Theorem from_seed_ok seed k : from_seed hmac512 seed = Ok k ->
    priv_ok k /\ xk_depth k = 0 /\ xk_n k = 0 /\ xk_pfp k = zero4 /\ length (xk_cc k) = 32%nat /\
    xk_key k = firstn 32 (hmac512 bitcoin_seed seed) /\ xk_cc k = skipn 32 (hmac512 bitcoin_seed seed).
  Proof.
    unfold from_seed. destruct (length _ =? 32)%nat eqn:El; [|discriminate]. cbn [negb].
    destruct (priv_valid _) eqn:Ev; [|discriminate]. intro H. injection H as <-.
    apply Nat.eqb_eq in El. unfold priv_ok. cbn. auto 10.
  Qed.

  Section Addr.
    Variable dsha : bytes -> bytes.

    Lemma address_decodes prefix pk c r a : prefix = c :: r -> c <> x00 ->
      (4 <= length (dsha (prefix ++ hash160 pk)))%nat ->
      address hash160 dsha prefix pk = Ok a -> b58_decode_check dsha a = Ok (prefix ++ hash160 pk).
    Proof.
      intros -> Hc Hl Ha. destruct (b58check_roundtrip dsha _ c (r ++ hash160 pk) eq_refl Hc Hl) as [a' [Ea Da]].
      unfold address in Ha. cbn [app] in *. congruence.
    Qed.

    Theorem address_to_hash160_roundtrip c pk : c <> x00 -> length (hash160 pk) = 20%nat ->
      (4 <= length (dsha ([c] ++ hash160 pk)))%nat ->
      exists a, address hash160 dsha [c] pk = Ok a /\ address_to_hash160 a = Ok (hash160 pk).
    Proof.
      intros Hc Hh Hl. destruct (b58check_roundtrip dsha _ c (hash160 pk) eq_refl Hc Hl) as [a [Ha Hd]].
      exists a. split; [exact Ha|]. apply b58check_accepts_only_matching in Hd.
      unfold address_to_hash160. rewrite Hd. cbn [res_map]. f_equal.
      exact (slice_mid 1 21 [c] (hash160 pk) _ eq_refl Hh).
    Qed.

    Theorem address_injective prefix pk1 pk2 a c r : prefix = c :: r -> c <> x00 ->
      (4 <= length (dsha (prefix ++ hash160 pk1)))%nat -> (4 <= length (dsha (prefix ++ hash160 pk2)))%nat ->
      address hash160 dsha prefix pk1 = Ok a -> address hash160 dsha prefix pk2 = Ok a ->
      hash160 pk1 = hash160 pk2.
    Proof.
      intros Hp Hc H1 H2 A1 A2.
      pose proof (address_decodes prefix pk1 c r a Hp Hc H1 A1) as D1.
      rewrite (address_decodes prefix pk2 c r a Hp Hc H2 A2) in D1. injection D1 as E. symmetry. exact (app_inv_head _ _ _ E).
    Qed.

    (* HierarchicalDeterministic.get_public_key(i) and get_private_key(i) name the same address:
       the address handed out for (chain c, index i) from the account PUBLIC key is the address of the
       key derived from the account PRIVATE key along m/c/i *)
    Theorem chain_address_private prefix k c i : priv_ok k -> c < HARDENED -> i < HARDENED ->
      chain_address hmac512 pub_add hash160 dsha prefix (neuter k) c i =
      bind (derive k [c; i]) (fun sk => address hash160 dsha prefix (pubkey_of pub sk)).
    Proof.
      intros Hk Hc Hi. unfold chain_address. cbn [C06.derive].
      rewrite ckd_of_priv, ckd_public_matches_private by assumption.
      destruct (ckd_priv k c) as [c1|e] eqn:E1; cbn [res_map bind]; [|reflexivity].
      destruct (ckd_priv_ok k c c1 E1) as (Hk1 & _).
      rewrite ckd_of_priv, ckd_public_matches_private by assumption.
      destruct (ckd_priv c1 i); reflexivity.
    Qed.

    Theorem validator_sound v a : is_version_address dsha v a = Ok true ->
      exists r, b58_decode_check dsha a = Ok (v :: r) /\ b58_decode a = Ok ((v :: r) ++ checksum dsha (v :: r)).
    Proof.
      unfold is_version_address. destruct (b58_decode_check dsha a) as [p|e] eqn:E; [|discriminate].
      cbn [bind]. destruct p as [|b r]; [discriminate|]. intro H. apply Ok_inj, byte_eqb_eq in H. subst b.
      exists r. split; [reflexivity|]. apply b58check_accepts_only_matching. exact E.
    Qed.

    Theorem validator_accepts_address c pk a : c <> x00 -> (4 <= length (dsha ([c] ++ hash160 pk)))%nat ->
      address hash160 dsha [c] pk = Ok a -> is_version_address dsha c a = Ok true.
    Proof.
      intros Hc Hl Ha. unfold is_version_address. rewrite (address_decodes [c] pk c [] a eq_refl Hc Hl Ha).
      cbn [bind app]. rewrite byte_eqb_refl. reflexivity.
    Qed.

    (* a different string accepted by the validator is never an alias of this address: it carries a different
       payload (whose own checksum matches) *)
    Theorem validator_no_alias c pk a a' : address hash160 dsha [c] pk = Ok a -> c <> x00 ->
      (4 <= length (dsha ([c] ++ hash160 pk)))%nat -> a' <> a -> is_version_address dsha c a' = Ok true ->
      exists r, b58_decode_check dsha a' = Ok (c :: r) /\ r <> hash160 pk.
    Proof.
      intros Ha Hc Hl Hne Hv. destruct (validator_sound c a' Hv) as [r [Hd _]]. exists r. split; [exact Hd|].
      intro E. subst r. apply Hne. exact (b58check_inj dsha a' a _ Hd (address_decodes [c] pk c [] a eq_refl Hc Hl Ha)).
    Qed.

    Theorem valid_address_sound pv sv allow a : valid_address dsha pv sv allow a = true ->
      is_version_address dsha pv a = Ok true \/ (allow = true /\ is_version_address dsha sv a = Ok true).
    Proof.
      unfold valid_address. destruct (is_version_address dsha pv a) as [[|]|]; [auto | | discriminate].
      destruct allow; [|discriminate]. destruct (is_version_address dsha sv a) as [[|]|]; try discriminate. auto.
    Qed.
  End Addr.
End CKD.
