(* The largest replies the node produces fit MSG_SIZE_LIMIT (they are sent, not refused).
   Lengths are bounded summand by summand: a dictionary or list written out item by item takes one bound per
   item ([len_dict_le], [len_list_le]), a list of like elements one bound for all ([len_list_all]).  The bounds are
   in N ([blen]), so that the sums are binary numerals; only the last step speaks of [length]. *)
From Coq Require Import String.
From Coq Require Import NArith ZArith List Lia.
From LV Require Import Lib.Bytes Lib.Decimal Model.C17 Proofs.C17_Int Proofs.C17_Bencode.
Import ListNotations.

Definition MSG_SIZE_LIMIT : nat := 1400.

Local Open Scope N_scope.

Lemma blen_le s n : blen s <= N.of_nat n -> (length s <= n)%nat.
Proof. intro H. apply Nat.compare_le_iff. rewrite Nat2N.inj_compare. exact H. Qed.

Lemma len_int_le z k : (0 <= z < 10 ^ Z.of_N k)%Z -> 1 <= k -> blen (benc (BInt z)) <= 2 + k.
Proof.
  intros [H0 H1] Hk. cbn [benc]. rewrite blen_cons, blen_app, blen_cons.
  enough (blen (dec_of_Z z) <= k) by (change (blen []) with 0; lia).
  replace (dec_of_Z z) with (dec_of_N (Z.to_N z)) by (destruct z; [reflexivity | reflexivity | lia]).
  apply dec_of_N_blen; [|exact Hk].
  apply N2Z.inj_lt. rewrite Z2N.id, N2Z.inj_pow by lia. exact H1.
Qed.

Lemma len_str_le s k : blen s <= k -> k < 100 -> blen (benc (BStr s)) <= 3 + k.
Proof.
  intros H Hk. cbn [benc]. rewrite blen_app, blen_cons.
  pose proof (dec_of_N_blen (blen s) 2). lia.
Qed.

Lemma len_list_le l ns :
  Forall2 (fun x n => blen (benc x) <= n) l ns -> blen (benc (BList l)) <= 2 + fold_right N.add 0 ns.
Proof.
  intro H. rewrite benc_BList, blen_cons, blen_app.
  enough (blen (concat (map benc l)) <= fold_right N.add 0 ns) by (change (blen [c_e]) with 1; lia).
  induction H as [|x n l ns Hx _ IH]; [apply N.le_refl|]. cbn [map concat fold_right]. rewrite blen_app. lia.
Qed.

Lemma len_list_all {A} (f : A -> bval) c n l :
  Forall (fun x => blen (benc (f x)) <= c) l -> (length l <= n)%nat ->
  blen (benc (BList (map f l))) <= 2 + c * N.of_nat n.
Proof.
  intros H Hn. rewrite benc_BList, blen_cons, blen_app.
  enough (blen (concat (map benc (map f l))) <= c * N.of_nat (length l)) by (change (blen [c_e]) with 1; nia).
  clear Hn. induction H as [|x l Hx _ IH]; cbn [map concat length]; [exact (N.le_0_l _)|]. rewrite blen_app. lia.
Qed.

Lemma insert_item_total p l :
  blen (concat (map snd (insert_item p l))) = blen (snd p) + blen (concat (map snd l)).
Proof.
  induction l as [|q r IH]; cbn [insert_item map concat]; [apply blen_app|].
  destruct (key_leb (fst p) (fst q)); cbn [map concat]; rewrite !blen_app; [reflexivity|].
  rewrite IH. lia.
Qed.

(* sorting moves the items, so the length of an encoded dictionary is the sum over its items in any order *)
Lemma len_dict_le d ns :
  Forall2 (fun p n => blen (benc (fst p)) + blen (benc (snd p)) <= n) d ns ->
  blen (benc (BDict d)) <= 2 + fold_right N.add 0 ns.
Proof.
  intro H. rewrite benc_BDict_gen, blen_cons, blen_app.
  enough (blen (concat (map snd (sort_items (map enc_pair d)))) <= fold_right N.add 0 ns) by (change (blen [c_e]) with 1; lia).
  induction H as [|[k x] n d ns Hx _ IH]; [apply N.le_refl|].
  cbn [map sort_items enc_pair fst snd fold_right] in *. rewrite insert_item_total. cbn [snd]. rewrite blen_app. lia.
Qed.

Definition contact_small (c : bytes * bytes * Z) : Prop :=
  match c with (id, addr, port) => length id = 48%nat /\ (length addr <= 15)%nat /\ (0 <= port < 65536)%Z end.

Lemma len_contact c : contact_small c -> blen (benc (contact_val c)) <= 78.
Proof.
  destruct c as [[id addr] port]. intros (H1 & H2 & H3).
  apply (len_list_le _ [51; 18; 7]). repeat (apply Forall2_cons || apply Forall2_nil).
  - apply (len_str_le id 48); unfold blen; lia.
  - apply (len_str_le addr 15); unfold blen; lia.
  - apply (len_int_le port 5); lia.
Qed.

Definition find_value_payload (token key : bytes) (contacts : list (bytes * bytes * Z)) (peers : list bytes) (pages : Z) : bval :=
  BDict [(BStr (lit "token"), BStr token); (BStr (lit "contacts"), contacts_val contacts); (PV, BInt 1);
         (PAGE_KEY, BInt pages); (BStr key, peers_val peers)].

(* what a response puts around its payload: 'd', the slots 0 to 2 with the two ids, the key of slot 3, 'e' *)
Lemma len_response rpc node p n :
  blen rpc = 20 -> blen node = 48 -> blen (benc p) <= n -> blen (encode_message (Response rpc node p)) <= 91 + n.
Proof.
  intros Hr Hn Hp. unfold encode_message. cbn [value_of_message].
  refine (N.le_trans _ _ _ (len_dict_le _ [6; 26; 54; 3 + n] _) _); [|cbn [fold_right]; lia].
  repeat (apply Forall2_cons || apply Forall2_nil); cbn [fst snd].
  - reflexivity.
  - change (blen (benc (BInt 1))) with 3. pose proof (len_str_le rpc 20). lia.
  - change (blen (benc (BInt 2))) with 3. pose proof (len_str_le node 48). lia.
  - change (blen (benc (BInt 3))) with 3. lia.
Qed.

(* The largest first page of a findValue reply -- K = 8 contacts with 15-character addresses and 5-digit ports, 8
   compact peer addresses, the token, a page count below 10^6 -- is at most 1328 bytes (1237 of payload): it fits
   MSG_SIZE_LIMIT (1400), so _send does not refuse it (and it does NOT fit 1232, the limit of the seeded change). *)
Theorem largest_reply_fits limit : 1328 <= N.of_nat limit -> forall rpc node token key contacts peers pages,
  length rpc = 20%nat -> length node = 48%nat -> length token = 48%nat -> length key = 48%nat ->
  (length contacts <= 8)%nat -> Forall contact_small contacts ->
  (length peers <= 8)%nat -> Forall (fun p => length p = 54%nat) peers -> (0 <= pages < 1000000)%Z ->
  (length (encode_message (Response rpc node (find_value_payload token key contacts peers pages))) <= limit)%nat.
Proof.
  intros Hl rpc node token key contacts peers pages Hr Hn Ht Hk Hc Hcs Hp Hps Hpg.
  apply blen_le. refine (N.le_trans _ (91 + 1237) _ _ Hl). apply len_response; [unfold blen; lia | unfold blen; lia |].
  apply (len_dict_le _ [58; 636; 21; 11; 509]). repeat (apply Forall2_cons || apply Forall2_nil); cbn [fst snd].
  - change (blen (benc (BStr (lit "token")))) with 7. pose proof (len_str_le token 48). unfold blen in *. lia.
  - change (blen (benc (BStr (lit "contacts")))) with 10.
    pose proof (len_list_all contact_val 78 8 contacts (Forall_impl _ len_contact Hcs) Hc). unfold contacts_val. lia.
  - reflexivity.
  - change (blen (benc PAGE_KEY)) with 3. pose proof (len_int_le pages 6). lia.
  - pose proof (len_str_le key 48).
    assert (Hpl : Forall (fun s => blen (benc (BStr s)) <= 57) peers).
    { eapply Forall_impl; [|exact Hps]. intros s Hs. cbn beta in Hs. apply (len_str_le s 54); unfold blen; lia. }
    pose proof (len_list_all BStr 57 8 peers Hpl Hp). unfold peers_val, blen in *. lia.
Qed.

Lemma reply_below_limit : 1328 <= N.of_nat MSG_SIZE_LIMIT.
Proof. vm_compute. discriminate. Qed.
