(* An object embedded in an output script is read back byte for byte, and decodes to the same object: the four
   carrier scripts are rows of C15's output_templates, so C15's generate/parse round trip (generate_parse_output_fit)
   applies once the values are shown to fit. Then Stream.update's media bookkeeping (media_step), by cases. *)
From Coq Require Import NArith List.
From LV Require Import Lib.Bytes Wire.Push Wire.Script Proofs.C15
  Model.C16_Env Model.C16_Wire Model.C16_All Model.C16_Embed Proofs.C16_All.
Import ListNotations.
Local Open Scope N_scope.

Definition fits (b : bytes) : Prop := N.of_nat (length b) < LIMIT.

Lemma carrier_in_table c : In (carrier_template c) output_templates.
Proof. destruct c; cbn; tauto. Qed.

Lemma carrier_values_fit c name cid pkh payload : fits name -> fits cid -> fits pkh -> fits payload ->
  values_fit (snd (carrier_template c)) (carrier_values c name cid pkh payload).
Proof.
  intros Hn Hc Hp Hd. destruct c; each_slot; (eexists; split; [reflexivity | assumption]).
Qed.

Lemma carrier_expected_lookup c name cid pkh payload : exists f,
  payload_field (fst (carrier_template c)) = Some f /\
  lookup f (expected (snd (carrier_template c)) (carrier_values c name cid pkh payload)) = Some (VBytes payload).
Proof. destruct c; eexists; split; reflexivity. Qed.

(* every object of every size below 2^32 bytes, in each of the four carrier scripts, with any name / claim id /
   pubkey hash: the script is generated and, parsed again with no hint, yields exactly the object's bytes *)
Lemma embed_extract c name cid pkh payload : fits name -> fits cid -> fits pkh -> fits payload ->
  exists s, embed c name cid pkh payload = Some s /\ extract_payload s = Some payload.
Proof.
  intros Hn Hc Hp Hd. pose proof (carrier_in_table c) as Hin. rewrite (surjective_pairing (carrier_template c)) in Hin.
  destruct (generate_parse_output_fit _ _ _ Hin (carrier_values_fit c name cid pkh payload Hn Hc Hp Hd)) as (s & Hg & Hs).
  destruct (carrier_expected_lookup c name cid pkh payload) as (f & Hf & L).
  exists s. split; [exact Hg|]. unfold extract_payload. rewrite Hs, Hf, L. reflexivity.
Qed.

(* the whole production path: fields -> to_bytes -> output script -> parse -> from_bytes -> fields *)
Lemma embedded_object_roundtrip sch d m c name cid pkh sig fs :
  fits name -> fits cid -> fits pkh -> fits (encode_all sig fs) ->
  sig_wf sig -> tfields_ok sch m fs = true -> (fdepth fs <= d)%nat ->
  exists s, embed c name cid pkh (encode_all sig fs) = Some s /\
            match extract_payload s with
            | Some p => decode_all sch d m p = (EnvOk (mk_env sig (ser_tree fs)), WOk fs)
            | None => False
            end.
Proof.
  intros Hn Hc Hp Hd Hs Hok Hdep.
  destruct (embed_extract c name cid pkh (encode_all sig fs) Hn Hc Hp Hd) as [s [He Hx]].
  exists s. split; [exact He|]. rewrite Hx. apply all_roundtrip; assumption.
Qed.

Lemma media_step_non_media old w h d : media_step old None w h d = None.
Proof. reflexivity. Qed.

Lemma media_step_kind old k w h d st : media_step old (Some k) w h d = Some st -> fst st = k.
Proof.
  unfold media_step.
  destruct (match old with Some (k', vals) => if k =? k' then Some vals else None | None => None end) as [[[bw bh] bd]|];
    destruct (if has_dims k then w else None), (if has_dims k then h else None), (if has_duration k then d else None);
    try discriminate; intros [= <-]; reflexivity.
Qed.

(* an explicitly given number is what is stored afterwards, 0 included, whatever was there before *)
Lemma media_step_sets_width old k w h d : has_dims k = true ->
  exists hh dd, media_step old (Some k) (Some w) h d = Some (k, (w, hh, dd)).
Proof.
  intro Hk. unfold media_step. rewrite Hk.
  destruct (match old with Some (k', vals) => if k =? k' then Some vals else None | None => None end) as [[[bw bh] bd]|];
    destruct h, (if has_duration k then d else None); cbn [pick]; eexists; eexists; reflexivity.
Qed.

Lemma media_step_sets_duration old k w h d : has_duration k = true ->
  exists ww hh, media_step old (Some k) w h (Some d) = Some (k, (ww, hh, d)).
Proof.
  intro Hk. unfold media_step. rewrite Hk.
  destruct (match old with Some (k', vals) => if k =? k' then Some vals else None | None => None end) as [[[bw bh] bd]|];
    destruct (if has_dims k then w else None), (if has_dims k then h else None); cbn [pick]; eexists; eexists; reflexivity.
Qed.

Lemma media_step_keep k vals : media_step (Some (k, vals)) (Some k) None None None = Some (k, vals).
Proof.
  unfold media_step. rewrite N.eqb_refl. destruct (has_dims k), (has_duration k); reflexivity.
Qed.

Lemma media_step_switch k k' vals : k <> k' -> media_step (Some (k', vals)) (Some k) None None None = None.
Proof.
  intro H. unfold media_step. replace (k =? k') with false by (symmetry; apply N.eqb_neq; exact H).
  destruct (has_dims k), (has_duration k); reflexivity.
Qed.
