(* Tables are compared through their lists of contacts: an operation that only drops contacts leaves a subsequence
   ([sub]), one that moves them between buckets a permutation, and distinctness of ids and endpoints, range bounds and
   counts pass along either.  [sort_by], which stands for list.sort(key=...), is read as a sorted permutation. *)
From Coq Require Import NArith List Bool Lia Permutation.
From LV Require Import Lib.Lists Lib.Isort Model.C11 Model.C11Spec.
Import ListNotations.
Local Open Scope N_scope.

Lemma peer_eqb_spec a b : peer_eqb a b = true <-> a = b.
Proof.
  destruct a as [i a p], b as [j b q]. unfold peer_eqb, same_key. cbn.
  rewrite !andb_true_iff, !N.eqb_eq. split.
  - intros (-> & -> & ->). reflexivity.
  - intros H. inversion H. auto.
Qed.

Lemma existsb_peer_eqb q l : existsb (peer_eqb q) l = true <-> In q l.
Proof. apply existsb_eqb. exact peer_eqb_spec. Qed.

Lemma same_key_pkey a b : same_key a b = true <-> pkey a = pkey b.
Proof.
  unfold same_key, pkey. rewrite andb_true_iff, !N.eqb_eq. split.
  - intros (-> & ->). reflexivity.
  - intros H. inversion H. auto.
Qed.

Lemma dist_inj a b c : dist a b = dist a c -> b = c.
Proof.
  unfold dist. intros H. apply (f_equal (N.lxor a)) in H.
  rewrite <- !N.lxor_assoc, N.lxor_nilpotent, !N.lxor_0_l in H. exact H.
Qed.

Lemma lxor_lt_pow2 a b n : a < 2 ^ n -> b < 2 ^ n -> N.lxor a b < 2 ^ n.
Proof.
  intros Ha Hb.
  assert (L : forall x, x <> 0 -> x < 2 ^ n -> N.log2 x < n) by (intros; apply N.log2_lt_pow2; lia).
  destruct (N.eq_dec a 0) as [-> | Na]; [rewrite N.lxor_0_l; exact Hb |].
  destruct (N.eq_dec b 0) as [-> | Nb]; [rewrite N.lxor_0_r; exact Ha |].
  destruct (N.eq_dec (N.lxor a b) 0) as [-> | E]; [lia |].
  apply N.log2_lt_pow2; [lia |].
  eapply N.le_lt_trans; [apply N.log2_lxor |]. apply N.max_lub_lt; auto.
Qed.

Lemma dist_lt_M a b : a < M -> b < M -> dist a b < M.
Proof. apply lxor_lt_pow2. Qed.

(* all that is used of the halvings in _split_bucket and _join_buckets; the quotient gets a name because lia
   takes a division for an integer of unknown sign *)
Lemma half_bounds a : exists h, a / 2 = h /\ 2 * h <= a < 2 * h + 2.
Proof.
  exists (a / 2). split; [reflexivity |].
  pose proof (N.div_mod a 2 ltac:(discriminate)) as D. pose proof (N.mod_lt a 2 ltac:(discriminate)) as L.
  revert D L. generalize (a / 2) (a mod 2). intros q r D L. lia.
Qed.

Lemma M_pos : 0 < M.
Proof. unfold M. apply N.neq_0_lt_0. apply N.pow_nonzero. discriminate. Qed.

Inductive sub {A : Type} : list A -> list A -> Prop :=
| sub_nil : sub [] []
| sub_skip l' l x : sub l' l -> sub l' (x :: l)
| sub_keep l' l x : sub l' l -> sub (x :: l') (x :: l).

Lemma sub_refl {A} (l : list A) : sub l l.
Proof. induction l; constructor; assumption. Qed.

Lemma sub_nil_l {A} (l : list A) : sub [] l.
Proof. induction l; constructor; assumption. Qed.

Lemma sub_app {A} (a a' b b' : list A) : sub a' a -> sub b' b -> sub (a' ++ b') (a ++ b).
Proof. induction 1; intros; cbn; [assumption | apply sub_skip; auto | apply sub_keep; auto]. Qed.

Lemma sub_In {A} (l' l : list A) x : sub l' l -> In x l' -> In x l.
Proof. induction 1; cbn; intuition. Qed.

Lemma sub_map {A B} (f : A -> B) (l' l : list A) : sub l' l -> sub (map f l') (map f l).
Proof. induction 1; cbn; constructor; assumption. Qed.

Lemma sub_NoDup {A} (l' l : list A) : sub l' l -> NoDup l -> NoDup l'.
Proof.
  induction 1; intros N.
  - constructor.
  - inversion N; auto.
  - inversion N; subst. constructor; auto. intro. apply H2. eapply sub_In; eauto.
Qed.

Lemma sub_length {A} (l' l : list A) : sub l' l -> (length l' <= length l)%nat.
Proof. induction 1; cbn; lia. Qed.

Lemma sub_Forall {A} (P : A -> Prop) (l' l : list A) : sub l' l -> Forall P l -> Forall P l'.
Proof. intros S F. rewrite Forall_forall in *. intros x Hx. apply F. eapply sub_In; eauto. Qed.

Lemma firstn_sub {A} n (l : list A) : sub (firstn n l) l.
Proof.
  revert n. induction l; intros [| n]; cbn; try apply sub_nil_l; try apply sub_refl. apply sub_keep. auto.
Qed.

Lemma remove_first_sub f l : sub (remove_first f l) l.
Proof. induction l; cbn; [constructor | destruct (f a); [constructor; apply sub_refl | constructor; assumption]]. Qed.

Lemma sub_concat_map (t' t : table) :
  Forall2 (fun b' b => sub (bpeers b') (bpeers b)) t' t -> sub (contacts t') (contacts t).
Proof. unfold contacts. induction 1; cbn; [constructor | apply sub_app; assumption]. Qed.

Lemma NoDup_map_sub {A B} (f : A -> B) l' l : sub l' l -> NoDup (map f l) -> NoDup (map f l').
Proof. intros S N. eapply sub_NoDup; [apply sub_map; exact S | exact N]. Qed.

Lemma NoDup_map_perm {A B} (f : A -> B) l' l : Permutation l l' -> NoDup (map f l) -> NoDup (map f l').
Proof. intros P N. eapply Permutation_NoDup; [apply Permutation_map; exact P | exact N]. Qed.

Lemma filter_length_perm {A} (f : A -> bool) l l' : Permutation l l' -> length (filter f l) = length (filter f l').
Proof. induction 1; cbn; try destruct (f x); try destruct (f y); cbn; congruence. Qed.

Lemma filter_partition_perm {A} (f : A -> bool) l :
  Permutation l (filter (fun x => negb (f x)) l ++ filter f l).
Proof.
  induction l as [| a l IH]; cbn; [constructor |].
  destruct (f a); cbn.
  - apply Permutation_cons_app. exact IH.
  - constructor. exact IH.
Qed.

Lemma remove_first_perm f l : existsb f l = true -> exists x, f x = true /\ Permutation l (x :: remove_first f l).
Proof.
  induction l as [| a l IH]; cbn; [discriminate |]. destruct (f a) eqn:Fa; cbn.
  - intros _. exists a. auto.
  - intros E. destruct (IH E) as (x & Fx & P). exists x. split; [exact Fx |].
    eapply perm_trans; [apply perm_skip; exact P | apply perm_swap].
Qed.

Lemma remove_first_keeps f l y : In y l -> f y = false -> In y (remove_first f l).
Proof.
  induction l as [| a l IH]; cbn; [tauto |]. intros [-> | H] Fy.
  - rewrite Fy. left. reflexivity.
  - destruct (f a); [assumption | right; auto].
Qed.

Lemma contacts_cons b t : contacts (b :: t) = bpeers b ++ contacts t.
Proof. reflexivity. Qed.
Lemma contacts_app a b : contacts (a ++ b) = contacts a ++ contacts b.
Proof. unfold contacts. rewrite map_app, concat_app. reflexivity. Qed.
Lemma contacts_mid pre b post : contacts (pre ++ b :: post) = contacts pre ++ bpeers b ++ contacts post.
Proof. rewrite contacts_app, contacts_cons. reflexivity. Qed.

Lemma in_contacts t x : In x (contacts t) <-> exists b, In b t /\ In x (bpeers b).
Proof.
  unfold contacts. rewrite in_concat. split.
  - intros (l & Hl & Hx). apply in_map_iff in Hl. destruct Hl as (b & <- & Hb). eauto.
  - intros (b & Hb & Hx). exists (bpeers b). split; [apply in_map; assumption | assumption].
Qed.

Lemma bucket_sub_contacts pre b post : sub (bpeers b) (contacts (pre ++ b :: post)).
Proof.
  rewrite contacts_mid.
  pose proof (sub_app _ _ _ _ (sub_nil_l (contacts pre)) (sub_app _ _ _ _ (sub_refl (bpeers b)) (sub_nil_l (contacts post)))) as H.
  cbn [app] in H. rewrite app_nil_r in H. exact H.
Qed.

Lemma in_contacts_mid pre b post x : In x (bpeers b) -> In x (contacts (pre ++ b :: post)).
Proof. apply sub_In, bucket_sub_contacts. Qed.

Lemma in_contacts_swap pre b b' post x :
  In x (contacts (pre ++ b :: post)) -> In x (bpeers b) \/ In x (contacts (pre ++ b' :: post)).
Proof.
  rewrite !contacts_mid. intros H. apply in_app_or in H. destruct H as [H | H]; [right; apply in_or_app; auto |].
  apply in_app_or in H. destruct H as [H | H]; [left; exact H | right; apply in_or_app; right; apply in_or_app; auto].
Qed.

Lemma contacts_mid_sub pre b b' post :
  sub (bpeers b') (bpeers b) -> sub (contacts (pre ++ b' :: post)) (contacts (pre ++ b :: post)).
Proof. intros S. rewrite !contacts_mid. apply sub_app; [apply sub_refl |]. apply sub_app; [exact S | apply sub_refl]. Qed.

Lemma contacts_mid_perm pre b b' post l :
  Permutation (bpeers b) (l ++ bpeers b') ->
  Permutation (contacts (pre ++ b :: post)) (l ++ contacts (pre ++ b' :: post)).
Proof.
  intros P. rewrite !contacts_mid, P, <- app_assoc. rewrite !app_assoc. apply Permutation_app_tail.
  apply Permutation_app_tail. apply Permutation_app_comm.
Qed.

Lemma contact_bucket own t x :
  Forall (bucket_ok own) t -> In x (contacts t) ->
  exists y, In y t /\ In x (bpeers y) /\ blo y <= dist own (pid x) < bhi y.
Proof.
  intros OK Hx. apply in_contacts in Hx. destruct Hx as (y & Hy & Hx). exists y.
  rewrite Forall_forall in OK. destruct (OK y Hy) as (R & _). rewrite Forall_forall in R. auto.
Qed.

Lemma chain_app lo a b hi : chain lo (a ++ b) hi <-> exists mid, chain lo a mid /\ chain mid b hi.
Proof.
  revert lo. induction a as [| x a IH]; intros lo; cbn.
  - split; [intros H; exists lo; auto | intros (mid & -> & H); exact H].
  - rewrite IH. split.
    + intros (H1 & H2 & mid & H3 & H4). exists mid. auto.
    + intros (mid & (H1 & H2 & H3) & H4). eauto.
Qed.

Lemma chain_le lo t hi : chain lo t hi -> lo <= hi.
Proof.
  revert lo. induction t as [| b t IH]; intros lo; cbn.
  - intros ->. lia.
  - intros (H1 & H2 & H3). apply IH in H3. lia.
Qed.

Lemma chain_in_bounds lo t hi b : chain lo t hi -> In b t -> lo <= blo b /\ blo b < bhi b /\ bhi b <= hi.
Proof.
  revert lo. induction t as [| x t IH]; intros lo; cbn; [tauto |].
  intros (H1 & H2 & H3) [-> | Hb].
  - apply chain_le in H3. lia.
  - destruct (IH _ H3 Hb). lia.
Qed.

Lemma contacts_dist_lt own t : WF own t -> Forall (fun q => dist own (pid q) < M) (contacts t).
Proof.
  intros [C OK _ _]. apply Forall_forall. intros x Hx.
  destruct (contact_bucket own t x OK Hx) as (y & Hy & _ & R). destruct (chain_in_bounds _ _ _ _ C Hy). lia.
Qed.

Lemma in_range_iff own b id : in_range own b id = true <-> blo b <= dist own id < bhi b.
Proof. unfold in_range. rewrite andb_true_iff, N.leb_le, N.ltb_lt. tauto. Qed.

Lemma find_bucket_some own id t pre b post :
  find_bucket own id t = Some (pre, b, post) -> t = pre ++ b :: post /\ blo b <= dist own id < bhi b.
Proof.
  revert pre. induction t as [| x t IH]; intros pre; cbn; [discriminate |].
  destruct (in_range own x id) eqn:E.
  - intros H. inversion H; subst. apply in_range_iff in E. auto.
  - destruct (find_bucket own id t) as [[[pre' b'] post'] |]; [| discriminate].
    intros H. inversion H; subst. destruct (IH pre' eq_refl) as (-> & H2). auto.
Qed.

(* in a chain the ranges are disjoint: the bucket found is the one whose range holds the distance *)
Lemma find_bucket_at own id lo pre b post hi :
  chain lo (pre ++ b :: post) hi -> blo b <= dist own id < bhi b ->
  find_bucket own id (pre ++ b :: post) = Some (pre, b, post).
Proof.
  revert lo. induction pre as [| x pre IH]; intros lo C R; cbn [app find_bucket].
  - rewrite (proj2 (in_range_iff own b id) R). reflexivity.
  - destruct C as (_ & _ & C). replace (in_range own x id) with false; [rewrite (IH _ C R); reflexivity |].
    symmetry. apply not_true_iff_false. rewrite in_range_iff.
    destruct (chain_in_bounds _ _ _ b C) as (H & _); [apply in_elt |]. lia.
Qed.

Lemma chain_covers lo t hi d :
  chain lo t hi -> lo <= d < hi -> exists pre b post, t = pre ++ b :: post /\ blo b <= d < bhi b.
Proof.
  revert lo. induction t as [| x t IH]; intros lo; cbn.
  - intros -> ?. lia.
  - intros (H1 & H2 & H3) Hd. destruct (N.lt_ge_cases d (bhi x)) as [Lt | Ge].
    + exists [], x, t. split; [reflexivity | lia].
    + destruct (IH _ H3) as (pre & b & post & -> & R); [lia |]. exists (x :: pre), b, post. auto.
Qed.

Lemma find_bucket_chain own id lo t hi :
  chain lo t hi -> lo <= dist own id < hi ->
  exists pre b post, t = pre ++ b :: post /\ blo b <= dist own id < bhi b /\ find_bucket own id t = Some (pre, b, post).
Proof.
  intros C R. destruct (chain_covers lo t hi _ C R) as (pre & b & post & -> & Rb).
  exists pre, b, post. split; [reflexivity |]. split; [exact Rb | exact (find_bucket_at own id lo pre b post hi C Rb)].
Qed.

Lemma in_bucket_at own lo pre b post hi x :
  chain lo (pre ++ b :: post) hi -> Forall (bucket_ok own) (pre ++ b :: post) ->
  blo b <= dist own (pid x) < bhi b -> In x (contacts (pre ++ b :: post)) -> In x (bpeers b).
Proof.
  intros C OK R Hx. destruct (contact_bucket own _ x OK Hx) as (y & Hy & Hxy & Ry).
  (* the bucket that holds [x] has the distance in range as well: the lookup finds both *)
  pose proof (find_bucket_at own (pid x) lo pre b post hi C R) as F.
  apply in_split in Hy. destruct Hy as (l1 & l2 & E). rewrite E in F, C.
  rewrite (find_bucket_at own (pid x) lo l1 y l2 hi C Ry) in F. injection F as _ -> _. exact Hxy.
Qed.

Lemma id_found own pre b post id :
  WF own (pre ++ b :: post) -> blo b <= dist own id < bhi b ->
  In id (map pid (contacts (pre ++ b :: post))) -> In id (map pid (bpeers b)).
Proof.
  intros [C OK _ _] R H. apply in_map_iff in H. destruct H as (x & <- & Hx).
  apply in_map. exact (in_bucket_at own 0 pre b post M x C OK R Hx).
Qed.

Fixpoint sorted (key : peer -> N) (l : list peer) : Prop :=
  match l with
  | [] => True
  | x :: r => Forall (fun y => key x <= key y) r /\ sorted key r
  end.

Lemma sort_by_perm key l : Permutation (sort_by key l) l.
Proof.
  exact (sort_perm (fun a b => key a <=? key b) (insert_by key) (sort_by key)
    (fun _ => eq_refl) (fun _ _ _ => eq_refl) eq_refl (fun _ _ => eq_refl) l).
Qed.

Lemma sort_by_sorted key l : sorted key (sort_by key l).
Proof.
  apply (sort_sorted (fun a b => key a <=? key b) (insert_by key) (sort_by key)
    (fun _ => eq_refl) (fun _ _ _ => eq_refl) eq_refl (fun _ _ => eq_refl) (sorted key) I).
  - intros x r. cbn [sorted]. rewrite Forall_forall. setoid_rewrite N.leb_le. reflexivity.
  - intros a b. rewrite !N.leb_le. lia.
  - intros a b c. rewrite !N.leb_le. lia.
Qed.

Lemma sorted_nth_count key s : forall n x v,
  sorted key s -> nth_error s n = Some x -> key x <= v ->
  (n < length (filter (fun c => (key c <=? v)%N) s))%nat.
Proof.
  induction s as [| y r IH]; intros [| n] x v S E L; cbn in *; try discriminate.
  - inversion E; subst. assert (H : (key x <=? v) = true) by (apply N.leb_le; exact L). rewrite H. cbn. lia.
  - destruct S as (F & S). assert (In x r) by (eapply nth_error_In; eauto).
    rewrite Forall_forall in F. specialize (F _ H).
    assert (H' : (key y <=? v) = true) by (apply N.leb_le; lia). rewrite H'. cbn.
    specialize (IH n x v S E L). lia.
Qed.
