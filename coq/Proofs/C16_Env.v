(* The Signable envelope of Model.C16_Env. Decoding looks at the first byte only and then slices without ever
   failing, so encode after decode is the identity on whatever decodes, and decode after encode is the identity
   when the two fixed-width fields have their widths (env_wf): otherwise the slices fall elsewhere. *)
From Coq Require Import List Lia.
From Coq.Strings Require Import Byte.
From LV Require Import Lib.Bytes Lib.Lists Model.C16_Env.
Import ListNotations.

Lemma env_roundtrip e : env_wf e -> env_decode (env_encode e) = EnvOk e.
Proof.
  destruct e as [p | h s p]; [reflexivity|]. intros [Hh Hs]. cbn [env_encode env_decode].
  change (byte_eqb x01 x00) with false. change (byte_eqb x01 x01) with true. cbn iota.
  rewrite (firstn_app_exact' 20 h (s ++ p)), (skipn_app_exact' 20 h (s ++ p)), (firstn_app_exact' 64 s p) by auto.
  replace 84%nat with (length (h ++ s)) by (rewrite app_length; lia).
  rewrite app_assoc, skipn_app_exact. reflexivity.
Qed.

Lemma env_decode_empty : env_decode [] = EnvEmpty.
Proof. reflexivity. Qed.

Lemma env_signed_slices r : env_encode (Signed (firstn 20 r) (firstn 64 (skipn 20 r)) (skipn 84 r)) = x01 :: r.
Proof.
  cbn [env_encode]. f_equal. replace (skipn 84 r) with (skipn 64 (skipn 20 r)) by apply skipn_skipn.
  rewrite (firstn_skipn 64 (skipn 20 r)). apply firstn_skipn.
Qed.

Lemma env_decode_encode d e : env_decode d = EnvOk e -> env_encode e = d.
Proof.
  destruct d as [|b r]; [discriminate|]. unfold env_decode.
  destruct (byte_eqb_spec b x00) as [-> | _]; [intros [= <-]; reflexivity|].
  destruct (byte_eqb_spec b x01) as [-> | _]; [|discriminate]. intro H. rewrite <- (env_signed_slices r). congruence.
Qed.

Lemma env_rejects_version b r : b <> x00 -> b <> x01 -> env_decode (b :: r) = EnvVersion.
Proof.
  intros H0 H1. cbn [env_decode]. destruct (byte_eqb_spec b x00), (byte_eqb_spec b x01); try contradiction. reflexivity.
Qed.

Lemma env_accepts_iff d : (exists e, env_decode d = EnvOk e) <-> (exists r, d = x00 :: r \/ d = x01 :: r).
Proof.
  split.
  - intros [e H]. apply env_decode_encode in H as <-. destruct e; eexists; [left | right]; reflexivity.
  - intros [r [-> | ->]]; eexists; reflexivity.
Qed.

Lemma env_encode_inj e1 e2 : env_wf e1 -> env_wf e2 -> env_encode e1 = env_encode e2 -> e1 = e2.
Proof.
  intros W1 W2 H. pose proof (env_roundtrip e1 W1) as R1. rewrite H, (env_roundtrip e2 W2) in R1. congruence.
Qed.

Lemma env_payload_roundtrip e : env_wf e ->
  match env_decode (env_encode e) with EnvOk e' => env_payload e' = env_payload e | _ => False end.
Proof. intro W. rewrite env_roundtrip by exact W. reflexivity. Qed.

(* Claim.from_bytes picks the current decoder exactly when the envelope is accepted *)
Lemma claim_format_v2_iff d : claim_format d = FmtV2 <-> exists e, env_decode d = EnvOk e.
Proof.
  rewrite env_accepts_iff. split; [|intros [r [-> | ->]]; reflexivity].
  destruct d as [|b r]; [discriminate|]. cbn [claim_format].
  destruct (byte_eqb_spec b x00) as [-> |]; [eauto|]. destruct (byte_eqb_spec b x01) as [-> |]; [eauto|].
  destruct (byte_eqb b x7b); discriminate.
Qed.

Lemma claim_format_encode e : claim_format (env_encode e) = FmtV2.
Proof. destruct e; reflexivity. Qed.

Lemma purchase_roundtrip p : purchase_decode (purchase_encode p) = Some p.
Proof. reflexivity. Qed.

Lemma purchase_decode_encode d p : purchase_decode d = Some p -> purchase_encode p = d.
Proof.
  destruct d as [|b r]; [discriminate|]. cbn [purchase_decode].
  destruct (byte_eqb_spec b x50) as [-> | _]; [intros [= <-]; reflexivity | discriminate].
Qed.

Lemma purchase_rejects d : (forall r, d <> x50 :: r) -> purchase_decode d = None.
Proof.
  intro H. destruct (purchase_decode d) as [p|] eqn:E; [|reflexivity].
  apply purchase_decode_encode in E. destruct (H p). symmetry. exact E.
Qed.

Lemma ex_env_wf : env_wf (Signed (repeat x07 20) (repeat x05 64) [x0a; x00]).
Proof. split; reflexivity. Qed.
