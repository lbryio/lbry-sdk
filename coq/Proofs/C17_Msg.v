(* A well-formed message is a well-formed value (wfv_value_of_message), so its round trip and the
   rejection of each of its proper prefixes are instances of bdecode_benc and bdecode_prefix of C17_Prefix. *)
From Coq Require Import String.
From Coq Require Import ZArith List Bool Lia.
From Coq.Strings Require Import Byte.
From LV Require Import Lib.Bytes Lib.Decimal Model.C17 Proofs.C17_Int Proofs.C17_Bencode Proofs.C17_Prefix.
Import ListNotations.
Local Open Scope N_scope.

Definition request_ok (r : request) : Prop :=
  match r with
  | Ping => True
  | Store h t p => small h /\ small t /\ int_ok p
  | FindNode k => small k
  | FindValue k page => small k /\ int_ok page
  end.

(* ids of the fixed lengths; every other byte string shorter than 10^4300 bytes and every integer of at
   most 4300 digits (Python cannot print or read longer ones); error texts valid UTF-8 (they are str
   objects in the class); the response payload any value the codec reads back (see [wfv]) *)
Definition wf_message (m : message) : Prop :=
  match m with
  | Request rpc node r => blen rpc = 20 /\ blen node = 48 /\ request_ok r
  | Response rpc node p => blen rpc = 20 /\ blen node = 48 /\ wfv p
  | Error rpc node et tx => blen rpc = 20 /\ blen node = 48 /\ small et /\ small tx
                            /\ utf8_valid et = true /\ utf8_valid tx = true
  end.

Definition raw_rpc (m : rawmsg) : bytes := match m with RReq r _ _ _ | RResp r _ _ | RErr r _ _ _ => r end.
Definition raw_node (m : rawmsg) : bytes := match m with RReq _ n _ _ | RResp _ n _ | RErr _ n _ _ => n end.

Lemma small_lit s : blen s < 65536 -> small s.
Proof. intro H. unfold small. pose proof NBOUND_big. lia. Qed.

Lemma int_ok_small z : (Z.abs z < 65536)%Z -> int_ok z.
Proof. intro H. unfold int_ok. pose proof NBOUND_big. lia. Qed.

(* The dictionaries of the protocol are written out item by item: [items] splits a [Forall] over such a list,
   and what is left at the leaves are hypotheses, or constants far below the limits, which evaluate. *)
Ltac items :=
  repeat match goal with
         | |- Forall _ (_ :: _) => apply Forall_cons
         | |- Forall _ [] => apply Forall_nil
         end; cbn [fst snd key_ok PV PAGE_KEY].

Create HintDb wfv discriminated.
#[local] Hint Resolve conj wfv_int wfv_str : wfv.
#[local] Hint Extern 1 (int_ok _) => apply int_ok_small; reflexivity : wfv.
#[local] Hint Extern 1 (small _) => apply small_lit; reflexivity : wfv.

Ltac record := apply wfv_dict; [items; auto with wfv | reflexivity | repeat constructor].

Lemma wfv_pv_dict : wfv pv_dict.
Proof. record. Qed.
#[local] Hint Resolve wfv_pv_dict : wfv.

Lemma wfv_args node r : small node -> request_ok r -> wfv (BList (args_of node r)).
Proof.
  intros Hn Hr. apply wfv_list.
  destruct r as [|h t p|k|k page]; cbn [args_of request_ok] in *; items; intuition (auto with wfv).
  record.
Qed.

Lemma wfv_value_of_message m : wf_message m -> wfv (value_of_message m).
Proof.
  destruct m as [rpc node r|rpc node p|rpc node et tx]; cbn [wf_message value_of_message]; intros (Hr & Hn & Hq);
    assert (Sr : small rpc) by (apply small_lit; rewrite Hr; reflexivity);
    assert (Sn : small node) by (apply small_lit; rewrite Hn; reflexivity).
  - assert (Sm : small (method_of r)) by (destruct r; apply small_lit; reflexivity).
    pose proof (wfv_args node r Sn Hq). record.
  - record.
  - destruct Hq as (He & Ht & _). record.
Qed.

Lemma fields5 a b c d e :
  let cv := converted [(BInt 0, a); (BInt 1, b); (BInt 2, c); (BInt 3, d); (BInt 4, e)] in
  field cv 0 = Some a /\ field cv 1 = Some b /\ field cv 2 = Some c /\ field cv 3 = Some d /\ field cv 4 = Some e.
Proof. vm_compute. repeat split. Qed.

Lemma fields4 a b c d :
  let cv := converted [(BInt 0, a); (BInt 1, b); (BInt 2, c); (BInt 3, d)] in
  field cv 0 = Some a /\ field cv 1 = Some b /\ field cv 2 = Some c /\ field cv 3 = Some d /\ field cv 4 = None.
Proof. vm_compute. repeat split. Qed.

Lemma norm_args_of node r : norm_args (Some (BList (args_of node r))) = Ok (BList (args_of node r)).
Proof. destruct r; reflexivity. Qed.

Lemma check_ids_ok rpc node : blen rpc = 20 -> blen node = 48 -> check_ids (BStr rpc) (BStr node) = Ok (rpc, node).
Proof. intros H1 H2. unfold check_ids. rewrite H1, H2. reflexivity. Qed.

Definition message_depth (m : message) : nat := depth_of (value_of_message m).

Definition round_trips (fuel : nat) (m : message) : Prop :=
  decode_datagram fuel (encode_message m) = inl (raw_of_message m).

Theorem decode_encode_message fuel m : wf_message m -> (message_depth m <= fuel)%nat -> round_trips fuel m.
Proof.
  intros Hw Hf. pose proof (wfv_value_of_message m Hw) as Hq.
  unfold round_trips, decode_datagram, encode_message, message_depth in *.
  destruct m as [rpc node r|rpc node p|rpc node et tx]; cbn [wf_message value_of_message raw_of_message] in *;
    destruct Hw as (Hr & Hn & Hw); rewrite bdecode_benc by assumption; cbv zeta.
  - destruct (fields5 (BInt 0) (BStr rpc) (BStr node) (BStr (method_of r)) (BList (args_of node r)))
      as (F0 & F1 & F2 & F3 & F4).
    rewrite F0. unfold build_request. rewrite F1, F2, F3, F4, check_ids_ok, norm_args_of by assumption. reflexivity.
  - destruct (fields4 (BInt 1) (BStr rpc) (BStr node) p) as (F0 & F1 & F2 & F3 & _).
    rewrite F0. unfold build_response. rewrite F1, F2, F3, check_ids_ok by assumption. reflexivity.
  - destruct Hw as (_ & _ & He & Ht).
    destruct (fields5 (BInt 2) (BStr rpc) (BStr node) (BStr et) (BStr tx)) as (F0 & F1 & F2 & F3 & F4).
    rewrite F0. unfold build_error. rewrite F1, F2, F3, F4, check_ids_ok by assumption.
    cbn [py_decode_utf8]. rewrite He, Ht. reflexivity.
Qed.

Theorem truncated_message_rejected fuel m k :
  wf_message m -> (message_depth m <= fuel)%nat -> (k < length (encode_message m))%nat ->
  exists e, decode_datagram fuel (firstn k (encode_message m)) = inr e.
Proof.
  intros Hw Hf Hk. pose proof (wfv_value_of_message m Hw) as Hq.
  unfold message_depth, encode_message, decode_datagram in *.
  assert (Hne : skipn k (benc (value_of_message m)) <> []).
  { intro E. apply (f_equal (@length byte)) in E. rewrite skipn_length in E. simpl in E. lia. }
  pose proof (firstn_skipn k (benc (value_of_message m))) as Hsplit.
  destruct m; cbn [value_of_message] in *;
    (edestruct bdecode_prefix as [e ->]; [exact Hq | exact Hf | exact Hsplit | exact Hne |]; exists e; reflexivity).
Qed.

Corollary last_byte_cut_rejected fuel m :
  wf_message m -> (message_depth m <= fuel)%nat ->
  exists e, decode_datagram fuel (removelast (encode_message m)) = inr e.
Proof.
  intros Hw Hf. rewrite removelast_firstn_len. apply truncated_message_rejected; [exact Hw | exact Hf |].
  unfold encode_message. pose proof (benc_length_pos (value_of_message m)). lia.
Qed.

(* instances of the round trip: the nesting that requests, errors and the node's response shapes need *)
Lemma request_roundtrip fuel rpc node r :
  blen rpc = 20 -> blen node = 48 -> request_ok r -> (4 <= fuel)%nat -> round_trips fuel (Request rpc node r).
Proof.
  intros H1 H2 H3 H4. apply (decode_encode_message fuel (Request rpc node r)); [cbn; auto|].
  destruct r; exact H4.
Qed.

Lemma error_roundtrip fuel rpc node et tx :
  blen rpc = 20 -> blen node = 48 -> small et -> small tx -> utf8_valid et = true -> utf8_valid tx = true ->
  (2 <= fuel)%nat -> round_trips fuel (Error rpc node et tx).
Proof. intros H1 H2 H3 H4 H5 H6 H7. apply (decode_encode_message fuel (Error rpc node et tx)); [cbn; auto 10 | exact H7]. Qed.

Lemma response_roundtrip fuel rpc node p n :
  blen rpc = 20 -> blen node = 48 -> wfv p -> (depth_of p <= n)%nat -> (S n <= fuel)%nat ->
  round_trips fuel (Response rpc node p).
Proof.
  intros H1 H2 H3 H4 H5. apply (decode_encode_message fuel (Response rpc node p)); [cbn; auto|].
  unfold message_depth. pose proof (depth_of_pos p). cbn [value_of_message depth_of fold_right]. lia.
Qed.

Definition contact_ok (c : bytes * bytes * Z) : Prop :=
  match c with (id, addr, port) => small id /\ small addr /\ int_ok port end.

Lemma contacts_roundtrip fuel rpc node (l : list (bytes * bytes * Z)) :
  blen rpc = 20 -> blen node = 48 -> Forall contact_ok l -> (4 <= fuel)%nat ->
  round_trips fuel (Response rpc node (contacts_val l)).
Proof.
  intros H1 H2 H3 H4. apply (response_roundtrip fuel rpc node _ 3 H1 H2); [| |exact H4].
  - apply wfv_list, Forall_map. eapply Forall_impl; [|exact H3]. intros [[id addr] port] (Hi & Ha & Hp).
    apply wfv_list. repeat constructor; assumption.
  - apply depth_list_le, Forall_map, Forall_forall. intros [[id addr] port] _. exact (le_n 2).
Qed.

Lemma peers_roundtrip fuel rpc node (l : list bytes) :
  blen rpc = 20 -> blen node = 48 -> Forall small l -> (3 <= fuel)%nat ->
  round_trips fuel (Response rpc node (peers_val l)).
Proof.
  intros H1 H2 H3 H4. apply (response_roundtrip fuel rpc node _ 2 H1 H2); [| |exact H4].
  - apply wfv_list, Forall_map. eapply Forall_impl; [|exact H3]. apply wfv_str.
  - apply depth_list_le, Forall_map, Forall_forall. intros s _. exact (le_n 1).
Qed.

Section BvalInd.
  Variable P : bval -> Prop.
  Hypothesis HI : forall z, P (BInt z).
  Hypothesis HS : forall s, P (BStr s).
  Hypothesis HL : forall l, Forall P l -> P (BList l).
  Hypothesis HD : forall d, Forall (fun p => P (fst p) /\ P (snd p)) d -> P (BDict d).

  Fixpoint bval_deep_ind (v : bval) : P v :=
    match v with
    | BInt z => HI z
    | BStr s => HS s
    | BList l =>
        HL l ((fix go (l : list bval) : Forall P l :=
                 match l with
                 | [] => Forall_nil _
                 | x :: r => Forall_cons x (bval_deep_ind x) (go r)
                 end) l)
    | BDict d =>
        HD d ((fix go (d : list (bval * bval)) : Forall (fun p => P (fst p) /\ P (snd p)) d :=
                 match d with
                 | [] => Forall_nil _
                 | (k, x) :: r => Forall_cons (k, x) (conj (bval_deep_ind k) (bval_deep_ind x)) (go r)
                 end) d)
    end.
End BvalInd.

(* every dictionary, at every level, lists its keys in key order *)
Inductive canonical : bval -> Prop :=
| can_int z : canonical (BInt z)
| can_str s : canonical (BStr s)
| can_list l : Forall canonical l -> canonical (BList l)
| can_dict d : Forall (fun p => canonical (fst p) /\ canonical (snd p)) d -> keys_sorted d = true ->
               canonical (BDict d).

Lemma ref_benc_BList l : ref_benc (BList l) = [c_l] ++ concat (map ref_benc l) ++ [c_e].
Proof.
  cbn [ref_benc]. do 2 f_equal.
  induction l as [|x r IH]; [reflexivity|]. cbn [map concat]. rewrite <- IH. reflexivity.
Qed.

Lemma ref_benc_BDict d :
  ref_benc (BDict d) = [c_d] ++ concat (map (fun p => ref_benc (fst p) ++ ref_benc (snd p)) d) ++ [c_e].
Proof.
  cbn [ref_benc]. do 2 f_equal.
  induction d as [|[k x] r IH]; [reflexivity|]. cbn [map concat fst snd]. rewrite <- IH.
  rewrite <- app_assoc. reflexivity.
Qed.

Theorem benc_ref v : canonical v -> benc v = ref_benc v.
Proof.
  induction v as [z|s|l IHl|d IHd] using bval_deep_ind; intro Hc; [reflexivity | reflexivity | |].
  - inversion Hc as [| |l' Hl|]; subst. rewrite benc_BList, ref_benc_BList. cbn [app]. do 3 f_equal.
    apply map_ext_in. intros x Hx. rewrite Forall_forall in IHl, Hl. auto.
  - inversion Hc as [| | |d' Hd Hs]; subst. rewrite (benc_BDict d Hs), ref_benc_BDict. cbn [app]. unfold benc_kv. do 3 f_equal.
    apply map_ext_in. intros p Hp. rewrite Forall_forall in IHd, Hd.
    destruct (IHd p Hp) as [Ik Ix]. destruct (Hd p Hp) as [Ck Cx]. rewrite Ik, Ix by assumption. reflexivity.
Qed.

Lemma wfv_canonical v : wfv v -> canonical v.
Proof.
  induction v as [z|s|l IHl|d IHd] using bval_deep_ind; intro Hw; [constructor | constructor | |].
  - inversion Hw as [| |l' Hl|]; subst. constructor. rewrite Forall_forall in *. auto.
  - inversion Hw as [| | |d' Hd Hs _]; subst. constructor; [|exact Hs]. rewrite Forall_forall in *. intros p Hp.
    destruct (IHd p Hp) as [Ik Ix]. destruct (Hd p Hp) as [Hk Hx]. auto using key_ok_wfv.
Qed.

Theorem encode_message_ref m : wf_message m -> encode_message m = ref_benc (value_of_message m).
Proof. intro H. apply benc_ref, wfv_canonical, wfv_value_of_message, H. Qed.

(* the wire layout of two requests, byte for byte: the encoding in front of an empty tail, nested to the right
   where a variable string stands; once the lengths of the ids are put in, both sides evaluate to the same bytes
   around rpc, node and key *)
Lemma ping_layout rpc node : blen rpc = 20 -> blen node = 48 ->
  encode_message (Request rpc node Ping)
  = lit "di0ei0ei1e20:" ++ rpc ++ lit "i2e48:" ++ node ++ lit "i3e4:pingi4eld15:protocolVersioni1eeee".
Proof.
  intros Hr Hn. unfold encode_message. rewrite <- (app_nil_r (benc _)). cbn [value_of_message].
  rewrite benc_BDict_app by reflexivity. cbn [fold_right fst snd].
  rewrite !benc_BStr_app, Hr, Hn. vm_compute. reflexivity.
Qed.

Lemma find_node_layout rpc node key : blen rpc = 20 -> blen node = 48 -> blen key = 48 ->
  encode_message (Request rpc node (FindNode key))
  = lit "di0ei0ei1e20:" ++ rpc ++ lit "i2e48:" ++ node ++ lit "i3e8:findNodei4el48:" ++ key
    ++ lit "d15:protocolVersioni1eeee".
Proof.
  intros Hr Hn Hk. unfold encode_message. rewrite <- (app_nil_r (benc _)). cbn [value_of_message args_of].
  rewrite benc_BDict_app by reflexivity. cbn [fold_right fst snd]. rewrite benc_BList_app. cbn [fold_right].
  rewrite !benc_BStr_app, Hr, Hn, Hk. vm_compute. reflexivity.
Qed.

Lemma split_on_none c s : Forall (fun b => isb c b = false) s -> split_on c s = [s].
Proof.
  induction 1 as [|b r Hb Hr IH]; [reflexivity|]. cbn [split_on]. rewrite Hb, IH. reflexivity.
Qed.

Lemma split_on_app c a x rest :
  Forall (fun b => isb c b = false) a -> isb c x = true ->
  split_on c (a ++ x :: rest) = a :: split_on c rest.
Proof.
  intros Ha Hx. induction Ha as [|b r Hb Hr IH]; cbn [app split_on].
  - rewrite Hx. reflexivity.
  - rewrite Hb, IH. reflexivity.
Qed.

Lemma split_dotted a b c d :
  split_on 46 (dotted a b c d) = map (fun x => dec_of_N (N_of_byte x)) [a; b; c; d].
Proof.
  unfold dotted.
  rewrite !split_on_app, split_on_none by ((apply dec_of_N_no; lia) || (apply isb_c; reflexivity)).
  reflexivity.
Qed.

Lemma octets_dec l : octets (map (fun x => dec_of_N (N_of_byte x)) l) = Some l.
Proof.
  induction l as [|a l IH]; [reflexivity|]. cbn [map octets]. pose proof (N_of_byte_lt a) as Ha.
  rewrite py_int_dec_of_N, IH by (pose proof NBOUND_big; lia).
  replace ((0 <=? Z.of_N (N_of_byte a)) && (Z.of_N (N_of_byte a) <? 256))%Z with true
    by (symmetry; apply andb_true_iff; split; [apply Z.leb_le | apply Z.ltb_lt]; lia).
  rewrite N2Z.id, byte_of_N_of_byte. reflexivity.
Qed.

Lemma make_compact_ip_dotted a b c d : make_compact_ip (dotted a b c d) = Ok [a; b; c; d].
Proof. unfold make_compact_ip. rewrite split_dotted, octets_dec. reflexivity. Qed.

Theorem compact_address_roundtrip node a b c d port :
  blen node = 48 -> (0 < port < 65536)%Z ->
  make_compact_address node (dotted a b c d) port = Ok ([a; b; c; d] ++ be_encode 2 (Z.to_N port) ++ node)
  /\ decode_compact_address ([a; b; c; d] ++ be_encode 2 (Z.to_N port) ++ node) = Ok (node, dotted a b c d, port).
Proof.
  intros Hn Hp.
  assert (Hpo : port_ok port = true).
  { unfold port_ok. apply andb_true_iff. split; apply Z.ltb_lt; lia. }
  split.
  - unfold make_compact_address. rewrite make_compact_ip_dotted, Hpo, Hn. reflexivity.
  - cbn [app decode_compact_address].
    rewrite (firstn_app_exact' 2 (be_encode 2 (Z.to_N port)) node), (skipn_app_exact' 2 (be_encode 2 (Z.to_N port)) node)
      by (rewrite be_encode_length; reflexivity).
    rewrite be_decode_encode by (change (256 ^ N.of_nat 2) with 65536; lia).
    rewrite Z2N.id by lia. rewrite Hpo, Hn. reflexivity.
Qed.

Theorem compact_address_decode_make ca node addr port :
  decode_compact_address ca = Ok (node, addr, port) -> make_compact_address node addr port = Ok ca.
Proof.
  unfold decode_compact_address.
  destruct ca as [|a [|b [|c [|d r]]]]; try discriminate.
  remember (firstn 2 r) as f eqn:Ef. remember (skipn 2 r) as sk eqn:Esk.
  destruct (port_ok (Z.of_N (be_decode f))) eqn:Hp; cbn [negb]; [|discriminate].
  destruct (blen sk =? HASH_LENGTH) eqn:Hl; cbn [negb]; [|discriminate].
  intro H. injection H as H1 H2 H3. subst node addr port.
  unfold make_compact_address. rewrite make_compact_ip_dotted, Hp, Hl. cbn [negb].
  rewrite N2Z.id.
  assert (Hr : (2 <= length r)%nat).
  { apply N.eqb_eq in Hl. unfold blen, HASH_LENGTH in Hl. subst sk. rewrite skipn_length in Hl. lia. }
  assert (Hf : length f = 2%nat) by (subst f; rewrite firstn_length; lia).
  rewrite <- Hf at 1. rewrite be_encode_decode.
  subst f sk. cbn [app]. rewrite firstn_skipn. reflexivity.
Qed.

(* what dropped datagrams do to the node: a failure recorded for each sender, the newest first, and nothing else *)
Definition dropped {Routing Store Other Addr} (st st' : node_state Routing Store Other Addr) (senders : list Addr) : Prop :=
  routing _ _ _ _ st' = routing _ _ _ _ st /\ store _ _ _ _ st' = store _ _ _ _ st
  /\ other _ _ _ _ st' = other _ _ _ _ st /\ failures _ _ _ _ st' = rev senders ++ failures _ _ _ _ st.

Lemma dropped_trans {Routing Store Other Addr} (st st' st'' : node_state Routing Store Other Addr) a b :
  dropped st st' a -> dropped st' st'' b -> dropped st st'' (a ++ b).
Proof.
  intros (R1 & S1 & O1 & F1) (R2 & S2 & O2 & F2). unfold dropped.
  rewrite R2, S2, O2, F2, R1, S1, O1, F1, rev_app_distr, app_assoc. repeat split.
Qed.

Section HandlerFacts.
  Variables Routing Store Other Addr : Type.
  Variable process : node_state Routing Store Other Addr -> Addr -> rawmsg -> node_state Routing Store Other Addr.
  Let recv := datagram_received Routing Store Other Addr process.
  Let recv_all := receive_all Routing Store Other Addr process.

  Lemma garbage_dropped fuel st sender data e :
    decode_datagram fuel data = inr e -> dropped st (recv fuel st sender data) [sender].
  Proof. intro H. unfold dropped, recv, datagram_received. rewrite H. cbn. repeat split. Qed.

  Lemma garbage_sequence_dropped fuel l : forall st,
    Forall (fun p => exists e, decode_datagram fuel (snd p) = inr e) l -> dropped st (recv_all fuel st l) (map fst l).
  Proof.
    induction l as [|[a d] r IH]; intros st H; [repeat split|].
    inversion H as [|? ? [e He] Hr]; subst.
    exact (dropped_trans _ _ _ [a] _ (garbage_dropped fuel st a d e He) (IH _ Hr)).
  Qed.

  Lemma decoded_handed_on fuel st sender data m :
    decode_datagram fuel data = inl m -> recv fuel st sender data = process st sender m.
  Proof. intro H. unfold recv, datagram_received. rewrite H. reflexivity. Qed.
End HandlerFacts.
