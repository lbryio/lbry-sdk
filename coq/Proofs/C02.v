From Coq Require Import NArith ZArith List Bool Lia.
From Coq.Strings Require Import Byte.
From LV Require Lib.Hex.
From LV Require Import Lib.Bytes Lib.Lists Lib.Decimal Model.C02.
Import ListNotations.

Lemma unhex_hex b : unhex (hex b) = Some b.
Proof. exact (Hex.unhexlify_hexlify b). Qed.

Lemma hex_inj a b : hex a = hex b -> a = b.
Proof. exact (Hex.hexlify_inj a b). Qed.

Lemma hex_length b : length (hex b) = (2 * length b)%nat.
Proof. exact (Hex.hexlify_length b). Qed.

Lemma hex_app a b : hex (a ++ b) = hex a ++ hex b.
Proof. induction a; simpl; congruence. Qed.

Lemma hex_rng b : Forall (fun c => (48 <= N_of_byte c <= 57 \/ 97 <= N_of_byte c <= 102)%N) (hex b).
Proof.
  apply Hex.hexlify_Forall. intros n Hn. rewrite Hex.hex_digit_code by exact Hn. destruct (N.ltb_spec n 10); lia.
Qed.

Lemma hex_ascii b : forallb (fun c => (N_of_byte c <? 128)%N) (hex b) = true.
Proof.
  apply forallb_forall. intros c Hc. apply N.ltb_lt.
  pose proof (proj1 (Forall_forall _ _) (hex_rng b) c Hc) as Hr. cbv beta in Hr. lia.
Qed.

Lemma dec_of_Z_nonempty z : dec_of_Z z <> [].
Proof. destruct z; simpl; try apply dec_of_N_nonempty. discriminate. Qed.

(* split_fuel relates a file to its pieces by two rules; what holds of the pieces is proved through them *)
Lemma split_fuel_ind (P : bytes -> list bytes -> Prop) c : (0 < c)%nat -> P [] [] ->
  (forall f l, f <> [] -> P (skipn c f) l -> P f (firstn c f :: l)) ->
  forall fuel f, (length f <= fuel)%nat -> P f (split_fuel fuel c f).
Proof.
  intros Hc P0 PS. induction fuel as [|k IH]; intros [|x r] Hf; try exact P0; [simpl in Hf; lia|].
  cbn [split_fuel]. destruct (Nat.eqb_spec c 0); [lia|].
  apply PS; [discriminate|]. apply IH. rewrite skipn_length. cbn [length] in Hf |- *. lia.
Qed.

(* the sizes of the pieces of n bytes cut every c *)
Definition piece_sizes (c n : nat) : list nat :=
  repeat c (n / c) ++ (if Nat.eqb (n mod c) 0 then [] else [(n mod c)%nat]).

Lemma piece_sizes_step c n : (0 < c)%nat -> (0 < n)%nat -> piece_sizes c n = Nat.min c n :: piece_sizes c (n - c).
Proof.
  intros Hc Hn. unfold piece_sizes. destruct (Nat.lt_ge_cases n c) as [Hlt | Hge].
  - rewrite Nat.min_r by lia. replace (n - c)%nat with 0%nat by lia.
    rewrite Nat.div_0_l, Nat.mod_0_l, Nat.div_small, Nat.mod_small by lia.
    destruct (Nat.eqb_spec n 0); [lia | reflexivity].
  - pose proof (Nat.div_add (n - c) 1 c ltac:(lia)) as Hd. pose proof (Nat.mod_add (n - c) 1 c ltac:(lia)) as Hm.
    replace (n - c + 1 * c)%nat with n in Hd, Hm by lia. rewrite Nat.min_l, Hd, Hm, Nat.add_1_r by lia. reflexivity.
Qed.

Section Split.
  Variable maxb : nat.
  Notation split := (split maxb).
  Notation psz := (maxb - 1)%nat.

  Lemma split_ind (P : bytes -> list bytes -> Prop) : (2 <= maxb)%nat -> P [] [] ->
    (forall f l, f <> [] -> P (skipn psz f) l -> P f (firstn psz f :: l)) -> forall f, P f (split f).
  Proof. intros Hm P0 PS f. unfold C02.split. apply split_fuel_ind; auto; lia. Qed.

  Lemma split_concat f : (2 <= maxb)%nat -> concat (split f) = f.
  Proof.
    intro Hm. apply (split_ind (fun f l => concat l = f)); [exact Hm | reflexivity|].
    intros g l _ Hl. cbn [concat]. rewrite Hl. apply firstn_skipn.
  Qed.

  Lemma split_piece_size f p : (2 <= maxb)%nat -> In p (split f) -> (1 <= length p <= maxb - 1)%nat.
  Proof.
    intro Hm. revert p. apply (split_ind (fun f l => forall p, In p l -> (1 <= length p <= psz)%nat)); [exact Hm | contradiction|].
    intros [|x g] l Hg IH p [<- | Hin]; [contradiction | | |]; auto. rewrite firstn_length. cbn [length]. lia.
  Qed.

  Lemma split_lengths f : (2 <= maxb)%nat -> map (@length byte) (split f) = piece_sizes (maxb - 1) (length f).
  Proof.
    intro Hm. apply (split_ind (fun f l => map (@length byte) l = piece_sizes psz (length f))); [exact Hm | |].
    - unfold piece_sizes. cbn [length]. rewrite Nat.div_0_l, Nat.mod_0_l by lia. reflexivity.
    - intros [|x g] l Hg Hl; [contradiction|]. cbn [map]. rewrite Hl, skipn_length, firstn_length.
      symmetry. apply piece_sizes_step; cbn [length]; lia.
  Qed.

  Lemma split_fuel_enough fuel f : (2 <= maxb)%nat -> (length f <= fuel)%nat -> split_fuel fuel psz f = split f.
  Proof.
    intro Hm. revert fuel. apply (split_ind (fun f l => forall fuel, (length f <= fuel)%nat -> split_fuel fuel psz f = l));
      [exact Hm | destruct fuel; reflexivity|].
    intros [|x g] l Hg IH [|k] Hk; [contradiction | contradiction | simpl in Hk; lia|].
    cbn [split_fuel]. destruct (Nat.eqb_spec psz 0); [lia|]. f_equal.
    apply IH. rewrite skipn_length. cbn [length] in Hk |- *. lia.
  Qed.

  Lemma split_step f : (2 <= maxb)%nat -> f <> [] -> split f = firstn psz f :: split (skipn psz f).
  Proof.
    intros Hm Hf. destruct f as [|x r]; [contradiction|]. unfold C02.split at 1. cbn [length split_fuel].
    destruct (Nat.eqb_spec psz 0); [lia|]. f_equal.
    apply split_fuel_enough; [exact Hm|]. rewrite skipn_length. cbn [length]. lia.
  Qed.

  Lemma split_count f : (2 <= maxb)%nat -> length (split f) = ((length f + (maxb - 1) - 1) / (maxb - 1))%nat.
  Proof.
    intro Hm. rewrite <- (map_length (@length byte)), split_lengths by exact Hm. unfold piece_sizes.
    rewrite app_length, repeat_length.
    pose proof (Nat.div_mod (length f) psz ltac:(lia)) as Hdm.
    pose proof (Nat.mod_upper_bound (length f) psz ltac:(lia)) as Hub.
    destruct (Nat.eqb_spec (length f mod psz) 0) as [Hr | Hr]; cbn [length];
      [apply (Nat.div_unique _ _ _ (psz - 1)) | apply (Nat.div_unique _ _ _ (length f mod psz - 1))]; nia.
  Qed.

  Lemma split_nonempty f : (2 <= maxb)%nat -> f <> [] -> split f <> [].
  Proof.
    intros Hm Hf E0. pose proof (split_concat f Hm) as Hc. rewrite E0 in Hc. simpl in Hc. congruence.
  Qed.

  Lemma save_loop_spec : forall ps acc k,
    save_loop acc ps k = if Nat.leb k (length ps) then None else Some (acc ++ concat ps).
  Proof.
    induction ps as [|p r IH]; intros acc k.
    - destruct k; cbn; [reflexivity | rewrite app_nil_r; reflexivity].
    - destruct k as [|k]; [reflexivity|]. cbn [save_loop length concat Nat.leb].
      rewrite IH, <- app_assoc. reflexivity.
  Qed.

  (* a cancelled save leaves no file or the whole file, never a prefix *)
  Theorem cancelled_save f k : (2 <= maxb)%nat ->
    (save_loop [] (split f) k = None /\ (k <= length (split f))%nat) \/
    (save_loop [] (split f) k = Some f /\ (length (split f) < k)%nat).
  Proof.
    intro Hm. rewrite save_loop_spec. cbn [app]. rewrite split_concat by exact Hm.
    destruct (Nat.leb_spec k (length (split f))); [left | right]; split; auto.
  Qed.

  Lemma skipn_split : (2 <= maxb)%nat -> forall q f, skipn q (split f) = split (skipn (q * psz) f).
  Proof.
    intros Hm. induction q as [|q IH]; intro f; [reflexivity|].
    destruct f as [|x r]; [cbn; rewrite skipn_nil; reflexivity|].
    rewrite split_step by (exact Hm || discriminate). cbn [skipn]. rewrite IH, skipn_skipn.
    f_equal. f_equal. lia.
  Qed.

  (* 'bytes=start-' serves the file from offset start *)
  Theorem range_read_correct f start : (2 <= maxb)%nat -> range_read maxb (split f) start = skipn start f.
  Proof.
    intro Hm. unfold range_read, range_plan. rewrite skipn_split by exact Hm. rewrite split_concat by exact Hm.
    rewrite skipn_skipn. f_equal.
    pose proof (Nat.div_mod start psz ltac:(lia)). lia.
  Qed.

End Split.

(* every ciphertext fits a blob when 16 divides MAX_BLOB_SIZE (2^21 does) *)
Lemma ciphertext_bound maxb (E : bytes -> bytes -> bytes -> bytes) k iv p :
  (forall k iv p, length (E k iv p) = (16 * (length p / 16 + 1))%nat) -> (2 <= maxb)%nat -> (maxb mod 16 = 0)%nat -> (1 <= length p <= maxb - 1)%nat ->
  (16 <= length (E k iv p) <= maxb)%nat.
Proof.
  intros HE Hm H16 Hp. rewrite HE.
  pose proof (Nat.div_mod maxb 16 ltac:(lia)) as Hdm. rewrite H16 in Hdm.
  pose proof (Nat.div_mod (length p) 16 ltac:(lia)).
  pose proof (Nat.mod_upper_bound (length p) 16 ltac:(lia)).
  split; [lia|].
  assert (length p / 16 < maxb / 16)%nat; [|lia].
  apply Nat.div_lt_upper_bound; lia.
Qed.

(* the ciphertext lengths of the pieces, in N arithmetic (what the harness compares on true 2 MiB runs) *)
Lemma ct_len_of_nat n : N.of_nat (16 * (n / 16 + 1)) = ct_len (N.of_nat n).
Proof.
  unfold ct_len. rewrite Nat2N.inj_mul, Nat2N.inj_add, Nat2N.inj_div. reflexivity.
Qed.

Lemma expected_lengths_sizes maxb n : (2 <= maxb)%nat ->
  expected_lengths (N.of_nat maxb) (N.of_nat n) = map (fun l => ct_len (N.of_nat l)) (piece_sizes (maxb - 1) n).
Proof.
  intro Hm. unfold expected_lengths, piece_sizes.
  assert (Hc1 : (N.of_nat maxb - 1 = N.of_nat (maxb - 1))%N) by lia.
  rewrite Hc1. set (c := (maxb - 1)%nat). assert (0 < c)%nat by (unfold c; lia).
  destruct (N.eqb_spec (N.of_nat c) 0) as [E0|_]; [lia|].
  rewrite map_app, !map_repeat. rewrite <- Nat2N.inj_div, Nat2N.id, <- Nat2N.inj_mod.
  f_equal.
  destruct (Nat.eqb_spec (n mod c) 0) as [E0|E0].
  - rewrite E0. reflexivity.
  - destruct (N.eqb_spec (N.of_nat (n mod c)) 0) as [E1|_]; [lia | reflexivity].
Qed.

(* the range test  (lo <=? b) && (b <=? hi) : in_rng, and written out in cont and is_ctrl *)
Lemma rng_true lo hi b : in_rng lo hi b = true <-> (lo <= b <= hi)%N.
Proof. unfold in_rng. rewrite andb_true_iff, !N.leb_le. reflexivity. Qed.
Lemma rng_false lo hi b : in_rng lo hi b = false <-> (b < lo \/ hi < b)%N.
Proof. unfold in_rng. rewrite andb_false_iff, !N.leb_gt. reflexivity. Qed.
Definition rng_in lo hi b := proj2 (rng_true lo hi b).
Definition rng_out lo hi b := proj2 (rng_false lo hi b).

(* Unicode scalar values: every code point but the surrogates D800..DFFF *)
Definition scalar (c : N) : Prop := (c < 55296 \/ (57344 <= c /\ c < 1114112))%N.

(* the byte sequences of one code point that are well formed (Unicode standard, table 3-7): what one step of
   utf8_ok_n accepts *)
Inductive wf_seq : list N -> Prop :=
  | wf1 a : (a < 128)%N -> wf_seq [a]
  | wf2 a b : (194 <= a <= 223)%N -> (128 <= b <= 191)%N -> wf_seq [a; b]
  | wf3 a b c : (224 <= a <= 239)%N -> (128 <= b <= 191)%N -> (a = 224 -> 160 <= b)%N -> (a = 237 -> b <= 159)%N ->
      (128 <= c <= 191)%N -> wf_seq [a; b; c]
  | wf4 a b c d : (240 <= a <= 244)%N -> (128 <= b <= 191)%N -> (a = 240 -> 144 <= b)%N -> (a = 244 -> b <= 143)%N ->
      (128 <= c <= 191)%N -> (128 <= d <= 191)%N -> wf_seq [a; b; c; d].

(* the only place where the divisions of utf8_cp are looked at; the excluded surrogates are what makes the second
   byte after 237 stay below 160 *)
Lemma utf8_cp_wf c : scalar c -> wf_seq (utf8_cp c).
Proof.
  unfold scalar, utf8_cp. intro Hs.
  destruct (N.ltb_spec c 128); [|destruct (N.ltb_spec c 2048); [|destruct (N.ltb_spec c 65536)]]; constructor; lia.
Qed.

Lemma wf_seq_small w : wf_seq w -> (0 < length w)%nat /\ Forall (fun x => (x < 256)%N) w.
Proof. destruct 1; split; repeat constructor; lia. Qed.

(* the test on the second byte after a first byte of 224..244: x and y are the two first bytes that narrow it *)
Lemma second_byte a b x y lo hi : (128 <= b <= 191)%N -> (a = x -> lo <= b)%N -> (a = y -> b <= hi)%N ->
  (if a =? x then in_rng lo 191 b else if a =? y then in_rng 128 hi b else in_rng 128 191 b)%N = true.
Proof. intros. destruct (N.eqb_spec a x); [|destruct (N.eqb_spec a y)]; apply rng_in; lia. Qed.

Lemma utf8_ok_n_step w r k : wf_seq w -> utf8_ok_n (S k) (w ++ r) = utf8_ok_n k r.
Proof.
  destruct 1; cbn [app utf8_ok_n]; change cont with (in_rng 128 191).
  - rewrite (proj2 (N.ltb_lt a 128)) by lia. reflexivity.
  - rewrite (proj2 (N.ltb_ge a 128)), (rng_in 194 223 a), rng_in by lia. reflexivity.
  - rewrite (proj2 (N.ltb_ge a 128)), (rng_out 194 223 a), (rng_in 224 239 a), (second_byte a b 224 237 160 159), rng_in
      by lia. reflexivity.
  - rewrite (proj2 (N.ltb_ge a 128)), (rng_out 194 223 a), (rng_out 224 239 a), (rng_in 240 244 a),
      (second_byte a b 240 244 144 143), !rng_in by lia. reflexivity.
Qed.

(* utf8_ok_n spends one unit of fuel per code point, so the number of bytes is enough *)
Lemma utf8_ok_n_enc : forall s fuel, Forall scalar s -> (length (flat_map utf8_cp s) <= fuel)%nat ->
  utf8_ok_n fuel (flat_map utf8_cp s) = true.
Proof.
  induction s as [|c r IH]; intros fuel Hs Hl; [destruct fuel; reflexivity|].
  inversion_clear Hs as [|? ? Hc Hr]. apply utf8_cp_wf in Hc. cbn [flat_map] in *. rewrite app_length in Hl.
  pose proof (proj1 (wf_seq_small _ Hc)). destruct fuel as [|k]; [lia|].
  rewrite utf8_ok_n_step by exact Hc. apply IH; [exact Hr | lia].
Qed.

Lemma Ns_of_bytes_of_Ns l : Forall (fun x => (x < 256)%N) l -> Ns_of_bytes (bytes_of_Ns l) = l.
Proof.
  induction 1 as [|x r Hx Hr IH]; [reflexivity|].
  unfold Ns_of_bytes, bytes_of_Ns in *. cbn [map]. rewrite byte_of_N_small by exact Hx. f_equal. exact IH.
Qed.

Lemma flat_map_small s : Forall scalar s -> Forall (fun x => (x < 256)%N) (flat_map utf8_cp s).
Proof.
  induction 1 as [|c r Hc Hr IH]; [constructor|]. cbn [flat_map]. apply Forall_app. split; [apply wf_seq_small, utf8_cp_wf; exact Hc | exact IH].
Qed.

(* str.encode() of Unicode scalar values is valid UTF-8 *)
Theorem utf8_enc_valid s : Forall scalar s -> utf8_ok (utf8_enc s) = true.
Proof.
  intro Hs. unfold utf8_ok, utf8_enc. rewrite Ns_of_bytes_of_Ns by (apply flat_map_small; exact Hs).
  apply utf8_ok_n_enc; [exact Hs|]. unfold bytes_of_Ns. rewrite map_length. apply le_n.
Qed.

(* sanitize_file_name: a code point that survives the pattern is in neither of its two character classes *)
Definition safe_cp (c : N) : Prop := is_illegal c = false /\ is_ctrl c = false.

(* the same read off the code point: no C0 / C1 control, no DEL, none of / \ < > : double-quote | ? star *)
Definition safe_char (c : N) : Prop :=
  (32 <= c /\ c <> 47 /\ c <> 92 /\ c <> 60 /\ c <> 62 /\ c <> 58 /\ c <> 34 /\ c <> 124 /\ c <> 63 /\ c <> 42 /\
   (c < 127 \/ 159 < c))%N.
Definition safe_name (n : list N) : Prop := n <> [] /\ forall c, In c n -> safe_char c.

Lemma safe_cp_char c : safe_cp c -> safe_char c.
Proof.
  unfold safe_cp, safe_char, is_illegal, is_ctrl. intros [Hi Hc].
  repeat (apply orb_false_iff in Hi as [Hi ?%N.eqb_neq]). apply N.eqb_neq in Hi.
  apply orb_false_iff in Hc as [Hc%N.ltb_ge Hd%(rng_false 127 159 c)]. lia.
Qed.

Lemma match_here_unsafe st a r : safe_cp a \/ exists k, match_here st (a :: r) = Some (S k).
Proof.
  unfold safe_cp, match_here. cbn [run].
  destruct (is_illegal a); [right; eexists; reflexivity|].
  destruct (is_ctrl a); [right; eexists; reflexivity | left; split; reflexivity].
Qed.

Lemma strip_go_In : forall s skip st c, In c (strip_go skip st s) -> In c s /\ safe_cp c.
Proof.
  induction s as [|a r IH]; intros skip st c Hin; [contradiction|].
  assert (Hr : forall k, In c (strip_go k false r) -> In c (a :: r) /\ safe_cp c).
  { intros k Hk. destruct (IH _ _ _ Hk). split; [right|]; assumption. }
  cbn [strip_go] in Hin. destruct skip; [|eauto].
  destruct (match_here_unsafe st a r) as [Ha | [k Hk]]; [|rewrite Hk in Hin; eauto].
  destruct (match_here st (a :: r)) as [[|k]|]; eauto;
    (destruct Hin as [<- | Hin]; [split; [left; reflexivity | exact Ha] | eauto]).
Qed.

Lemma default_name_ok c : In c default_name -> safe_cp c /\ scalar c.
Proof.
  unfold default_name. cbn [In]. intro Hin.
  repeat (destruct Hin as [<- | Hin]; [split; [split | left]; reflexivity|]). contradiction.
Qed.

Lemma splitext_In p fn ext c : splitext p = (fn, ext) -> In c fn \/ In c ext -> In c p.
Proof.
  unfold splitext. destruct (rfind is_dot p) as [di|]; [destruct (_ && _)|];
    intros [= <- <-] [Hin | Hin]; eauto using In_firstn, In_skipn; contradiction.
Qed.

Theorem sanitize_safe name :
  sanitize name <> [] /\
  forall c, In c (sanitize name) -> safe_cp c /\ (In c name \/ In c default_name).
Proof.
  unfold sanitize. destruct (splitext name) as [fn ext] eqn:Es.
  set (P := fun c => safe_cp c /\ (In c name \/ In c default_name)).
  assert (Hst : forall p, p = fn \/ p = ext -> Forall P (strip p)).
  { intros p Hp. apply Forall_forall. intros c [Hin Hc]%strip_go_In. split; [exact Hc|]. left.
    apply (splitext_In _ _ _ _ Es). destruct Hp; subst p; auto. }
  assert (Hdf : Forall P default_name) by (apply Forall_forall; split; [apply default_name_ok|]; auto).
  pose proof (Hst fn (or_introl eq_refl)) as Hfn. pose proof (Hst ext (or_intror eq_refl)) as Hext.
  destruct (strip fn); destruct (Nat.ltb 1 _); (split; [discriminate|]); apply (Forall_forall P);
    rewrite ?Forall_app; auto.
Qed.

Theorem sanitize_safe_chars name : safe_name (sanitize name).
Proof.
  destruct (sanitize_safe name) as [Hne Hall]. split; [exact Hne|].
  intros c Hin. apply safe_cp_char, Hall, Hin.
Qed.

(* the names ManagedStream hands out for ANY descriptor's suggested_file_name (other clients do not sanitise) *)
Theorem save_names_safe_chars sugg n : suggested_save_name sugg = Some n \/ save_file_name sugg = Some n -> safe_name n.
Proof.
  unfold save_file_name, suggested_save_name.
  destruct (py_strip sugg); intros [Hn | Hn]; try discriminate; injection Hn as <-; apply sanitize_safe_chars.
Qed.

Lemma sanitize_scalar name : Forall scalar name -> Forall scalar (sanitize name).
Proof.
  intro Hn. apply Forall_forall. intros c Hin. rewrite Forall_forall in Hn.
  destruct (proj2 (sanitize_safe name) c Hin) as [_ [Hi | Hi]]; [apply Hn; exact Hi | apply default_name_ok; exact Hi].
Qed.

(* as_json is injective on descriptors whose text fields json.dumps prints as themselves.  The sd blob is a row of
   fields, each in a delimited format: the text of a value, followed by anything, determines the value (as far as
   [view] shows it) and what follows.  A constant in front, two formats in a row and an array of a format are
   delimited again, and so is the sd blob.  A number is delimited only together with the byte after it. *)
Definition delimited {A V} (P : A -> Prop) (view : A -> V) (text : A -> bytes) : Prop :=
  forall a1 a2 r1 r2, P a1 -> P a2 -> text a1 ++ r1 = text a2 ++ r2 -> view a1 = view a2 /\ r1 = r2.

Lemma byte_of_N_neq a b : (a < 256)%N -> (b < 256)%N -> a <> b -> byte_of_N a <> byte_of_N b.
Proof.
  intros Ha Hb Hne E0. apply (f_equal N_of_byte) in E0. rewrite !byte_of_N_small in E0 by assumption. contradiction.
Qed.

Lemma span_unique (P : byte -> Prop) c : ~ P c -> forall a1 a2 r1 r2, Forall P a1 -> Forall P a2 ->
  a1 ++ c :: r1 = a2 ++ c :: r2 -> a1 = a2 /\ r1 = r2.
Proof.
  intro Hc. induction a1 as [|x a1 IH]; intros [|y a2] r1 r2 F1 F2 He; cbn [app] in He;
    inversion He; inversion F1; inversion F2; subst; try contradiction.
  - auto.
  - destruct (IH a2 r1 r2) as [-> Hr]; auto.
Qed.

(* bytes that json.dumps prints as themselves *)
Definition plain (b : byte) : Prop := (32 <= N_of_byte b)%N /\ N_of_byte b <> 34%N /\ N_of_byte b <> 92%N.

Lemma json_esc_plain b : plain b -> json_esc b = [b].
Proof.
  intros (H32 & H34 & H92). unfold json_esc.
  repeat match goal with
  | |- context [N.eqb ?a ?b] => rewrite (proj2 (N.eqb_neq a b)) by lia
  | |- context [N.ltb ?a ?b] => rewrite (proj2 (N.ltb_ge a b)) by lia
  end. reflexivity.
Qed.

Lemma json_str_plain s : Forall plain s -> json_str s = q :: s ++ [q].
Proof.
  intro Hs. unfold json_str. f_equal. f_equal.
  induction Hs as [|b r Hb Hr IH]; [reflexivity|]. cbn [flat_map]. rewrite json_esc_plain by exact Hb. cbn [app]. f_equal. exact IH.
Qed.

Lemma q_not_plain : ~ plain q.
Proof. unfold plain, q. rewrite byte_of_N_small by lia. intros (_ & H34 & _). apply H34. reflexivity. Qed.

Definition numch (b : byte) : Prop := is_digit b = true \/ b = minus_byte.

Lemma dec_of_N_numch n : Forall numch (dec_of_N n).
Proof.
  eapply Forall_impl; [|apply dec_of_N_Forall]. intros b Hb. left. exact Hb.
Qed.

Lemma dec_of_Z_numch z : Forall numch (dec_of_Z z).
Proof.
  destruct z; cbn [dec_of_Z]; try apply dec_of_N_numch. constructor; [right; reflexivity | apply dec_of_N_numch].
Qed.

Lemma not_numch n : (n < 256)%N -> (n < 48 \/ 57 < n)%N -> n <> 45%N -> ~ numch (byte_of_N n).
Proof.
  intros Hn Hr H45 [Hd | Hm].
  - rewrite not_digit_byte in Hd by assumption. discriminate.
  - unfold minus_byte in Hm. revert Hm. apply byte_of_N_neq; lia.
Qed.

Definition colon : bytes := ascii [58; 32]%N.
Local Notation B := byte_of_N.

Lemma cons_inv_head {A} (a : A) x y : a :: x = a :: y -> x = y.
Proof. congruence. Qed.

Lemma byte_cons_neq a b x y : (a < 256)%N -> (b < 256)%N -> a <> b -> B a :: x <> B b :: y.
Proof. intros Ha Hb Hne [= Hx]. revert Hx. apply byte_of_N_neq; assumption. Qed.

Section Delimited.
  Context {A : Type} (P : A -> Prop).

  Lemma delim_lit {V} (v : A -> V) l t : delimited P v t -> delimited P v (fun a => l ++ t a).
  Proof.
    intros Ht a1 a2 r1 r2 P1 P2 He. rewrite <- !app_assoc in He. apply app_inv_head in He. exact (Ht _ _ _ _ P1 P2 He).
  Qed.

  Lemma delim_seq {V W} (v : A -> V) (w : A -> W) t u : delimited P v t -> delimited P w u ->
    delimited P (fun a => (v a, w a)) (fun a => t a ++ u a).
  Proof.
    intros Ht Hu a1 a2 r1 r2 P1 P2 He. rewrite <- !app_assoc in He.
    apply Ht in He as [Hv He]; [|assumption..]. apply Hu in He as [Hw Hr]; [|assumption..].
    rewrite Hv, Hw. auto.
  Qed.

  (* a string: a quoted run of plain bytes *)
  Lemma delim_str (s : A -> bytes) : (forall a, P a -> Forall plain (s a)) -> delimited P s (fun a => json_str (s a)).
  Proof.
    intros Hp a1 a2 r1 r2 F1%Hp F2%Hp He. rewrite !json_str_plain in He by assumption.
    cbn [app] in He. apply cons_inv_head in He. rewrite <- !app_assoc in He.
    exact (span_unique plain q q_not_plain _ _ r1 r2 F1 F2 He).
  Qed.

  (* a number: a run of digits ended by a byte that is none *)
  Lemma delim_num (z : A -> Z) c : ~ numch c -> delimited P z (fun a => dec_of_Z (z a) ++ [c]).
  Proof.
    intros Hc a1 a2 r1 r2 _ _ He. rewrite <- !app_assoc in He.
    destruct (span_unique numch c Hc _ _ r1 r2 (dec_of_Z_numch _) (dec_of_Z_numch _) He) as [Hz%dec_of_Z_inj Hr]. auto.
  Qed.

End Delimited.

(* an array: the items are delimited and none starts with "]"; "," or "]" follows an item *)
Section Array.
  Context {I V : Type} (Q : I -> Prop) (v : I -> V) (item : I -> bytes).
  Hypothesis item_delim : delimited Q v item.

  Definition more (r : list I) (u : bytes) : bytes :=
    match r with [] => B 93 :: u | _ => B 44 :: B 32 :: join comma (map item r) ++ B 93 :: u end.

  Lemma join_more i r u : join comma (map item (i :: r)) ++ B 93 :: u = item i ++ more r u.
  Proof. destruct r; cbn [map join more]; [reflexivity|]. rewrite <- !app_assoc. reflexivity. Qed.

  Lemma more_split : forall r1 r2 u1 u2, Forall Q r1 -> Forall Q r2 ->
    more r1 u1 = more r2 u2 -> map v r1 = map v r2 /\ u1 = u2.
  Proof using item_delim.
    induction r1 as [|b1 r1 IH]; intros [|b2 r2] u1 u2 F1 F2 He.
    - apply cons_inv_head in He. auto.
    - apply byte_cons_neq in He; [contradiction | lia..].
    - apply byte_cons_neq in He; [contradiction | lia..].
    - unfold more in He. apply cons_inv_head, cons_inv_head in He. rewrite !join_more in He.
      inversion_clear F1. inversion_clear F2.
      apply item_delim in He as [Hb He]; [|assumption..]. apply IH in He as [Hr Hu]; [|assumption..].
      cbn [map]. rewrite Hb, Hr. auto.
  Qed.

  Hypothesis item_start : forall i x y, item i ++ x <> B 93 :: y.

  Lemma delim_arr {A} (P : A -> Prop) (l : A -> list I) : (forall a, P a -> Forall Q (l a)) ->
    delimited P (fun a => map v (l a)) (fun a => arr (map item (l a))).
  Proof using item_delim item_start.
    intros Hl a1 a2 u1 u2 F1%Hl F2%Hl. revert F1 F2. unfold arr.
    destruct (l a1) as [|b1 r1], (l a2) as [|b2 r2]; intros F1 F2 He; cbn [app] in He; apply cons_inv_head in He;
      rewrite <- !app_assoc in He; cbn [app] in He.
    - exact (more_split [] [] u1 u2 F1 F2 He).
    - rewrite join_more in He. destruct (item_start _ _ _ (eq_sym He)).
    - rewrite join_more in He. destruct (item_start _ _ _ He).
    - apply (f_equal (fun x => B 44 :: B 32 :: x)) in He. exact (more_split _ _ u1 u2 F1 F2 He).
  Qed.
End Array.

Definition plain_blob (b : blob) : Prop :=
  Forall plain (b_iv b) /\ match b_hash b with Some h => Forall plain h | None => True end.

Lemma as_dict_plain b : plain_blob b -> plain_blob (as_dict b).
Proof. destruct b as [n l iv [[|x h]|]]; unfold plain_blob; cbn; tauto. Qed.

(* json_blob laid out flat: the optional hash entry, then the three entries every blob has *)
Definition hash_field (b : blob) : bytes :=
  match b_hash (as_dict b) with
  | Some h => json_str (ascii k_blob_hash) ++ colon ++ json_str h ++ [B 44; B 32]
  | None => []
  end.
Definition blob_tail (b : blob) : bytes :=
  (json_str (ascii k_blob_num) ++ colon) ++ (dec_of_Z (b_num b) ++ [B 44]) ++
  (B 32 :: json_str (ascii k_iv) ++ colon) ++ json_str (b_iv b) ++
  (B 44 :: B 32 :: json_str (ascii k_length) ++ colon) ++ dec_of_Z (b_len b) ++ [B 125].

Lemma json_blob_flat b : json_blob b = B 123 :: hash_field b ++ blob_tail b.
Proof.
  unfold json_blob, hash_field, blob_tail, obj, kv, comma, colon.
  destruct (b_hash (as_dict b)) as [h|]; cbn [app join b_num b_len b_iv as_dict];
    repeat (rewrite <- !app_assoc; cbn [app]);
    change (ascii [44%N; 32%N]) with [byte_of_N 44; byte_of_N 32]; cbn [app]; reflexivity.
Qed.

Lemma blob_tail_delim : delimited plain_blob (fun b => (b_num b, (b_iv b, b_len b))) blob_tail.
Proof.
  unfold blob_tail. apply delim_lit, delim_seq; [apply delim_num, not_numch; lia|].
  apply delim_lit, delim_seq; [apply delim_str; intros b Hb; apply Hb|].
  apply delim_lit, delim_num, not_numch; lia.
Qed.

Lemma first_keys_differ x y : json_str (ascii k_blob_hash) ++ x <> json_str (ascii k_blob_num) ++ y.
Proof. vm_compute. discriminate. Qed.

Lemma json_blob_delim : delimited plain_blob as_dict json_blob.
Proof.
  intros b1 b2 r1 r2 P1 P2 He. rewrite !json_blob_flat in He. cbn [app] in He. apply cons_inv_head in He.
  rewrite <- !app_assoc in He.
  assert (Hh : b_hash (as_dict b1) = b_hash (as_dict b2) /\ blob_tail b1 ++ r1 = blob_tail b2 ++ r2).
  { destruct (as_dict_plain _ P1) as [_ Q1], (as_dict_plain _ P2) as [_ Q2]. unfold hash_field in He.
    destruct (b_hash (as_dict b1)) as [h1|], (b_hash (as_dict b2)) as [h2|]; rewrite <- ?app_assoc in He.
    - apply app_inv_head, app_inv_head, (delim_str _ (fun h => h) (fun _ F => F)) in He as [-> He]; [|assumption..].
      apply cons_inv_head, cons_inv_head in He. auto.
    - destruct (first_keys_differ _ _ He).
    - destruct (first_keys_differ _ _ (eq_sym He)).
    - auto. }
  destruct Hh as [Hh Ht]. apply blob_tail_delim in Ht as [[= Hn Hi Hl] Hr]; [|assumption..].
  split; [|exact Hr]. unfold as_dict in *. cbn [b_hash] in Hh. rewrite Hn, Hi, Hl, Hh. reflexivity.
Qed.

Lemma hex_plain b : Forall plain (hex b).
Proof. refine (Forall_impl _ _ (hex_rng b)). unfold plain. intros c Hc. cbv beta in Hc. lia. Qed.

Definition plain_desc (d : desc) : Prop :=
  Forall plain (d_key d) /\ Forall plain (d_shash d) /\ Forall plain_blob (d_blobs d).

Lemma desc_fields_delim :
  delimited plain_desc (fun d => (map as_dict (d_blobs d), (d_key d, (d_shash d, (hex (d_name d), hex (d_sugg d))))))
    (fun d => join comma [kv k_blobs (arr (map json_blob (d_blobs d)));
                          kv k_key (json_str (d_key d));
                          kv k_stream_hash (json_str (d_shash d));
                          kv k_stream_name (json_str (hex (d_name d)));
                          kv k_stream_type (json_str (ascii v_lbryfile));
                          kv k_sugg (json_str (hex (d_sugg d)))]).
Proof.
  unfold kv. cbn [join]. repeat (apply delim_seq; [apply delim_lit, delim_lit | apply delim_lit]).
  5: apply delim_lit, delim_lit, delim_lit, delim_lit.
  1: apply (delim_arr _ _ _ json_blob_delim); [intros b x y; rewrite json_blob_flat; apply byte_cons_neq; lia | intros d Hd; apply Hd].
  all: apply delim_str; intros d Hd; try apply hex_plain; apply Hd.
Qed.

(* the sd blob determines the descriptor (blob hashes up to BlobInfo.as_dict's own None / '' identification) *)
Theorem as_json_inj d1 d2 : plain_desc d1 -> plain_desc d2 -> as_json d1 = as_json d2 ->
  d_name d1 = d_name d2 /\ d_key d1 = d_key d2 /\ d_sugg d1 = d_sugg d2 /\ d_shash d1 = d_shash d2 /\
  map as_dict (d_blobs d1) = map as_dict (d_blobs d2).
Proof.
  intros P1 P2 He. unfold as_json, obj in He.
  apply cons_inv_head, desc_fields_delim in He as [[= Hb Hk Hs Hn%hex_inj Hg%hex_inj] _]; auto.
Qed.

Set Default Proof Using "Type".
Section Proofs.
  Variable H : bytes -> bytes.
  Variable E : bytes -> bytes -> bytes -> bytes.
  Variable D : bytes -> bytes -> bytes -> option bytes.
  Variable maxb : nat.
  (* lia makes a lemma depend on every section variable still in the context: clear the primitives first *)
  Local Ltac liaD := try clear D; try clear E; try clear H; lia.

  (* the three facts assumed of the primitives; every theorem names the ones it needs *)
  Definition DE_inverse := forall k iv p, D k iv (E k iv p) = Some p.
  Definition E_length := forall k iv p, length (E k iv p) = (16 * (length p / 16 + 1))%nat.
  Definition H_length := forall x, length (H x) = 48%nat.

  Notation split := (split maxb).
  Notation build_stream := (build_stream H E maxb).
  Notation create_stream := (create_stream H E maxb).
  Notation create_stream_layout := (create_stream_layout H E maxb).
  Notation create_stream_in := (create_stream_in H E maxb).
  Notation make_blobs := (make_blobs H E).
  Notation get_stream_hash := (get_stream_hash H).
  Notation validate := (validate H).

  Lemma make_blobs_length key ivf n ps : length (make_blobs key ivf n ps) = length ps.
  Proof. revert n. induction ps; intros; simpl; auto. Qed.

  Lemma make_blobs_Forall (P : blob * bytes -> Prop) key ivf : (forall iv p num, P (make_blob H E key iv p num)) ->
    forall ps n, Forall P (make_blobs key ivf n ps).
  Proof. intro HP. induction ps; intro n; constructor; auto. Qed.

  Lemma make_blobs_nth key ivf : forall ps n i p, nth_error ps i = Some p ->
    nth_error (make_blobs key ivf n ps) i = Some (make_blob H E key (ivf (n + i)%nat) p (n + i)).
  Proof.
    induction ps as [|x r IH]; intros n i p Hi; [destruct i; discriminate|].
    destruct i as [|i]; simpl in *.
    - inversion Hi; subst. rewrite Nat.add_0_r. reflexivity.
    - rewrite (IH (S n) i p Hi). replace (S n + i)%nat with (n + S i)%nat by liaD. reflexivity.
  Qed.

  Lemma decrypt_made_blob key iv p num : DE_inverse ->
    decrypt_blob D (hex key) (fst (make_blob H E key iv p num)) (snd (make_blob H E key iv p num)) = Some p.
  Proof. intro HDE. unfold decrypt_blob, make_blob. cbn [fst snd b_len b_iv]. rewrite Z.eqb_refl, !unhex_hex. apply HDE. Qed.

  Lemma decrypt_blobs_make key ivf : DE_inverse -> forall ps n,
    decrypt_blobs D (hex key) (map fst (make_blobs key ivf n ps)) (map snd (make_blobs key ivf n ps)) = Some (concat ps).
  Proof.
    intros HDE. induction ps as [|p r IH]; intro n; [reflexivity|].
    cbn [C02.make_blobs map decrypt_blobs concat]. rewrite decrypt_made_blob, IH by exact HDE. reflexivity.
  Qed.

  Definition built_blobs key ivf n ps : list blob :=
    map fst (make_blobs key ivf n ps) ++ [terminator ivf (n + length ps)].

  Lemma built_blobs_cons key ivf n p r :
    built_blobs key ivf n (p :: r) = fst (make_blob H E key (ivf n) p n) :: built_blobs key ivf (S n) r.
  Proof. unfold built_blobs. cbn [C02.make_blobs map app length]. rewrite Nat.add_succ_r. reflexivity. Qed.

  Lemma build_stream_parts name key ivf f :
    d_blobs (s_desc (build_stream name key ivf f)) = built_blobs key ivf 0 (split f) /\
    s_cts (build_stream name key ivf f) = map snd (make_blobs key ivf 0 (split f)) /\
    d_key (s_desc (build_stream name key ivf f)) = hex key.
  Proof. unfold C02.build_stream. cbn. rewrite make_blobs_length. repeat split. Qed.

  Theorem roundtrip name key ivf f :
    DE_inverse -> (2 <= maxb)%nat ->
    decrypt_stream D (s_desc (build_stream name key ivf f)) (s_cts (build_stream name key ivf f)) = Some f.
  Proof.
    intros HDE Hm. destruct (build_stream_parts name key ivf f) as (Hb & Hc & Hk).
    unfold decrypt_stream. unfold built_blobs in Hb. rewrite Hb, Hc, Hk, removelast_last.
    rewrite decrypt_blobs_make by exact HDE. rewrite split_concat by exact Hm. reflexivity.
  Qed.

  Theorem roundtrip_created name key ivf f s :
    DE_inverse -> (2 <= maxb)%nat -> create_stream name key ivf f = Some s ->
    decrypt_stream D (s_desc s) (s_cts s) = Some f.
  Proof.
    intros HDE Hm Hc. unfold C02.create_stream in Hc.
    destruct (has_dup _); [discriminate|]. inversion Hc; subst. apply roundtrip; assumption.
  Qed.

  (* with cache_transparent: every read through the shared cache, however it was used before, gives piece i of the file *)
  Lemma read_blob_created name key ivf f w sid i p :
    DE_inverse ->
    nth_error w sid = Some (s_desc (build_stream name key ivf f), s_cts (build_stream name key ivf f)) ->
    nth_error (split f) i = Some p ->
    read_blob D w sid i = Some p.
  Proof.
    intros HDE Hw Hp. unfold read_blob. rewrite Hw.
    destruct (build_stream_parts name key ivf f) as (Hb & Hc & Hk). unfold built_blobs in Hb. rewrite Hb, Hc, Hk, removelast_last.
    rewrite !nth_error_map, (make_blobs_nth key ivf _ 0 i p Hp). apply decrypt_made_blob, HDE.
  Qed.

  Theorem layout_created old_sort name key ivf f s :
    create_stream_layout old_sort name key ivf f = Some s ->
    s_desc s = s_desc (build_stream name key ivf f) /\ s_cts s = s_cts (build_stream name key ivf f) /\
    s_sd_blob s = (if old_sort then old_sort_json (s_desc s) else as_json (s_desc s)) /\
    s_sd_hash s = hex (H (s_sd_blob s)).
  Proof.
    unfold C02.create_stream_layout, C02.create_stream. destruct (has_dup _); [discriminate|].
    intro Hs. inversion Hs; subst. destruct old_sort; repeat split.
  Qed.

  (* republish: create_stream into a blob directory that already holds files.  Whenever it returns a stream, the stream
     is exactly the one a clean directory gives (so every data blob is named by H of the ciphertext stored for it and
     decrypting in descriptor order gives the file back), and none of its data blobs was adopted from a file that was
     already there under that name; in an empty directory it is create_stream. *)
  Theorem republish_sound dir old_sort name key ivf f s :
    DE_inverse -> (2 <= maxb)%nat ->
    create_stream_in dir old_sort name key ivf f = Some s ->
    s_desc s = s_desc (build_stream name key ivf f) /\
    s_cts s = s_cts (build_stream name key ivf f) /\
    decrypt_stream D (s_desc s) (s_cts s) = Some f /\
    (forall c, In c (s_cts s) -> blocked dir (hex (H c)) = false).
  Proof.
    intros HDE Hm. unfold C02.create_stream_in.
    destruct (existsb _ _) eqn:Hex; [discriminate|]. intro Hc.
    destruct (layout_created old_sort name key ivf f s Hc) as [Hd [Hcts _]].
    split; [exact Hd|]. split; [exact Hcts|]. split.
    - rewrite Hd, Hcts. apply roundtrip; assumption.
    - intros c Hin. rewrite Hcts in Hin.
      destruct (blocked dir (hex (H c))) eqn:Hb; [|reflexivity].
      assert (existsb (fun c => blocked dir (hex (H c))) (s_cts (build_stream name key ivf f)) = true)
        by (apply existsb_exists; exists c; split; assumption).
      congruence.
  Qed.

  Theorem republish_clean_dir old_sort name key ivf f :
    create_stream_in [] old_sort name key ivf f = create_stream_layout old_sort name key ivf f.
  Proof.
    unfold C02.create_stream_in.
    replace (existsb _ _) with false; [reflexivity|].
    symmetry. induction (s_cts _) as [|c r IH]; [reflexivity|]. cbn. exact IH.
  Qed.

  Theorem names_and_numbers name key ivf f :
    let s := build_stream name key ivf f in
    let n := length (split f) in
    length (d_blobs (s_desc s)) = S n /\ length (s_cts s) = n /\
    (forall i p, nth_error (split f) i = Some p ->
       let ct := E key (ivf i) p in
       nth_error (s_cts s) i = Some ct /\
       nth_error (d_blobs (s_desc s)) i =
         Some (mkBlob (Z.of_nat i) (Z.of_nat (length ct)) (hex (ivf i)) (Some (hex (H ct))))) /\
    nth_error (d_blobs (s_desc s)) n = Some (mkBlob (Z.of_nat n) 0 (hex (ivf n)) None).
  Proof.
    intros s n. destruct (build_stream_parts name key ivf f) as (Hb & Hc & _). fold s in Hb, Hc.
    rewrite Hb, Hc. unfold built_blobs. split; [|split; [|split]].
    - rewrite app_length, map_length, make_blobs_length. simpl. liaD.
    - rewrite map_length, make_blobs_length. reflexivity.
    - intros i p Hp. pose proof (make_blobs_nth key ivf _ 0 i p Hp) as Hi. split.
      + rewrite nth_error_map, Hi. reflexivity.
      + rewrite nth_error_app1, nth_error_map, Hi; [reflexivity|].
        rewrite map_length, make_blobs_length. apply nth_error_Some. congruence.
    - rewrite nth_error_app2 by (rewrite map_length, make_blobs_length; unfold n; liaD).
      rewrite map_length, make_blobs_length. unfold n. rewrite Nat.sub_diag. reflexivity.
  Qed.

  Lemma make_blobs_ct_lengths key ivf : E_length -> forall ps n,
    map (fun c => N.of_nat (length c)) (map snd (make_blobs key ivf n ps)) =
    map (fun l => ct_len (N.of_nat l)) (map (@length byte) ps).
  Proof.
    intros HE. induction ps as [|p r IH]; intro n; [reflexivity|].
    cbn [C02.make_blobs map snd make_blob]. rewrite IH, HE, ct_len_of_nat. reflexivity.
  Qed.

  Theorem ciphertext_lengths name key ivf f : E_length -> (2 <= maxb)%nat ->
    map (fun c => N.of_nat (length c)) (s_cts (build_stream name key ivf f)) =
    expected_lengths (N.of_nat maxb) (N.of_nat (length f)).
  Proof.
    intros HE Hm. destruct (build_stream_parts name key ivf f) as (_ & Hc & _).
    rewrite Hc, make_blobs_ct_lengths, split_lengths, expected_lengths_sizes by assumption. reflexivity.
  Qed.

  Lemma ct_len_pos k iv p : E_length -> Z.of_nat (length (E k iv p)) <> 0%Z.
  Proof. intro HE. rewrite HE. liaD. Qed.

  Lemma data_len_nonzero key ivf : E_length -> forall ps n, Forall (fun b => b_len b <> 0%Z) (map fst (make_blobs key ivf n ps)).
  Proof.
    intros HE ps n. apply Forall_map, make_blobs_Forall. intros iv p num. apply ct_len_pos, HE.
  Qed.

  Lemma as_dict_id b : b_hash b <> Some [] -> as_dict b = b.
  Proof.
    destruct b as [n l iv [h|]]; unfold as_dict; cbn; intro Hne; [|reflexivity].
    destruct h; [exfalso; apply Hne; reflexivity | reflexivity].
  Qed.

  Lemma as_dict_idem b : as_dict (as_dict b) = as_dict b.
  Proof. destruct b as [n l iv [[|x h]|]]; reflexivity. Qed.

  Lemma get_stream_hash_eq n k s bs : get_stream_hash n k s bs =
    match concat_opt (map (blob_hashsum H) (map as_dict bs)) with
    | Some c => Some (hex (H (hex n ++ k ++ hex s ++ H c)))
    | None => None
    end.
  Proof.
    unfold C02.get_stream_hash, calc_stream_hash, stream_pre, blobs_hashsum. destruct (concat_opt _); reflexivity.
  Qed.

  Lemma get_stream_hash_as_dict n k s bs : get_stream_hash n k s (map as_dict bs) = get_stream_hash n k s bs.
  Proof.
    unfold C02.get_stream_hash. rewrite map_map. f_equal. apply map_ext. intro. apply as_dict_idem.
  Qed.

  (* the exact preimages of the commitments *)
  Definition data_pre (i : nat) (iv ct : bytes) : bytes :=
    hex (H ct) ++ dec_of_Z (Z.of_nat i) ++ hex iv ++ dec_of_Z (Z.of_nat (length ct)).
  Definition term_pre (n : nat) (iv : bytes) : bytes :=
    dec_of_Z (Z.of_nat n) ++ hex iv ++ dec_of_Z 0.
  Fixpoint data_pres (key : bytes) (ivf : nat -> bytes) (n : nat) (ps : list bytes) : list bytes :=
    match ps with
    | [] => []
    | p :: r => data_pre n (ivf n) (E key (ivf n) p) :: data_pres key ivf (S n) r
    end.
  Definition blob_preimages key ivf f : list bytes :=
    data_pres key ivf 0 (split f) ++ [term_pre (length (split f)) (ivf (length (split f)))].
  Definition stream_preimage name key ivf f : bytes :=
    hex (utf8_enc name) ++ hex key ++ hex (utf8_enc (sanitize name)) ++
    H (concat (map H (blob_preimages key ivf f))).

  Lemma built_blobs_as_dict key ivf : H_length -> forall ps n, map as_dict (built_blobs key ivf n ps) = built_blobs key ivf n ps.
  Proof.
    intros HL ps n. unfold built_blobs. rewrite map_app, map_map. f_equal. apply map_ext_Forall, make_blobs_Forall. intros iv p num.
    apply as_dict_id. cbn. intros [= E1]. apply (f_equal (@length byte)) in E1. rewrite hex_length, HL in E1. discriminate.
  Qed.

  Lemma built_blobs_hashsums key ivf : E_length -> forall ps n,
    concat_opt (map (blob_hashsum H) (built_blobs key ivf n ps)) =
      Some (concat (map H (data_pres key ivf n ps ++ [term_pre (n + length ps) (ivf (n + length ps))]))).
  Proof.
    intros HE. induction ps as [|p r IH]; intro n; [cbn; rewrite Nat.add_0_r; reflexivity|].
    rewrite built_blobs_cons. cbn [map fst make_blob data_pres app concat concat_opt length].
    unfold blob_hashsum at 1, blob_pre. cbn [b_len b_hash b_num b_iv].
    destruct (Z.eqb_spec (Z.of_nat (length (E key (ivf n) p))) 0) as [E0|_]; [exfalso; exact (ct_len_pos _ _ _ HE E0)|].
    rewrite IH, Nat.add_succ_r. reflexivity.
  Qed.

  Lemma built_blobs_numbered key ivf : forall ps n, numbered_ok n (built_blobs key ivf n ps) = true.
  Proof.
    induction ps as [|p r IH]; intro n; [cbn; rewrite Nat.add_0_r, Z.eqb_refl; reflexivity|].
    rewrite built_blobs_cons. cbn [numbered_ok fst make_blob b_num]. rewrite Z.eqb_refl. apply IH.
  Qed.

  Lemma build_stream_hash name key ivf f : H_length -> E_length ->
    get_stream_hash (utf8_enc name) (hex key) (utf8_enc (sanitize name)) (built_blobs key ivf 0 (split f)) =
    Some (hex (H (stream_preimage name key ivf f))).
  Proof.
    intros HL HE. rewrite get_stream_hash_eq, built_blobs_as_dict, built_blobs_hashsums by assumption. reflexivity.
  Qed.

  Lemma built_desc name key ivf f : H_length -> E_length ->
    s_desc (build_stream name key ivf f) =
    mkDesc (utf8_enc name) (hex key) (utf8_enc (sanitize name)) (built_blobs key ivf 0 (split f))
      (hex (H (stream_preimage name key ivf f))).
  Proof.
    intros HL HE. unfold C02.build_stream. cbn [s_desc].
    rewrite make_blobs_length. change (_ ++ [terminator _ _]) with (built_blobs key ivf 0 (split f)).
    rewrite build_stream_hash by assumption. reflexivity.
  Qed.

  Theorem commitments name key ivf f :
    H_length -> E_length ->
    let s := build_stream name key ivf f in
    d_shash (s_desc s) = hex (H (stream_preimage name key ivf f)) /\
    s_sd_blob s = as_json (s_desc s) /\
    s_sd_hash s = hex (H (s_sd_blob s)).
  Proof.
    intros HL HE s. split; [|split; reflexivity]. unfold s. rewrite built_desc by assumption. reflexivity.
  Qed.

  (* every text field of a descriptor made by create_stream is hex *)
  Lemma created_plain name key ivf f : H_length -> E_length -> plain_desc (s_desc (build_stream name key ivf f)).
  Proof.
    intros HL HE. rewrite built_desc by assumption. split; [apply hex_plain|]. split; [apply hex_plain|]. cbn [d_blobs].
    apply Forall_app. split.
    - apply Forall_map, make_blobs_Forall. intros iv p num. split; apply hex_plain.
    - constructor; [|constructor]. unfold plain_blob, terminator. cbn. split; [apply hex_plain | exact I].
  Qed.

  Lemma numbered_ok_spec : forall bs i, numbered_ok i bs = true <->
    (forall k b, nth_error bs k = Some b -> b_num b = Z.of_nat (i + k)).
  Proof.
    induction bs as [|x r IH]; intro i; cbn [numbered_ok].
    - split; [intros _ k b Hk; destruct k; discriminate | reflexivity].
    - rewrite andb_true_iff, IH, Z.eqb_eq. split.
      + intros [Hx Hr] [|k] b Hk; [injection Hk as <-; rewrite Nat.add_0_r; congruence|].
        rewrite (Hr k b Hk). f_equal. liaD.
      + intro Hall. split; [rewrite (Hall 0%nat x eq_refl); f_equal; liaD|].
        intros k b Hk. rewrite (Hall (S k) b Hk). f_equal. liaD.
  Qed.

  Lemma unhex_decode_hex x : utf8_ok x = true -> unhex_decode (hex x) = Ok x.
  Proof. intro Hu. unfold unhex_decode. rewrite hex_ascii, unhex_hex, Hu. reflexivity. Qed.

  Lemma unhex_decode_Ok s x : unhex_decode s = Ok x -> unhex s = Some x /\ utf8_ok x = true.
  Proof.
    unfold unhex_decode. destruct (negb _); [discriminate|]. destruct (unhex s) as [y|]; [|discriminate].
    destruct (utf8_ok y) eqn:Hu; [|discriminate]. intros [= <-]. split; [reflexivity | exact Hu].
  Qed.

  Lemma no_zero_len l : existsb (fun b => Z.eqb (b_len b) 0) l = false <-> Forall (fun b => b_len b <> 0%Z) l.
  Proof.
    induction l as [|b r IH]; cbn [existsb]; [split; constructor|].
    rewrite orb_false_iff, Z.eqb_neq, IH. split; [intros []; constructor; assumption | intro F; inversion F; auto].
  Qed.

  Lemma existsb_rev {A} (p : A -> bool) l : existsb p (rev l) = existsb p l.
  Proof.
    induction l as [|x r IH]; [reflexivity|]. cbn [rev]. rewrite existsb_app, IH. cbn. rewrite orb_false_r. apply orb_comm.
  Qed.

  (* validate with the blob list cut at its last entry: the checks in the order of the code.  new_desc fills in an
     empty stream hash, which the comparison that follows then refuses or finds equal *)
  Lemma validate_snoc j init last : j_blobs j = init ++ [last] ->
    validate j =
      if negb (Z.eqb (b_len last) 0) then Err ENoTerminator
      else if existsb (fun b => Z.eqb (b_len b) 0) init then Err EZeroData
      else match b_hash last with
      | Some _ => Err ETermHash
      | None =>
        if negb (numbered_ok 0 (j_blobs j)) then Err EOrder
        else match unhex_decode (j_name j) with
        | Err e => Err e
        | Ok name =>
          match unhex_decode (j_sugg j) with
          | Err e => Err e
          | Ok sugg =>
            match get_stream_hash name (j_key j) sugg (j_blobs j) with
            | None => Err EKey
            | Some h => if bytes_eqb h (j_shash j) then Ok (mkDesc name (j_key j) sugg (j_blobs j) (j_shash j))
                        else Err EStreamHash
            end
          end
        end
      end.
  Proof.
    intro Hb. unfold C02.validate. rewrite Hb at 1. rewrite rev_app_distr. cbn [rev app]. rewrite existsb_rev.
    destruct (Z.eqb (b_len last) 0); [|reflexivity]. destruct (existsb _ init); [reflexivity|].
    destruct (b_hash last); [reflexivity|]. destruct (numbered_ok 0 (j_blobs j)); [|reflexivity]. cbn [negb].
    destruct (unhex_decode (j_name j)) as [name|]; [|reflexivity].
    destruct (unhex_decode (j_sugg j)) as [sugg|]; [|reflexivity].
    unfold new_desc. destruct (get_stream_hash name (j_key j) sugg (j_blobs j)) as [h|]; [|destruct (j_shash j); reflexivity].
    destruct (bytes_eqb h (j_shash j)) eqn:Eb; [apply bytes_eqb_eq in Eb; subst h|]; destruct (j_shash j); reflexivity.
  Qed.

  (* every descriptor that create_stream builds is accepted when its sd blob is loaded back *)
  Theorem validate_accepts_created name key ivf f :
    H_length -> E_length -> Forall scalar name ->
    let d := s_desc (build_stream name key ivf f) in
    validate (to_sdj d) = Ok d.
  Proof.
    intros HL HE Hn d. pose proof (utf8_enc_valid _ (sanitize_scalar _ Hn)) as Hs. apply utf8_enc_valid in Hn.
    unfold d. rewrite built_desc by assumption.
    erewrite validate_snoc by apply (built_blobs_as_dict key ivf HL).
    cbn [to_sdj j_blobs j_name j_sugg j_key j_shash d_blobs d_name d_sugg d_key d_shash terminator b_len b_hash Z.eqb negb].
    rewrite (proj2 (no_zero_len _) (data_len_nonzero key ivf HE _ _)), built_blobs_as_dict, built_blobs_numbered,
      !unhex_decode_hex, build_stream_hash, bytes_eqb_refl by assumption.
    reflexivity.
  Qed.

  (* accepted => every consistency condition holds (contrapositive: each inconsistency is refused) *)
  Theorem validate_sound j d : validate j = Ok d ->
    exists init last name sugg,
      j_blobs j = init ++ [last] /\ b_len last = 0%Z /\ b_hash last = None /\
      Forall (fun b => b_len b <> 0%Z) init /\
      (forall k b, nth_error (j_blobs j) k = Some b -> b_num b = Z.of_nat k) /\
      unhex (j_name j) = Some name /\ utf8_ok name = true /\
      unhex (j_sugg j) = Some sugg /\ utf8_ok sugg = true /\
      get_stream_hash name (j_key j) sugg (j_blobs j) = Some (j_shash j) /\
      d = mkDesc name (j_key j) sugg (j_blobs j) (j_shash j).
  Proof.
    intro Hv.
    assert (Hb : exists init last, j_blobs j = init ++ [last]).
    { destruct (rev (j_blobs j)) as [|last rinit] eqn:Er; [unfold C02.validate in Hv; rewrite Er in Hv; discriminate|].
      exists (rev rinit), last. rewrite <- (rev_involutive (j_blobs j)), Er. reflexivity. }
    destruct Hb as (init & last & Hb). rewrite (validate_snoc j init last Hb) in Hv.
    destruct (Z.eqb_spec (b_len last) 0) as [Hl0|]; [|discriminate]. cbn [negb] in Hv.
    destruct (existsb _ init) eqn:Ez; [discriminate|]. apply no_zero_len in Ez.
    destruct (b_hash last) eqn:Eh; [discriminate|].
    destruct (numbered_ok 0 (j_blobs j)) eqn:En; [|discriminate]. cbn [negb] in Hv.
    destruct (unhex_decode (j_name j)) as [name|] eqn:Enm; [|discriminate]. apply unhex_decode_Ok in Enm as [Hn Hnu].
    destruct (unhex_decode (j_sugg j)) as [sugg|] eqn:Esg; [|discriminate]. apply unhex_decode_Ok in Esg as [Hs Hsu].
    destruct (get_stream_hash name (j_key j) sugg (j_blobs j)) as [h|] eqn:Eg; [|discriminate].
    destruct (bytes_eqb h (j_shash j)) eqn:Eb; [|discriminate]. apply bytes_eqb_eq in Eb. subst h. injection Hv as <-.
    exists init, last, name, sugg. repeat apply conj; try assumption; try reflexivity.
    exact (proj1 (numbered_ok_spec _ _) En).
  Qed.

  (* which check refuses first, with the error class of the code *)
  Theorem validate_refuses j :
    (j_blobs j = [] -> validate j = Err EIndex) /\
    (forall init last, j_blobs j = init ++ [last] ->
       (b_len last <> 0%Z -> validate j = Err ENoTerminator) /\
       (b_len last = 0%Z -> Exists (fun b => b_len b = 0%Z) init -> validate j = Err EZeroData) /\
       (b_len last = 0%Z -> Forall (fun b => b_len b <> 0%Z) init ->
          (forall h, b_hash last = Some h -> validate j = Err ETermHash) /\
          (b_hash last = None ->
             (numbered_ok 0 (j_blobs j) = false -> validate j = Err EOrder) /\
             (numbered_ok 0 (j_blobs j) = true -> forall name sugg h,
                unhex_decode (j_name j) = Ok name -> unhex_decode (j_sugg j) = Ok sugg ->
                get_stream_hash name (j_key j) sugg (j_blobs j) = Some h -> h <> j_shash j ->
                validate j = Err EStreamHash)))).
  Proof.
    split; [intro E0; unfold C02.validate; rewrite E0; reflexivity|].
    intros init last Hb. rewrite (validate_snoc j init last Hb). split; [|split].
    - intros Hl%Z.eqb_neq. rewrite Hl. reflexivity.
    - intros -> Hex. destruct (existsb _ init) eqn:Ez; [reflexivity|].
      apply no_zero_len, Forall_Exists_neg in Ez. contradiction.
    - intros -> Hall%no_zero_len. rewrite Hall. cbn [Z.eqb negb]. split; [intros h ->; reflexivity|].
      intros ->. split; [intros ->; reflexivity|].
      intros -> name sugg h -> -> -> Hne%bytes_eqb_neq. rewrite Hne. reflexivity.
  Qed.

  (* the stream hash binds the content, up to an explicit SHA collision *)
  Definition collision : Prop := exists x y : bytes, x <> y /\ H x = H y.

  (* fixed-width fields: 32 hex characters of IV, 96 of blob hash; numbered by position; a hash exactly on
     the data blobs *)
  Definition fixed_blob (i : nat) (b : blob) : Prop :=
    b_num b = Z.of_nat i /\ length (b_iv b) = 32%nat /\
    (if Z.eqb (b_len b) 0 then b_hash b = None else exists h, b_hash b = Some h /\ length h = 96%nat).
  Fixpoint fixed_blobs (i : nat) (bs : list blob) : Prop :=
    match bs with
    | [] => True
    | b :: r => fixed_blob i b /\ fixed_blobs (S i) r
    end.

  (* equal hashes: go on with equal arguments, or stop with the collision *)
  Lemma hash_eq x y (P : Prop) : H x = H y -> (x = y -> P \/ collision) -> P \/ collision.
  Proof.
    intros Hh HP. destruct (bytes_eqb x y) eqn:Eb; [apply HP, bytes_eqb_eq, Eb|].
    right. exists x, y. split; [apply bytes_eqb_neq, Eb | exact Hh].
  Qed.

  Lemma fixed_blob_as_dict i b : fixed_blob i b -> as_dict b = b.
  Proof.
    intros (_ & _ & Hh). apply as_dict_id. intro E0. rewrite E0 in Hh.
    destruct (Z.eqb (b_len b) 0); [discriminate|]. destruct Hh as (h & Hh & Hl). inversion Hh; subst. discriminate.
  Qed.

  Lemma fixed_blobs_as_dict : forall bs i, fixed_blobs i bs -> map as_dict bs = bs.
  Proof.
    induction bs as [|b r IH]; intros i Hf; [reflexivity|]. destruct Hf as [Hb Hr].
    cbn [map]. rewrite (fixed_blob_as_dict i b Hb), (IH (S i) Hr). reflexivity.
  Qed.

  (* a fixed-width blob and its preimage are given by three values: the length, the IV and the hash text, which is
     empty exactly on a zero length; so the total length of a preimage tells which of the two it is *)
  Inductive blob_form (i : nat) : blob -> bytes -> Prop :=
    mk_blob_form l iv t : length iv = 32%nat -> length t = (if Z.eqb l 0 then 0 else 96)%nat ->
      blob_form i (mkBlob (Z.of_nat i) l iv (if Z.eqb l 0 then None else Some t))
                  (t ++ dec_of_Z (Z.of_nat i) ++ iv ++ dec_of_Z l).

  Lemma fixed_blob_form i b p : fixed_blob i b -> blob_pre b = Some p -> blob_form i b p.
  Proof.
    destruct b as [n l iv h]. unfold fixed_blob, blob_pre. cbn [b_num b_len b_iv b_hash]. intros (-> & Hi & Hh) Hp.
    pose proof (mk_blob_form i l iv (match h with Some g => g | None => [] end) Hi) as F.
    destruct (Z.eqb l 0); [subst h | destruct Hh as (g & -> & Hg)]; injection Hp as <-; apply F; auto.
  Qed.

  Lemma blob_form_inj i b1 b2 p : blob_form i b1 p -> blob_form i b2 p -> b1 = b2.
  Proof.
    intros [l1 iv1 t1 Hi1 Ht1] F2. inversion F2 as [l2 iv2 t2 Hi2 Ht2 Hb Hp].
    assert (Hl : length t2 = length t1).
    { (* a length of 0 is one digit and comes without hash text; 96 characters more cannot be made up for *)
      apply (f_equal (@length byte)) in Hp. rewrite !app_length, Hi1, Hi2, Ht1, Ht2 in Hp. rewrite Ht1, Ht2.
      assert (H0 : length (dec_of_Z 0) = 1%nat) by reflexivity.
      destruct (Z.eqb_spec l1 0) as [->|], (Z.eqb_spec l2 0) as [->|]; try reflexivity; liaD. }
    apply app_inv_len in Hp as [-> Hp]; [|exact Hl].
    apply app_inv_head, app_inv_len in Hp as [-> ->%dec_of_Z_inj]; [reflexivity | congruence].
  Qed.

  Lemma blob_pre_inj i b1 b2 p : fixed_blob i b1 -> fixed_blob i b2 ->
    blob_pre b1 = Some p -> blob_pre b2 = Some p -> b1 = b2.
  Proof. intros F1 F2 P1 P2. apply (blob_form_inj i b1 b2 p); apply fixed_blob_form; assumption. Qed.

  Lemma concat_opt_cons (x : option bytes) l c : concat_opt (x :: l) = Some c ->
    exists a t, x = Some a /\ concat_opt l = Some t /\ c = a ++ t.
  Proof.
    cbn [concat_opt]. destruct x as [a|]; [|discriminate]. destruct (concat_opt l) as [t|]; [|discriminate].
    intro E0. inversion E0. exists a, t. repeat split.
  Qed.

  Lemma concat_opt_all {A} (fn : A -> option bytes) : forall l c, concat_opt (map fn l) = Some c ->
    forall b, In b l -> fn b <> None.
  Proof.
    induction l as [|x r IH]; intros c Hc b Hin; [contradiction|].
    cbn [map] in Hc. apply concat_opt_cons in Hc. destruct Hc as (a & t & Ha & Ht & _).
    destruct Hin as [<- | Hin]; [congruence | exact (IH t Ht b Hin)].
  Qed.

  Lemma hashsums_cons_nonnil b r : H_length -> concat_opt (map (blob_hashsum H) (b :: r)) <> Some [].
  Proof.
    intros HL (a & t & Ha & _ & Hc)%concat_opt_cons. unfold blob_hashsum in Ha.
    destruct (blob_pre b); [|discriminate]. injection Ha as <-.
    apply (f_equal (@length byte)) in Hc. rewrite app_length, HL in Hc. discriminate.
  Qed.

  Lemma blobs_inj : H_length -> forall bs1 bs2 i c,
    fixed_blobs i bs1 -> fixed_blobs i bs2 ->
    concat_opt (map (blob_hashsum H) bs1) = Some c -> concat_opt (map (blob_hashsum H) bs2) = Some c ->
    bs1 = bs2 \/ collision.
  Proof.
    intros HL. induction bs1 as [|b1 r1 IH]; intros [|b2 r2] i c F1 F2 C1 C2.
    - left; reflexivity.
    - injection C1 as <-. destruct (hashsums_cons_nonnil _ _ HL C2).
    - injection C2 as <-. destruct (hashsums_cons_nonnil _ _ HL C1).
    - apply concat_opt_cons in C1 as (a1 & t1 & Ha1 & Ht1 & ->). apply concat_opt_cons in C2 as (a2 & t2 & Ha2 & Ht2 & Hc).
      unfold blob_hashsum in Ha1, Ha2.
      destruct (blob_pre b1) as [p1|] eqn:P1; [|discriminate]. destruct (blob_pre b2) as [p2|] eqn:P2; [|discriminate].
      injection Ha1 as <-. injection Ha2 as <-.
      apply app_inv_len in Hc as [Hh <-]; [|rewrite !HL; reflexivity].
      destruct F1 as [Fb1 Fr1], F2 as [Fb2 Fr2].
      apply (hash_eq _ _ _ Hh). intros <-. rewrite (blob_pre_inj i b1 b2 p1 Fb1 Fb2 P1 P2).
      destruct (IH r2 (S i) t1 Fr1 Fr2 Ht1 Ht2) as [-> | Hcol]; [left; reflexivity | right; exact Hcol].
  Qed.

  (* two descriptors with fixed-width key / IVs / blob hashes and names of the same length that have the same
     stream hash are equal, or the proof hands back two different byte strings with the same H *)
  Theorem stream_hash_binding n1 k1 s1 bs1 n2 k2 s2 bs2 h :
    H_length -> length k1 = 32%nat -> length k2 = 32%nat -> length n1 = length n2 ->
    fixed_blobs 0 bs1 -> fixed_blobs 0 bs2 ->
    get_stream_hash n1 k1 s1 bs1 = Some h -> get_stream_hash n2 k2 s2 bs2 = Some h ->
    (n1 = n2 /\ k1 = k2 /\ s1 = s2 /\ bs1 = bs2) \/ collision.
  Proof.
    intros HL Hk1 Hk2 Hn F1 F2 G1 G2.
    rewrite get_stream_hash_eq, (fixed_blobs_as_dict _ _ F1) in G1. rewrite get_stream_hash_eq, (fixed_blobs_as_dict _ _ F2) in G2.
    destruct (concat_opt (map (blob_hashsum H) bs1)) as [c1|] eqn:C1; [|discriminate].
    destruct (concat_opt (map (blob_hashsum H) bs2)) as [c2|] eqn:C2; [|discriminate].
    injection G1 as <-. injection G2 as G2%hex_inj.
    apply (hash_eq _ _ _ G2). intro Hp.
    apply app_inv_len in Hp as [Hn'%hex_inj Hp]; [|rewrite !hex_length; liaD].
    apply app_inv_len in Hp as [Hk' Hp]; [|congruence].
    apply app_inv_len_r in Hp as [Hs'%hex_inj Hc]; [|rewrite !HL; reflexivity].
    apply (hash_eq _ _ _ Hc). intros ->.
    destruct (blobs_inj HL bs1 bs2 0 c1 F1 F2 C1 C2) as [-> | Hcol]; [|right; exact Hcol].
    left. repeat split; congruence.
  Qed.

  Definition widths (j : sdj) : Prop :=
    length (j_key j) = 32%nat /\
    Forall (fun b => length (b_iv b) = 32%nat /\
                     match b_hash b with Some h => length h = 96%nat | None => True end) (j_blobs j).

  Lemma fixed_blobs_of_nth : forall bs i,
    (forall k b, nth_error bs k = Some b -> fixed_blob (i + k) b) -> fixed_blobs i bs.
  Proof.
    induction bs as [|x r IH]; intros i Hall; [exact I|]. split.
    - specialize (Hall 0%nat x eq_refl). rewrite Nat.add_0_r in Hall. exact Hall.
    - apply IH. intros k b Hk. specialize (Hall (S k) b Hk). replace (S i + k)%nat with (i + S k)%nat by liaD. exact Hall.
  Qed.

  Lemma accepted_fixed j d : validate j = Ok d -> widths j -> exists name sugg,
    fixed_blobs 0 (j_blobs j) /\ get_stream_hash name (j_key j) sugg (j_blobs j) = Some (j_shash j) /\
    d = mkDesc name (j_key j) sugg (j_blobs j) (j_shash j).
  Proof.
    intros Hv (Hwk & Hwb).
    destruct (validate_sound j d Hv) as (init & last & name & sugg & Hb & Hl0 & Hlh & Hnz & Hnum & _ & _ & _ & _ & Hg & Hd).
    exists name, sugg. split; [|split; assumption].
    apply fixed_blobs_of_nth. intros k b Hk. cbn [Nat.add].
    pose proof (nth_error_In _ _ Hk) as Hin.
    rewrite Forall_forall in Hwb. destruct (Hwb b Hin) as [Hiv Hhl].
    split; [exact (Hnum k b Hk)|]. split; [exact Hiv|].
    destruct (Z.eqb (b_len b) 0) eqn:E0.
    - rewrite Hb in Hin. apply in_app_or in Hin as [Hin | [<- | []]]; [|exact Hlh].
      rewrite Forall_forall in Hnz. apply Z.eqb_eq in E0. destruct (Hnz b Hin E0).
    - rewrite get_stream_hash_eq in Hg.
      destruct (concat_opt (map (blob_hashsum H) (map as_dict (j_blobs j)))) as [c|] eqn:Ec; [|discriminate].
      rewrite map_map in Ec. pose proof (concat_opt_all _ _ _ Ec b Hin) as Hsome.
      unfold blob_hashsum, blob_pre in Hsome. cbn [as_dict b_len b_hash] in Hsome. rewrite E0 in Hsome.
      destruct (b_hash b) as [[|x h]|] eqn:Eh; try (exfalso; apply Hsome; reflexivity).
      exists (x :: h). split; [reflexivity | exact Hhl].
  Qed.

  (* the binding for two descriptor blobs that both load *)
  Theorem accepted_tampering_collides j1 j2 d1 d2 :
    H_length -> validate j1 = Ok d1 -> validate j2 = Ok d2 -> widths j1 -> widths j2 ->
    length (d_name d1) = length (d_name d2) -> j_shash j1 = j_shash j2 ->
    d1 = d2 \/ collision.
  Proof.
    intros HL V1 V2 W1 W2 Hn Hs.
    destruct (accepted_fixed j1 d1 V1 W1) as (n1 & s1 & F1 & G1 & ->), (accepted_fixed j2 d2 V2 W2) as (n2 & s2 & F2 & G2 & ->).
    cbn [d_name] in Hn. rewrite <- Hs in G2.
    destruct (stream_hash_binding n1 (j_key j1) s1 (j_blobs j1) n2 (j_key j2) s2 (j_blobs j2) (j_shash j1)
                HL (proj1 W1) (proj1 W2) Hn F1 F2 G1 G2) as [(-> & -> & -> & ->) | Hcol]; [|right; exact Hcol].
    left. rewrite Hs. reflexivity.
  Qed.

  (* without the width / name-length conditions the stream hash does NOT bind the fields: its preimage is a plain
     concatenation.  'ab.txt' with key 3031...3e3f and 'ab.tx' with key 743031...3e (suggested name '?ab.txt')
     have the same stream hash for every blob list and every H. *)
  Definition shift_name1 : bytes := bytes_of_Ns [97; 98; 46; 116; 120; 116]%N.
  Definition shift_key1 : bytes := hex (bytes_of_Ns [48; 49; 50; 51; 52; 53; 54; 55; 56; 57; 58; 59; 60; 61; 62; 63]%N).
  Definition shift_name2 : bytes := bytes_of_Ns [97; 98; 46; 116; 120]%N.
  Definition shift_key2 : bytes := hex (bytes_of_Ns [116; 48; 49; 50; 51; 52; 53; 54; 55; 56; 57; 58; 59; 60; 61; 62]%N).
  Definition shift_sugg2 : bytes := bytes_of_Ns [63; 97; 98; 46; 116; 120; 116]%N.

  Lemma boundary_shift_not_bound bs :
    get_stream_hash shift_name1 shift_key1 shift_name1 bs = get_stream_hash shift_name2 shift_key2 shift_sugg2 bs /\
    shift_key1 <> shift_key2 /\ length shift_key1 = 32%nat /\ length shift_key2 = 32%nat.
  Proof.
    split; [|split; [|split]].
    - rewrite !get_stream_hash_eq. destruct (concat_opt _) as [c|]; [|reflexivity].
      assert (Hpre : hex shift_name1 ++ shift_key1 ++ hex shift_name1 ++ H c =
                     hex shift_name2 ++ shift_key2 ++ hex shift_sugg2 ++ H c) by (vm_compute; reflexivity).
      rewrite Hpre. reflexivity.
    - intro E0. apply (f_equal (fun l => map N_of_byte l)) in E0. vm_compute in E0. discriminate.
    - vm_compute. reflexivity.
    - vm_compute. reflexivity.
  Qed.

  Theorem sd_hash_binding d1 d2 : plain_desc d1 -> plain_desc d2 -> sd_hash H d1 = sd_hash H d2 ->
    (d_name d1 = d_name d2 /\ d_key d1 = d_key d2 /\ d_sugg d1 = d_sugg d2 /\ d_shash d1 = d_shash d2 /\
     map as_dict (d_blobs d1) = map as_dict (d_blobs d2)) \/ collision.
  Proof.
    intros P1 P2 Hs. unfold sd_hash in Hs. apply hex_inj in Hs.
    apply (hash_eq _ _ _ Hs). intro Hj. left. apply as_json_inj; assumption.
  Qed.

End Proofs.

(* create_stream(old_sort=True): the legacy layout changes only the sd blob bytes and their hash *)
Theorem old_sort_commitments (H : bytes -> bytes) (E : bytes -> bytes -> bytes -> bytes) maxb name key ivf f :
  let s := build_stream H E maxb name key ivf f in
  let o := build_stream_old H E maxb name key ivf f in
  s_desc o = s_desc s /\ s_cts o = s_cts s /\
  s_sd_blob o = old_sort_json (s_desc o) /\ s_sd_hash o = hex (H (s_sd_blob o)).
Proof. repeat split. Qed.

(* the shared decrypted-blob cache is transparent: whatever streams share it and in whatever order their blobs are
   read, every read returns what the uncached read of that stream's own blob returns *)
Section CacheProofs.
  Variable D : bytes -> bytes -> bytes -> option bytes.
  Notation world := (list (desc * list bytes)).

  Definition cache_ok (w : world) (c : cache) : Prop :=
    forall k v, In (k, v) c -> read_blob D w (fst k) (snd k) = Some v.

  Lemma cache_ok_nil w : cache_ok w [].
  Proof. intros k v []. Qed.

  Lemma ckey_eqb_eq a b : ckey_eqb a b = true -> a = b.
  Proof.
    destruct a, b. unfold ckey_eqb. cbn. intro Hb. apply andb_true_iff in Hb. destruct Hb as [H1 H2].
    apply Nat.eqb_eq in H1, H2. congruence.
  Qed.

  Lemma c_lookup_In c k v : c_lookup c k = Some v -> In (k, v) c.
  Proof.
    induction c as [|[k' v'] r IH]; [discriminate|]. cbn [c_lookup].
    destruct (ckey_eqb k' k) eqn:Ek.
    - intro Hs. inversion Hs; subst. apply ckey_eqb_eq in Ek. subst. left. reflexivity.
    - intro Hs. right. exact (IH Hs).
  Qed.

  Lemma c_remove_In c k x : In x (c_remove c k) -> In x c.
  Proof.
    induction c as [|[k' v'] r IH]; [contradiction|]. cbn [c_remove].
    destruct (ckey_eqb k' k); [intro Hi; right; exact (IH Hi)|].
    intros [<- | Hi]; [left; reflexivity | right; exact (IH Hi)].
  Qed.

  Lemma cached_read_ok cap w c sid i : cache_ok w c ->
    cache_ok w (fst (cached_read D cap w c sid i)) /\ snd (cached_read D cap w c sid i) = read_blob D w sid i.
  Proof.
    intro Hc. unfold cached_read.
    destruct (c_lookup c (sid, i)) as [v|] eqn:El.
    - pose proof (Hc _ _ (c_lookup_In _ _ _ El)) as Hv. cbn [fst snd] in *. split; [|symmetry; exact Hv].
      intros k v' [Hin | Hin]; [inversion Hin; subst; exact Hv | exact (Hc _ _ (c_remove_In _ _ _ Hin))].
    - destruct (read_blob D w sid i) as [v|] eqn:Er; cbn [fst snd]; [|split; [exact Hc | reflexivity]].
      split; [|reflexivity]. intros k v' Hin. apply In_firstn in Hin.
      destruct Hin as [Hin | Hin]; [inversion Hin; subst; exact Er | exact (Hc _ _ Hin)].
  Qed.

  Theorem cache_transparent cap w : forall ops c, cache_ok w c ->
    run_reads D cap w c ops = map (fun op => read_blob D w (fst op) (snd op)) ops.
  Proof.
    induction ops as [|[sid i] r IH]; intros c Hc; [reflexivity|].
    cbn [run_reads map fst snd]. destruct (cached_read_ok cap w c sid i Hc) as [Hc' Ho].
    destruct (cached_read D cap w c sid i) as [c' o]. cbn [fst snd] in *. rewrite Ho, (IH c' Hc'). reflexivity.
  Qed.
End CacheProofs.

(* toy primitives for the examples of Props/C02.v: a positional checksum repeated 48 times, padding only.  They meet
   H_length and E_length (below); that D0 undoes E0 is only seen on the evaluated round trip *)
Definition H0 (x : bytes) : bytes :=
  repeat (byte_of_N (fold_left (fun a b => (a * 31 + N_of_byte b) mod 251)%N x 7%N)) 48.
Definition E0 (k iv p : bytes) : bytes :=
  let pad := (16 - length p mod 16)%nat in p ++ repeat (byte_of_N (N.of_nat pad)) pad.
Definition D0 (k iv c : bytes) : option bytes :=
  match rev c with
  | x :: _ => Some (firstn (length c - N.to_nat (N_of_byte x)) c)
  | [] => None
  end.
Definition ex_file : bytes := bytes_of_Ns [1; 2; 3; 4; 5; 6; 7]%N.
Definition ex_name : list N := [97; 47; 98; 46; 116; 1; 120; 116]%N.    (* "a/b.t\x01xt" *)
Definition ex_key : bytes := bytes_of_Ns [0; 1; 2; 3; 4; 5; 6; 7; 8; 9; 10; 11; 12; 13; 14; 15]%N.
Definition ex_ivf (i : nat) : bytes := repeat (byte_of_N (N.of_nat i)) 16.
Definition ex_stream := build_stream H0 E0 4 ex_name ex_key ex_ivf ex_file.

Lemma H0_length : H_length H0.
Proof. intro x. apply repeat_length. Qed.

Lemma E0_length : E_length E0.
Proof.
  intros k iv p. unfold E0. rewrite app_length, repeat_length.
  pose proof (Nat.div_mod (length p) 16 ltac:(lia)). pose proof (Nat.mod_upper_bound (length p) 16 ltac:(lia)). lia.
Qed.

Lemma ex_name_scalar : Forall scalar ex_name.
Proof. repeat (constructor; [left; reflexivity|]). constructor. Qed.

Definition tamper_key (j : sdj) : sdj := mkSdj (j_name j) (hex ex_file ++ skipn 14 (j_key j)) (j_sugg j) (j_blobs j) (j_shash j).

(* a cache keyed on the position alone is NOT transparent: second stream, blob 0 *)
Definition cached_read_bynum (D : bytes -> bytes -> bytes -> option bytes) (w : list (desc * list bytes))
  (c : list (nat * bytes)) (sid i : nat) : list (nat * bytes) * option bytes :=
  match find (fun e => Nat.eqb (fst e) i) c with
  | Some e => (c, Some (snd e))
  | None => match read_blob D w sid i with Some v => ((i, v) :: c, Some v) | None => (c, None) end
  end.
Definition ex_file2 : bytes := bytes_of_Ns [9; 8; 7]%N.
Definition ex_stream2 := build_stream H0 E0 4 ex_name ex_key ex_ivf ex_file2.
Definition ex_world : list (desc * list bytes) :=
  [(s_desc ex_stream, s_cts ex_stream); (s_desc ex_stream2, s_cts ex_stream2)].
