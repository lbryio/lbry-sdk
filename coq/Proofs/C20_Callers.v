From Coq Require Import ZArith List.
From LV Require Import Model.C20 Proofs.C20 Model.C20_Callers.
Import ListNotations.
Local Open Scope N_scope.

Lemma parse_all_some ss ns : parse_all ss = Some ns -> Forall2 (fun s n => parse s = Some n) ss ns.
Proof.
  revert ns. induction ss as [|s r IH]; intros ns H; cbn [parse_all] in H.
  - injection H as <-. constructor.
  - destruct (parse s) as [n|] eqn:E; [|discriminate].
    destruct (parse_all r) as [ms|] eqn:Er; [|discriminate].
    injection H as <-. constructor; [exact E | apply IH; reflexivity].
Qed.

Lemma parse_all_none ss : parse_all ss = None <-> exists s, In s ss /\ parse s = None.
Proof.
  induction ss as [|s r IH]; cbn [parse_all].
  - split; [discriminate | intros (s & [] & _)].
  - destruct (parse s) as [n|] eqn:E.
    + destruct (parse_all r) as [ms|] eqn:Er.
      * split; [discriminate|]. intros (x & [->|Hin] & Hx); [congruence|].
        destruct IH as [_ IH]. discriminate IH. exists x. split; assumption.
      * split; [|reflexivity]. intros _. destruct IH as [IH _]. destruct (IH eq_refl) as (x & Hin & Hx).
        exists x. split; [right; exact Hin | exact Hx].
    + split; [|reflexivity]. intros _. exists s. split; [left; reflexivity | exact E].
Qed.

Theorem effective_exact amount supports out :
  effective amount supports = Some out ->
  exists ns m k, Forall2 (fun s n => parse s = Some n) (amount :: supports) ns /\
    dec_exact out = Some (m, k) /\ (m * 10 ^ 8 = Z.of_N (nsum ns) * 10 ^ Z.of_N k)%Z /\ 1 <= k <= 8.
Proof.
  unfold effective. destruct (parse_all (amount :: supports)) as [ns|] eqn:E; [|discriminate].
  intro H. injection H as <-.
  destruct (exact (Z.of_N (nsum ns))) as (m & k & H1 & H2 & H3).
  exists ns, m, k. split; [apply parse_all_some; exact E|]. split; [exact H1|]. split; [exact H2 | exact H3].
Qed.

Theorem effective_rejects amount supports :
  effective amount supports = None <-> exists s, In s (amount :: supports) /\ parse s = None.
Proof.
  unfold effective. destruct (parse_all (amount :: supports)) as [ns|] eqn:E.
  - split; [discriminate|]. intro H. apply parse_all_none in H. congruence.
  - split; [|reflexivity]. intros _. apply parse_all_none. exact E.
Qed.

Theorem effective_no_supports n : n < 10 ^ 18 ->
  effective (format (Z.of_N n)) [] = Some (format (Z.of_N n)).
Proof.
  intro H. unfold effective. cbn [parse_all]. rewrite roundtrip by exact H.
  cbn [nsum fold_right]. rewrite N.add_0_r. reflexivity.
Qed.
