(* The condition used before fix 5c85ea7 (`blob client treats bytes after a delivered response as blob data`) is
   refuted for every honest header and every blob that begins with something that reads as a response without an
   incoming_blob.  Then a toy instance of all Section hypotheses of C10Frag and C10Honest (non-vacuity): on it the
   old condition fails, the repaired one completes, and the known finding race-length-poison is replayed. *)
From Coq Require Import NArith ZArith List Bool Lia String.
From Coq.Strings Require Import Byte.
From LV Require Import Lib.Bytes Model.C10 Proofs.C10Client Proofs.C10Frag Proofs.C10Honest.
Import ListNotations.
Local Open Scope Z_scope.

Section Old.
Variable H : bytes -> bytes.
Variable json_loads : bytes -> jres.
Variable hdr : bytes.
Variable r : response.
Variable hash : bytes.
Variable n : Z.
Hypothesis Hparse : json_loads hdr = JResp r.
Hypothesis Hend : exists h0, hdr = h0 ++ [rbrace].
Hypothesis Hnoprefix : forall a b, hdr = a ++ rbrace :: b -> b <> [] -> json_loads (a ++ [rbrace]) = JInvalid.
Hypothesis Hshort : zlen hdr <= MAX_RESPONSE_SIZE.
Hypothesis Hblob : r_blob r = BrIncoming (Some hash) (LInt n).
Hypothesis Hn : 0 < n <= MAX_BLOB_SIZE.
(* the blob itself begins with something that reads as a response without an incoming_blob *)
Variable body : bytes.
Variable r' : response.
Variable k : nat.
Hypothesis Hwit : parse_prefix json_loads body = PResp r' k.
Hypothesis Hwit_blob : r_blob r' = BrAbsent.

(* header and body delivered as two segments: the OLD client re-parses the body as a response, set_result on a done
   future raises, the connection is force-closed and not one byte reaches the writer *)
Lemma old_condition_refuted known c0 :
  Init hash n known c0 ->
  let c := run_old H json_loads c0 [EvData hdr; EvData body] in
  c_open c = false /\ c_lost c = true /\ w_data (c_w c) = [] /\ c_received c = 0.
Proof.
  intros Hi c. pose proof Hi as (I1 & I2 & I3 & I4 & I5 & I6 & _).
  assert (E1 : step_old H json_loads c0 (EvData hdr) = after H r hash n c0 []).
  { rewrite <- (step_completes_header H json_loads hdr r hash n Hparse Hend Hnoprefix Hshort Hblob Hn known c0 [] hdr [] Hi)
      by (rewrite app_nil_r; reflexivity).
    rewrite (set_buf_id c0 I5). unfold step_old, step, step_with, data_received_old, data_received. rewrite I1, I3, I4. reflexivity. }
  unfold c, run_old. cbn [fold_left]. rewrite E1. unfold after. destruct (body_w_open H hash n Hn []) as [-> ->]; [cbn; lia|].
  pose proof Hwit as Hw. unfold parse_prefix in Hw.
  unfold step_old, step_with, data_received_old, parse_path. cbn. rewrite I1, I2, I5, I6. cbn. rewrite Hw. cbn.
  rewrite Hwit_blob. cbn. auto.
Qed.

End Old.

Definition bs (s : string) : bytes := list_byte_of_string s.
Definition T_HDR : bytes := bs "{""incoming_blob"": {""blob_hash"": ""h"", ""length"": 24}}".
Definition T_WIT : bytes := bs "{""lbrycrd_address"": ""x""}".
Definition T_HASH : bytes := bs "h".
Definition T_R : response := mkResp (AvSingle T_HASH) PrAccepted (BrIncoming (Some T_HASH) (LInt 24)).
Definition T_R' : response := mkResp AvAbsent PrAbsent BrAbsent.
Definition toy_H (_ : bytes) : bytes := T_HASH.
Definition toy_json (s : bytes) : jres :=
  if bytes_eqb s T_HDR then JResp T_R else if bytes_eqb s T_WIT then JResp T_R' else JInvalid.
Definition toy_c0 : client := request T_HASH None (fresh_client 0 3).

Lemma toy_parse : toy_json T_HDR = JResp T_R.
Proof. vm_compute. reflexivity. Qed.
Lemma toy_end : exists h0, T_HDR = h0 ++ [rbrace].
Proof. exists (removelast T_HDR). vm_compute. reflexivity. Qed.
Lemma toy_noprefix : forall a b, T_HDR = a ++ rbrace :: b -> b <> [] -> toy_json (a ++ [rbrace]) = JInvalid.
Proof.
  intros a b Hh Hne. unfold toy_json.
  destruct (bytes_eqb (a ++ [rbrace]) T_HDR) eqn:E1.
  - apply bytes_eqb_eq in E1. exfalso. rewrite Hh in E1. apply app_inv_head in E1.
    inversion E1. congruence.
  - destruct (bytes_eqb (a ++ [rbrace]) T_WIT) eqn:E2; [|reflexivity].
    apply bytes_eqb_eq in E2. exfalso.
    change (rbrace :: b) with ([rbrace] ++ b) in Hh. rewrite app_assoc, E2 in Hh.
    apply (f_equal (firstn 3)) in Hh. vm_compute in Hh. discriminate.
Qed.
Lemma toy_short : zlen T_HDR <= MAX_RESPONSE_SIZE.
Proof. vm_compute. discriminate. Qed.
Lemma toy_start : Start T_HASH 24 None 3 toy_c0.
Proof. exact (request_starts T_HASH 24 None (fresh_client 0 3) eq_refl eq_refl (or_introl eq_refl)). Qed.
Lemma toy_init : Init T_HASH 24 None toy_c0.
Proof. exact (proj1 toy_start). Qed.
Lemma toy_wit : parse_prefix toy_json T_WIT = PResp T_R' 24.
Proof. vm_compute. reflexivity. Qed.

Lemma old_condition_refuted_instance :
  let c := run_old toy_H toy_json toy_c0 [EvData T_HDR; EvData T_WIT] in
  c_open c = false /\ c_lost c = true /\ w_data (c_w c) = [] /\ c_received c = 0.
Proof.
  assert (Hn : 0 < 24 <= MAX_BLOB_SIZE) by (vm_compute; split; [reflexivity|discriminate]).
  exact (old_condition_refuted toy_H toy_json T_HDR T_R T_HASH 24 toy_parse toy_end toy_noprefix toy_short eq_refl Hn
           T_WIT T_R' 24%nat toy_wit eq_refl None toy_c0 toy_init).
Qed.

Lemma repaired_completes_instance :
  let c := drain (run toy_H toy_json toy_c0 [EvData T_HDR; EvDrain; EvData T_WIT]) in
  c_phase c = PhDone (DlOk 24) /\ c_verified c = Some T_WIT /\ c_received c = 24 /\ c_open c = true /\
  w_data (c_w c) = T_WIT.
Proof.
  assert (Hn : 0 < 24 <= MAX_BLOB_SIZE) by (vm_compute; split; [reflexivity|discriminate]).
  assert (Hacc : acceptable T_HASH (Some 24) T_R = true) by (vm_compute; reflexivity).
  assert (Hlen : zlen T_WIT = 24) by (vm_compute; reflexivity).
  assert (Hok : Forall sched_ok [EvData T_HDR; EvDrain; EvData T_WIT]).
  { constructor; [cbn; discriminate|]. constructor; [exact I|]. constructor; [cbn; discriminate|constructor]. }
  exact (honest_transfer_completes toy_H toy_json T_HDR T_R T_HASH 24 T_WIT toy_parse toy_end toy_noprefix toy_short
           eq_refl Hn Hacc Hlen eq_refl None 3 toy_c0 _ toy_start Hok eq_refl).
Qed.

(* the known finding race-length-poison, in the model:
   the blob (24 bytes) is requested by hash only; a peer announces length 25 and closes; the announced length stays in
   the blob; the honest peer asked next (same blob: known length = what the first download left) is REFUSED *)
Definition T_LIAR : bytes := bs "{""incoming_blob"": {""blob_hash"": ""h"", ""length"": 25}}".
Definition T_RL : response := mkResp (AvSingle T_HASH) PrAccepted (BrIncoming (Some T_HASH) (LInt 25)).
Definition toy_json2 (s : bytes) : jres :=
  if bytes_eqb s T_LIAR then JResp T_RL else toy_json s.
Definition poisoned : client := run toy_H toy_json2 toy_c0 [EvData T_LIAR; EvDrain; EvLost; EvDrain].

Lemma length_poison_refuted_instance :
  c_phase poisoned = PhDone DlCancelled /\ c_verified poisoned = None /\ c_len poisoned = Some 25 /\
  let retry := drain (run toy_H toy_json2 (request T_HASH (c_len poisoned) poisoned) [EvData T_HDR; EvDrain; EvData T_WIT]) in
  c_phase retry = PhDone (DlClosed 0) /\ c_verified retry = None /\ c_open retry = false.
Proof. vm_compute. repeat split; reflexivity. Qed.
