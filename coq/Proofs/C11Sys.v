(* The table driven by the modelled PeerManager, clock and protocol queue is an instance of the table
   histories the theorems quantify over; a contact handed to the protocol is never lost *)
From Coq Require Import NArith List Bool.
From LV Require Import Model.C11 Model.C11Spec Proofs.C11Base.
Import ListNotations.
Local Open Scope N_scope.

Lemma sys_step_tab own s o :
  s_tab (fst (sys_step true own s o)) =
  match table_op s o with
  | Some to => fst (step true own (s_tab s) to)
  | None => s_tab s
  end.
Proof.
  unfold sys_step. destruct (table_op s o) as [to |] eqn:E.
  - destruct (step true own (s_tab s) to). destruct o; reflexivity.
  - destruct o; try discriminate E; try reflexivity.
    destruct ((pid p =? own) || existsb (peer_eqb p) (s_pending s)); reflexivity.
Qed.

Lemma sys_run_from_compile own ops : forall s,
  s_tab (sys_run_from true own s ops) = fst (run_from true own (s_tab s) (compile own s ops)).
Proof.
  induction ops as [| o r IH]; intros s; cbn [sys_run_from compile]; [reflexivity |].
  rewrite IH, sys_step_tab. destruct (table_op s o) as [to |]; [| reflexivity].
  cbn [run_from]. destruct (step true own (s_tab s) to) as [t' x]. cbn [fst].
  destruct (run_from true own t' (compile own (fst (sys_step true own s o)) r)). reflexivity.
Qed.

Lemma compile_Forall own (P : sop -> Prop) (Q : op -> Prop) :
  (forall s o to, table_op s o = Some to -> P o -> Q to) ->
  forall ops s, Forall P ops -> Forall Q (compile own s ops).
Proof.
  intros H. induction ops as [| o r IH]; intros s V; cbn [compile]; [constructor |].
  apply Forall_cons_iff in V. destruct V as (Vo & Vr).
  destruct (table_op s o) as [to |] eqn:E; [constructor; eauto | auto].
Qed.

Lemma table_op_valid s o to : table_op s o = Some to -> sop_valid o -> op_valid to.
Proof.
  destruct o; cbn [table_op]; intros E V; try discriminate E; try (injection E as <-; exact V).
  destruct (existsb (peer_eqb p) (s_pending s)); [injection E as <-; exact V | discriminate E].
Qed.

Lemma proto_probe_nofail pr q : proto_probe pr q <> PLocalFail.
Proof. unfold proto_probe. destruct (pr q); discriminate. Qed.

(* through the protocol, whose probe since ebe3c02 swallows the OSError of a ping that could not be sent, no probe
   outcome reaches the table as a local failure *)
Lemma table_op_nofail s o to : table_op s o = Some to -> sop_proto o -> op_nofail to.
Proof.
  destruct o; cbn [table_op]; intros E V; try discriminate E; try (injection E as <-; exact I).
  - destruct V.
  - injection E as <-. intros q. apply proto_probe_nofail.
  - destruct (existsb (peer_eqb p) (s_pending s)); [injection E as <- | discriminate E].
    intros q. apply proto_probe_nofail.
Qed.

Lemma pm_refines own sops :
  Forall sop_valid sops ->
  exists ops, Forall op_valid ops /\ s_tab (sys_run own sops) = run own ops /\
              (Forall sop_proto sops -> Forall op_nofail ops).
Proof.
  intros V. exists (compile own sys_init sops). split; [apply (compile_Forall own _ _ table_op_valid); exact V |].
  split; [unfold sys_run, run; apply sys_run_from_compile | apply (compile_Forall own _ _ table_op_nofail)].
Qed.

Lemma pending_step own s o p :
  In p (s_pending s) ->
  In p (s_pending (fst (sys_step true own s o))) \/ exists e, table_op s o = Some (Add p e).
Proof.
  intros Hp. unfold sys_step. destruct (table_op s o) as [to |] eqn:E.
  - destruct (step true own (s_tab s) to) as [t' x]. destruct o; cbn [fst s_pending]; auto.
    cbn [table_op] in E. destruct (existsb (peer_eqb p0) (s_pending s)); [| discriminate E].
    destruct (peer_eqb p0 p) eqn:Eq.
    + apply peer_eqb_spec in Eq. subst p0. right. eauto.
    + left. apply remove_first_keeps; assumption.
  - destruct o; cbn [fst s_pending]; auto.
    destruct ((pid p0 =? own) || existsb (peer_eqb p0) (s_pending s)); cbn [fst s_pending]; auto.
    left. apply in_or_app. auto.
Qed.

Lemma report_step own s p : pid p <> own -> In p (s_pending (fst (sys_step true own s (SReport p)))).
Proof.
  intros Np. unfold sys_step. cbn [table_op].
  destruct ((pid p =? own) || existsb (peer_eqb p) (s_pending s)) eqn:E; cbn [fst s_pending].
  - apply orb_true_iff in E. destruct E as [E | E]; [apply N.eqb_eq in E; contradiction |].
    apply existsb_peer_eqb. exact E.
  - apply in_or_app. right. left. reflexivity.
Qed.

(* a contact handed to KademliaProtocol.add_peer is still queued or has been offered to the table *)
Lemma offered_or_pending own ops : forall s p,
  pid p <> own ->
  In p (s_pending s) \/ In (SReport p) ops ->
  In p (s_pending (sys_run_from true own s ops)) \/ exists e, In (Add p e) (compile own s ops).
Proof.
  induction ops as [| o r IH]; intros s p Np H; cbn [sys_run_from compile].
  - destruct H as [H | []]. left. exact H.
  - assert (Step : (In p (s_pending (fst (sys_step true own s o))) \/ In (SReport p) r) \/
                   exists e, table_op s o = Some (Add p e)).
    { destruct H as [Hp | [-> | Hr]]; [| left; left; apply report_step; exact Np | auto].
      destruct (pending_step own s o p Hp); auto. }
    destruct Step as [Hn | (e & E)]; [| right; exists e; rewrite E; left; reflexivity].
    destruct (IH (fst (sys_step true own s o)) p Np Hn) as [H1 | (e & H1)]; [auto |].
    right. exists e. destruct (table_op s o); [right |]; exact H1.
Qed.
