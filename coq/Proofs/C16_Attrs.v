(* The hex views of Model.C16_Attrs. The model's hexlify / unhexlify are the terms of Lib/Hex.v, so the round trip,
   injectivity and length come from there by conversion; added here: the digits written are lower case, and a claim
   id is the hex of the reversed hash. *)
From Coq Require Import ZArith List Bool Lia.
From LV Require Import Lib.Bytes Model.C16_Attrs.
From LV Require Lib.Hex.
Import ListNotations.
Local Open Scope N_scope.

Lemma hex_digit_lower n : n < 16 -> is_lower_hex (hex_digit n) = true.
Proof.
  intro H. unfold is_lower_hex. rewrite (Hex.hex_digit_code n H : N_of_byte (hex_digit n) = _). destruct (N.ltb_spec n 10).
  - destruct (range_spec 48 57 (48 + n)); [reflexivity | lia].
  - destruct (range_spec 97 102 (87 + n)); [apply orb_true_r | lia].
Qed.

Lemma unhexlify_hexlify bs : unhexlify (hexlify bs) = Some bs.
Proof. exact (Hex.unhexlify_hexlify bs). Qed.

Lemma hexlify_inj a b : hexlify a = hexlify b -> a = b.
Proof. exact (Hex.hexlify_inj a b). Qed.

Lemma hexlify_length bs : length (hexlify bs) = (2 * length bs)%nat.
Proof. exact (Hex.hexlify_length bs). Qed.

Lemma hexlify_lower bs : forallb is_lower_hex (hexlify bs) = true.
Proof. apply forallb_forall, Forall_forall, (Hex.hexlify_Forall _ hex_digit_lower). Qed.

Lemma claim_id_roundtrip h : hash_of_claim_id (claim_id_of_hash h) = Some h.
Proof. unfold hash_of_claim_id, claim_id_of_hash. rewrite unhexlify_hexlify, rev_involutive. reflexivity. Qed.

(* 40 lower-case hex digits: a full claim id of the URL grammar *)
Lemma claim_id_shape h : length h = 20%nat ->
  length (claim_id_of_hash h) = 40%nat /\ forallb is_lower_hex (claim_id_of_hash h) = true.
Proof.
  intro H. unfold claim_id_of_hash. split; [rewrite hexlify_length, rev_length, H; reflexivity | apply hexlify_lower].
Qed.
