(* What one add_peer call does to a well-formed table.
   The eviction loop leaves a table in which nobody holds the newcomer's endpoint under another id ([NC]); on
   such a table every recursive call finds its eviction loop idle, so one induction on the fuel, with the width
   of the looked-up bucket as the measure, describes the whole call ([outcome]). The eviction loop and a split
   leave the contacts as they were up to those at the newcomer's endpoint ([upto]); along that relation the outcome
   of the call that goes on is an outcome of the call that was made ([outcome_mono]). *)
From Coq Require Import NArith List Bool Lia Permutation Arith.
From LV Require Import Lib.Lists Model.C11 Model.C11Spec Proofs.C11Base Proofs.C11Join.
Import ListNotations.
Local Open Scope N_scope.

Lemma choose_replace_in e b q : choose_replace e b = Some q -> In q (bpeers b).
Proof.
  unfold choose_replace. intros CR.
  destruct (filter (fun q0 => is_stale (lrs e q0)) (filter (fun q0 => negb (good e q0)) (firstn K (bpeers b))))
    as [| q0 l0] eqn:Fl.
  - destruct (bpeers b) as [| h l]; [discriminate |]. destruct (is_fresh (lrs e h)); [discriminate |].
    injection CR as <-. left. reflexivity.
  - injection CR as <-. assert (H : In q0 (q0 :: l0)) by (left; reflexivity). rewrite <- Fl in H.
    apply filter_In in H. destruct H as (H & _). apply filter_In in H. destruct H as (H & _).
    eapply sub_In; [apply firstn_sub | exact H].
Qed.

(* two contacts with different ids in one range *)
Lemma full_width own pre b post :
  WF own (pre ++ b :: post) -> (2 <= length (bpeers b))%nat -> blo b + 2 <= bhi b.
Proof.
  intros W. destruct (wf_bucket own pre b post W) as (F & _).
  pose proof (NoDup_map_sub pid _ _ (bucket_sub_contacts pre b post) (wf_ids _ _ W)) as N. revert N F.
  destruct (bpeers b) as [| x [| y l]]; cbn; try lia. intros N F _.
  inversion N as [| ? ? Nx _]; subst. inversion F as [| ? ? Fx F']; subst. inversion F' as [| ? ? Fy _]; subst.
  assert (dist own (pid x) <> dist own (pid y)).
  { intros E. apply dist_inj in E. apply Nx. left. auto. }
  lia.
Qed.

Lemma bucket_ok_filter own b lo hi f :
  bucket_ok own b ->
  (forall q, f q = true -> blo b <= dist own (pid q) < bhi b -> lo <= dist own (pid q) < hi) ->
  bucket_ok own (mkB lo hi (filter f (bpeers b))).
Proof.
  intros (R & L) H. split; cbn [bpeers blo bhi].
  - apply Forall_forall. intros q Hq. apply filter_In in Hq. destruct Hq as (Hq & Fq).
    rewrite Forall_forall in R. auto.
  - eapply Nat.le_trans; [apply filter_length_le | exact L].
Qed.

Lemma split_wf own pre b post b1 b2 :
  WF own (pre ++ b :: post) -> blo b + 2 <= bhi b -> split_bucket own b = (b1, b2) ->
  WF own (pre ++ b1 :: b2 :: post) /\
  Permutation (contacts (pre ++ b :: post)) (contacts (pre ++ b1 :: b2 :: post)).
Proof.
  intros W W2 S. unfold split_bucket in S. injection S as <- <-.
  pose proof (wf_bucket own pre b post W) as Ob.
  set (sp := bhi b - (bhi b - blo b) / 2).
  assert (Hsp : blo b < sp < bhi b) by (unfold sp; destruct (half_bounds (bhi b - blo b)) as (h & -> & Hh); lia).
  clearbody sp.   (* of the midpoint only [Hsp] is used; lia would take the division apart at every call *)
  set (inr := fun q : peer => (sp <=? dist own (pid q)) && (dist own (pid q) <? bhi b)).
  set (b1 := mkB (blo b) sp (filter (fun q => negb (inr q)) (bpeers b))).
  set (b2 := mkB sp (bhi b) (filter inr (bpeers b))).
  assert (PP : Permutation (contacts (pre ++ b :: post)) (contacts (pre ++ b1 :: b2 :: post))).
  { rewrite !contacts_mid, contacts_cons. cbn [bpeers b1 b2]. apply Permutation_app_head. rewrite app_assoc.
    apply Permutation_app_tail. apply filter_partition_perm. }
  split; [| exact PP]. apply (wf_splice own pre [b] [b1; b2] post W).
  - intros lo hi. cbn [chain blo bhi b1 b2]. intros (E1 & E2 & E3). repeat split; lia.
  - constructor; [| constructor; [| constructor]]; (apply bucket_ok_filter; [exact Ob |]); unfold inr; intros q Fq Rq.
    + apply negb_true_iff, andb_false_iff in Fq. rewrite N.leb_gt, N.ltb_ge in Fq. lia.
    + apply andb_true_iff in Fq. rewrite N.leb_le, N.ltb_lt in Fq. lia.
  - eapply NoDup_map_perm; [exact PP | apply W].
  - eapply NoDup_map_perm; [exact PP | apply W].
Qed.

Lemma split_found own d pre b post b1 b2 w :
  blo b <= d < bhi b -> split_bucket own b = (b1, b2) -> bhi b - blo b <= 2 * w ->
  exists pre' b' post', pre ++ b1 :: b2 :: post = pre' ++ b' :: post' /\ blo b' <= d < bhi b' /\ bhi b' - blo b' <= w.
Proof.
  intros R S Wd. unfold split_bucket in S.
  destruct (half_bounds (bhi b - blo b)) as (h & Eh & Hh). rewrite Eh in S. injection S as E1 E2.
  destruct (N.lt_ge_cases d (bhi b - h)) as [Lt | Ge].
  - exists pre, b1, (b2 :: post). split; [reflexivity |]. rewrite <- E1. cbn [blo bhi]. lia.
  - exists (pre ++ [b1]), b2, post. split; [rewrite <- app_assoc; reflexivity |]. rewrite <- E2. cbn [blo bhi]. lia.
Qed.

Lemma should_split_true own i t p :
  (K <= length (contacts t))%nat -> (at_least_as_close own t p < K)%nat -> should_split own i t (pid p) = true.
Proof.
  intros L Cn. unfold should_split. destruct (i <? 1)%nat; [reflexivity |].
  set (key := fun c : peer => dist own (pid c)).
  set (cs := sort_by key (contacts t)).
  assert (Lc : length cs = length (contacts t)) by (apply Permutation_length; apply sort_by_perm).
  assert (E : (length cs <? K)%nat = false) by (apply Nat.ltb_ge; lia). rewrite E.
  destruct cs as [| c0 cs'] eqn:Ecs; [cbn in Lc; unfold K in L; lia |]. rewrite <- Ecs.
  apply N.ltb_lt. destruct (N.lt_ge_cases (dist own (pid p)) (dist own (pid (nth (K - 1) cs (mkPeer 0 0 0))))) as [H | H]; [exact H | exfalso].
  (* otherwise the first K of the sorted contacts are all at least as close as the newcomer *)
  assert (NE : nth_error cs (K - 1) = Some (nth (K - 1) cs (mkPeer 0 0 0))).
  { apply nth_error_nth'. rewrite Ecs, Lc. unfold K in *. lia. }
  pose proof (sorted_nth_count key cs (K - 1)%nat _ (dist own (pid p)) (sort_by_sorted key (contacts t)) NE H) as Hc.
  rewrite (filter_length_perm _ cs (contacts t) (sort_by_perm key (contacts t))) in Hc.
  unfold at_least_as_close in Cn. unfold key in Hc. unfold K in *. lia.
Qed.

Section Add.
Variables (own : N) (e : env) (p : peer).

(* [x] does not hold the newcomer's endpoint under another node id *)
Definition settled (x : peer) : Prop := pkey x = pkey p -> pid x = pid p.
Definition NC (t : table) : Prop := forall x, In x (contacts t) -> settled x.

Lemma settled_iff q : same_key q p && negb (pid q =? pid p) = false <-> settled q.
Proof.
  unfold settled. rewrite <- same_key_pkey. destruct (same_key q p); cbn.
  - rewrite negb_false_iff, N.eqb_eq. split; [auto | intros H; apply H; reflexivity].
  - split; [discriminate | reflexivity].
Qed.

(* [t'] is [t] up to contacts at the newcomer's endpoint, which may have gone *)
Definition upto (t t' : table) : Prop :=
  (forall x, In x (contacts t') -> In x (contacts t)) /\
  (forall x, In x (contacts t) -> pkey x <> pkey p -> In x (contacts t')).

Lemma upto_refl t : upto t t.
Proof. split; auto. Qed.

Lemma upto_trans t0 t t' : upto t0 t -> upto t t' -> upto t0 t'.
Proof. intros (A & B) (A' & B'). split; auto. Qed.

Lemma evict_spec snap : forall t,
  WF own t -> Forall (fun q => dist own (pid q) < M) snap ->
  exists t1, evict true own snap t p = Some t1 /\ WF own t1 /\ upto t t1 /\
    (forall x, In x (contacts t1) -> In x snap -> settled x) /\ (joined t -> joined t1).
Proof.
  induction snap as [| q r IH]; intros t W D; cbn [evict].
  - exists t. split; [reflexivity |]. split; [assumption |]. split; [apply upto_refl |]. split; [intros x _ [] | auto].
  - apply Forall_cons_iff in D. destruct D as (Dq & Dr).
    destruct (same_key q p && negb (pid q =? pid p)) eqn:Cq.
    + destruct (remove_peer_spec own t q W Dq) as (t' & -> & W' & Ex & _).
      destruct (IH (join true t') (join_wf own t' W') Dr) as (t1 & E1 & W1 & (B1 & K1) & NC1 & J1).
      rewrite join_contacts in B1, K1.
      exists t1. split; [exact E1 |]. split; [exact W1 |]. split; [split |]; [| | split].
      * intros x Hx. apply (Ex x), B1, Hx.
      * intros x Hx Nk. apply K1; [| exact Nk]. apply Ex. split; [exact Hx |]. intros ->.
        apply andb_true_iff in Cq. destruct Cq as (Cq & _). apply same_key_pkey in Cq. contradiction.
      * intros x Hx [-> | Hr]; [| auto]. destruct (proj1 (Ex x) (B1 x Hx)) as (_ & Nq). congruence.
      * intros _. apply J1, joined_join.
    + destruct (IH t W Dr) as (t1 & E1 & W1 & U1 & NC1 & J1).
      exists t1. split; [exact E1 |]. split; [exact W1 |]. split; [exact U1 |]. split; [| exact J1].
      intros x Hx [-> | Hr]; [apply settled_iff; exact Cq | auto].
Qed.

Lemma evict_noop rp snap t : (forall x, In x snap -> settled x) -> evict rp own snap t p = Some t.
Proof.
  induction snap as [| q r IH]; intros H; cbn [evict]; [reflexivity |].
  rewrite (proj2 (settled_iff q) (H q (or_introl eq_refl))). apply IH. intros. apply H. right. assumption.
Qed.

Lemma no_id_iff l : existsb (fun q => pid q =? pid p) l = false <-> ~ In (pid p) (map pid l).
Proof.
  rewrite <- not_true_iff_false, existsb_exists, in_map_iff.
  split; intros H (x & A & B); apply H; exists x.
  - split; [exact B | apply N.eqb_eq; exact A].
  - split; [apply N.eqb_eq; exact B | exact A].
Qed.

Lemma bucket_add_none b :
  bucket_add b p = None -> ~ In (pid p) (map pid (bpeers b)) /\ (K <= length (bpeers b))%nat.
Proof.
  unfold bucket_add. destruct (existsb (peer_eqb p) (bpeers b)); [discriminate |].
  destruct (existsb (fun q => pid q =? pid p) (bpeers b)) eqn:E; [discriminate |].
  destruct (length (bpeers b) <? K)%nat eqn:L; [discriminate |]. apply Nat.ltb_ge in L. apply no_id_iff in E. auto.
Qed.

Lemma bucket_add_room b :
  ~ In (pid p) (map pid (bpeers b)) -> (length (bpeers b) < K)%nat ->
  bucket_add b p = Some (mkB (blo b) (bhi b) (bpeers b ++ [p])).
Proof.
  unfold bucket_add. intros Np L.
  replace (existsb (peer_eqb p) (bpeers b)) with false.
  - apply no_id_iff in Np. apply Nat.ltb_lt in L. rewrite Np, L. reflexivity.
  - symmetry. apply not_true_iff_false. intros H. apply existsb_peer_eqb in H. apply Np, in_map, H.
Qed.

Lemma remove_same_id f b :
  (forall x, f x = true -> pid x = pid p) -> existsb f (bpeers b) = true ->
  (length (bpeers b) <= K)%nat -> NoDup (map pid (bpeers b)) ->
  let l := remove_first f (bpeers b) in
  sub l (bpeers b) /\ (length l < K)%nat /\ ~ In (pid p) (map pid l) /\
  (forall y, In y (bpeers b) -> pid y <> pid p -> In y l).
Proof.
  intros Hf Ex Lb I l. destruct (remove_first_perm f (bpeers b) Ex) as (x & Fx & P). apply Hf in Fx. fold l in P.
  split; [apply remove_first_sub |]. split; [apply Permutation_length in P; cbn [length] in P; lia |].
  pose proof (NoDup_map_perm pid _ _ P I) as I'. cbn [map] in I'. apply NoDup_cons_iff in I'.
  split; [rewrite <- Fx; apply I' |].
  intros y Hy Ny. eapply Permutation_in in Hy; [| exact P]. destruct Hy as [<- | Hy]; [congruence | exact Hy].
Qed.

(* whichever branch it takes, a successful KBucket.add_peer keeps of the bucket everything but the entry with the
   newcomer's id (its very entry, or the entry of the same id at another address, or nothing) and appends the newcomer *)
Lemma bucket_add_some b b' :
  (length (bpeers b) <= K)%nat -> NoDup (map pid (bpeers b)) -> bucket_add b p = Some b' ->
  exists l, b' = mkB (blo b) (bhi b) (l ++ [p]) /\ sub l (bpeers b) /\ (length l < K)%nat /\
    ~ In (pid p) (map pid l) /\ (forall y, In y (bpeers b) -> pid y <> pid p -> In y l).
Proof.
  intros Lb I A. unfold bucket_add in A.
  destruct (existsb (peer_eqb p) (bpeers b)) eqn:E1.
  { injection A as <-. eexists. split; [reflexivity | apply remove_same_id; auto].
    intros x Hx. apply peer_eqb_spec in Hx. subst x. reflexivity. }
  destruct (existsb (fun q => pid q =? pid p) (bpeers b)) eqn:E2.
  { injection A as <-. eexists. split; [reflexivity | apply remove_same_id; auto]. intros x Hx. apply N.eqb_eq. exact Hx. }
  destruct (length (bpeers b) <? K)%nat eqn:E3; [| discriminate]. injection A as <-. apply Nat.ltb_lt in E3.
  exists (bpeers b). split; [reflexivity |]. split; [apply sub_refl |]. split; [exact E3 |].
  split; [apply no_id_iff; exact E2 | auto].
Qed.

Definition closer (t : table) : Prop := (at_least_as_close own t p < K)%nat.

(* add_peer on table [t] answered [r] after probing [pr] and left [t'] *)
Inductive outcome (t : table) : res -> list peer -> table -> Prop :=
| admitted pr t' :
    WF own t' -> In p (contacts t') ->
    (forall x, In x (contacts t') -> x = p \/ In x (contacts t)) ->
    (forall x, In x (contacts t) -> pid x <> pid p -> pkey x <> pkey p -> In x pr \/ In x (contacts t')) ->
    (length pr <= 1)%nat -> Forall (fun q => probe e q = PDead) pr ->
    outcome t (Ret true) pr t'
| refused r pr t' :
    WF own t' -> ~ closer t -> (forall x, In x (contacts t') -> pid x <> pid p) -> upto t t' ->
    (length pr <= 1)%nat ->
    r = Ret false \/ r = ErrProbe /\ (exists q, pr = [q] /\ probe e q = PLocalFail /\ In q (contacts t')) ->
    outcome t r pr t'.

(* The one way in: the bucket whose range holds the newcomer keeps the contacts [l], none of them with the
   newcomer's id, and takes the newcomer. A successful KBucket.add_peer ([l] from [bucket_add_some]) and the second
   attempt after a dead probe ([l] = the bucket without the contact that did not answer) are both of this form. *)
Lemma put_admitted pre b post l pr :
  let t := pre ++ b :: post in
  WF own t -> NC t -> blo b <= dist own (pid p) < bhi b ->
  sub l (bpeers b) -> (length l < K)%nat -> ~ In (pid p) (map pid l) ->
  (forall x, In x (bpeers b) -> pid x <> pid p -> In x pr \/ In x l) ->
  (length pr <= 1)%nat -> Forall (fun q => probe e q = PDead) pr ->
  let t' := pre ++ mkB (blo b) (bhi b) (l ++ [p]) :: post in
  outcome t (Ret true) pr t' /\ (joined t -> joined t').
Proof.
  intros t W N R S L Np Kp One Dead t'. set (bm := mkB (blo b) (bhi b) l).
  pose proof (wf_sub own pre b post l W S) as Wm. fold bm in Wm.
  pose proof (contacts_mid_sub pre b bm post S) as Sm.
  (* a contact with the newcomer's id would lie in the bucket whose range holds its distance *)
  assert (Nid : ~ In (pid p) (map pid (contacts (pre ++ bm :: post)))).
  { intros H. apply Np. exact (id_found own pre bm post (pid p) Wm R H). }
  assert (P : Permutation (contacts t') (p :: contacts (pre ++ bm :: post))).
  { apply (contacts_mid_perm pre _ bm post [p]). cbn [bpeers]. apply Permutation_app_comm. }
  split.
  - apply admitted; [| | | | exact One | exact Dead].
    + apply (wf_splice own pre [bm] [_] post Wm).
      * auto.
      * constructor; [| constructor]. destruct (wf_bucket own pre bm post Wm) as (Rb & _). split; cbn [bpeers blo bhi].
        -- apply Forall_app. split; [exact Rb | constructor; [exact R | constructor]].
        -- rewrite app_length. cbn [length]. lia.
      * eapply NoDup_map_perm; [symmetry; exact P |]. cbn [map]. constructor; [exact Nid | apply Wm].
      * eapply NoDup_map_perm; [symmetry; exact P |]. cbn [map]. constructor; [| apply Wm].
        (* a contact at the newcomer's endpoint would carry its id *)
        intros Hin. apply in_map_iff in Hin. destruct Hin as (x & Ex & Hx).
        apply Nid. rewrite <- (N x (sub_In _ _ _ Sm Hx) Ex). apply in_map. exact Hx.
    + rewrite P. left. reflexivity.
    + intros x Hx. rewrite P in Hx. destruct Hx as [<- | Hx]; [auto | right; eapply sub_In; eauto].
    + intros x Hx Nx _. destruct (in_contacts_swap pre b (mkB (blo b) (bhi b) (l ++ [p])) post x Hx) as [Hb | H]; [| auto].
      destruct (Kp x Hb Nx) as [H | H]; [auto | right]. apply in_contacts_mid, in_or_app. auto.
  - intros J. eapply joined_replace; [exact J |]. cbn [bpeers]. intros E. apply app_eq_nil in E. destruct E; discriminate.
Qed.

Lemma add_found pre b post b' :
  let t := pre ++ b :: post in
  WF own t -> NC t -> blo b <= dist own (pid p) < bhi b -> bucket_add b p = Some b' ->
  outcome t (Ret true) [] (pre ++ b' :: post) /\ (joined t -> joined (pre ++ b' :: post)).
Proof.
  intros t W N R A. destruct (wf_bucket own pre b post W) as (_ & Lb).
  destruct (bucket_add_some b b' Lb) as (l & -> & S & L & Np & Kp);
    [eapply NoDup_map_sub; [apply bucket_sub_contacts | apply W] | exact A |].
  apply (put_admitted pre b post l [] W N R S L Np); auto.
Qed.

(* the contact that did not answer the probe has left a bucket that did not hold the newcomer's id: the second
   attempt finds room and inserts at once *)
Lemma retry_inserts f pre b post q :
  WF own (pre ++ b :: post) -> NC (pre ++ b :: post) ->
  blo b <= dist own (pid p) < bhi b -> ~ In (pid p) (map pid (bpeers b)) ->
  In q (bpeers b) -> probe e q = PDead ->
  exists t', add_peer true own e (S f) (pre ++ bucket_remove b q :: post) p = (Ret true, [], t') /\
    outcome (pre ++ b :: post) (Ret true) [q] t' /\ (joined (pre ++ b :: post) -> joined t').
Proof.
  intros W N R NoId Hq Pq. destruct (wf_bucket own pre b post W) as (_ & Lb).
  pose proof (remove_first_sub (peer_eqb q) (bpeers b)) as S.
  set (l := remove_first (peer_eqb q) (bpeers b)) in *.
  assert (Nl : ~ In (pid p) (map pid l)) by (intros H; apply NoId; eapply sub_In; [apply sub_map; exact S | exact H]).
  assert (L : (length l < K)%nat).
  { destruct (remove_first_perm (peer_eqb q) (bpeers b)) as (x & _ & P); [apply existsb_peer_eqb; exact Hq |].
    apply Permutation_length in P. cbn [length] in P. fold l in P. lia. }
  eexists. split.
  { cbn [add_peer]. rewrite evict_noop.
    - rewrite (find_bucket_at own (pid p) 0 pre (bucket_remove b q) post M);
        [| apply (wf_sub own pre b post l W S) | exact R].
      rewrite (bucket_add_room (bucket_remove b q) Nl L). reflexivity.
    - intros x Hx. apply N. exact (sub_In _ _ x (contacts_mid_sub pre b (bucket_remove b q) post S) Hx). }
  apply (put_admitted pre b post l [q] W N R S L Nl); [| apply le_n | constructor; [exact Pq | constructor]].
  intros x Hx _. destruct (peer_eqb q x) eqn:E; [left; left; apply peer_eqb_spec; exact E | right].
  apply remove_first_keeps; assumption.
Qed.

Lemma outcome_mono t0 t r pr t' : WF own t -> upto t0 t -> outcome t r pr t' -> outcome t0 r pr t'.
Proof.
  intros Wt U [pr' t1 W Hp Back Keep One Dead | r' pr' t1 W Nc Np U' One Why]; pose proof U as (In1 & In2).
  - apply admitted; auto. intros x Hx. destruct (Back x Hx); auto.
  - apply refused; auto; [| apply (upto_trans t0 t); assumption].
    (* the contacts of [t] are distinct and among those of [t0]: no more of them are close *)
    intros C. apply Nc. unfold closer, at_least_as_close in *. eapply Nat.le_lt_trans; [| exact C].
    apply NoDup_incl_length; [apply NoDup_filter, (NoDup_map_inv pid), Wt |].
    intros x Hx. apply filter_In in Hx. apply filter_In. split; [apply In1, Hx | apply Hx].
Qed.

Lemma outcome_res t r pr t' :
  outcome t r pr t' ->
  WF own t' /\ (length pr <= 1)%nat /\
  ((exists v, r = Ret v) \/ r = ErrProbe /\ exists q, pr = [q] /\ probe e q = PLocalFail /\ In q (contacts t')).
Proof.
  intros [pr' t1 W _ _ _ One _ | r' pr' t1 W _ _ _ One Why]; (split; [exact W |]); (split; [exact One |]).
  - left. eauto.
  - destruct Why as [-> | Why]; [left; eauto | right; exact Why].
Qed.

Lemma outcome_refused t r pr t' :
  outcome t r pr t' -> r <> Ret true -> (forall x, In x (contacts t') -> pid x <> pid p) /\ upto t t'.
Proof. intros [pr' t1 | r' pr' t1 _ _ Np U _ _] Nr; [congruence | auto]. Qed.

(* [b] is the bucket whose range holds the newcomer's distance, the one the lookup returns ([find_bucket_at]);
   [k] bounds its width: every split halves it, a full bucket is at least two wide, and the retry after a failed
   probe costs one more level *)
Lemma add_ready fuel : forall k t pre b post,
  t = pre ++ b :: post -> WF own t -> NC t -> blo b <= dist own (pid p) < bhi b ->
  bhi b - blo b <= 2 ^ N.of_nat k -> (k + 2 <= fuel)%nat ->
  match add_peer true own e fuel t p with
  | (r, pr, t') => outcome t r pr t' /\ (is_ret r = true -> joined t -> joined t')
  end.
Proof.
  induction fuel as [| f IH]; intros k t pre b post -> W N R Wd Fu; [lia |].
  cbn [add_peer]. rewrite (evict_noop true _ _ N), (find_bucket_at own (pid p) 0 pre b post M (wf_chain _ _ W) R).
  destruct (bucket_add b p) as [b' |] eqn:A.
  { destruct (add_found pre b post b' W N R A) as (O & J). auto. }
  destruct (bucket_add_none b A) as (NoId & Full).
  destruct (should_split own (length pre) (pre ++ b :: post) (pid p)) eqn:SS.
  - destruct (split_bucket own b) as [b1 b2] eqn:S.
    assert (W2 : blo b + 2 <= bhi b) by (apply (full_width own pre b post W); unfold K in Full; lia).
    destruct k as [| k]; [cbn in Wd; lia |]. rewrite Nat2N.inj_succ, N.pow_succ_r' in Wd.
    destruct (split_wf own pre b post b1 b2 W W2 S) as (Wt & P).
    destruct (split_found own _ pre b post b1 b2 _ R S Wd) as (pre' & bb & post' & E2 & R2 & Wd').
    assert (U : upto (pre ++ b :: post) (pre ++ b1 :: b2 :: post)).
    { split; intros x Hx; [| intros _]; eapply Permutation_in; try exact Hx; [symmetry |]; exact P. }
    specialize (IH k _ pre' bb post' E2 Wt (fun x Hx => N x (proj1 U x Hx)) R2 Wd' ltac:(lia)).
    destruct (add_peer true own e f (pre ++ b1 :: b2 :: post) p) as [[r pr] t3]. destruct IH as (O & _).
    apply (outcome_mono _ _ _ _ _ Wt U) in O.
    destruct (is_ret r) eqn:Rr; [| split; [exact O | congruence]].
    split; [| intros _ _; apply joined_join].
    destruct O; [apply admitted | apply refused]; unfold upto; rewrite ?join_contacts; auto using join_wf.
  - assert (Adm : ~ closer (pre ++ b :: post)).
    { intros Cn. rewrite should_split_true in SS; [discriminate | | exact Cn]. rewrite contacts_mid, !app_length. lia. }
    assert (Nid : forall x, In x (contacts (pre ++ b :: post)) -> pid x <> pid p).
    { intros x Hx E. apply NoId, (id_found own pre b post (pid p) W R). rewrite <- E. apply in_map, Hx. }
    pose proof (fun r pr => refused _ r pr _ W Adm Nid (upto_refl _)) as Stay.
    destruct (choose_replace e b) as [q |] eqn:CR; [| split; [apply Stay; auto | auto]].
    pose proof (choose_replace_in e b q CR) as Hb. pose proof (in_contacts_mid pre b post q Hb) as Hq.
    destruct (probe e q) eqn:Pq.
    + split; [apply Stay; auto | auto].
    + destruct f as [| f]; [lia |].
      destruct (retry_inserts f pre b post q W N R NoId Hb Pq) as (t' & -> & O & J). auto.
    + split; [apply Stay; [apply le_n | right; split; [reflexivity | exists q; auto]] | intros H; discriminate H].
Qed.

(* the looked-up bucket is at most the whole id space wide: 384 halvings and the retry *)
Lemma add_peer_outcome fuel t :
  WF own t -> own < M -> pid p < M -> (386 <= fuel)%nat ->
  match add_peer true own e fuel t p with
  | (r, pr, t') => outcome t r pr t' /\ (is_ret r = true -> joined t -> joined t')
  end.
Proof.
  intros W Ho Hp Fu. destruct fuel as [| f]; [lia |].
  destruct (evict_spec (contacts t) t W (contacts_dist_lt own t W)) as (t1 & E & W1 & U & N0 & J1).
  assert (N1 : NC t1) by (intros x Hx; apply N0; [exact Hx | apply U, Hx]).
  assert (Eq : add_peer true own e (S f) t p = add_peer true own e (S f) t1 p).
  { cbn [add_peer]. rewrite E, (evict_noop true (contacts t1) t1 N1). reflexivity. }
  rewrite Eq. pose proof W1 as [C1 _ _ _].
  destruct (chain_covers 0 t1 M (dist own (pid p)) C1) as (pre & b & post & Et & R).
  { split; [lia | apply dist_lt_M; assumption]. }
  assert (Wd : bhi b - blo b <= 2 ^ N.of_nat 384).
  { destruct (chain_in_bounds 0 t1 M b C1) as (_ & _ & H); [rewrite Et; apply in_elt |].
    change (N.of_nat 384) with HASH_BITS. fold M. lia. }
  pose proof (add_ready (S f) 384 t1 pre b post Et W1 N1 R Wd ltac:(lia)) as H.
  destruct (add_peer true own e (S f) t1 p) as [[r pr] t']. destruct H as (O & J).
  split; [| auto]. apply (outcome_mono t t1); assumption.
Qed.

End Add.

Arguments outcome_res {own e p t r pr t'}.
Arguments outcome_refused {own e p t r pr t'}.
