(* C08: a transaction is only ever verified against a header of a chunk that matches its built-in
   checkpoint -- for every sequence of verification attempts and whatever the server answers. *)
From Coq Require Import ZArith List Bool Lia.
From LV Require Import Lib.Bytes Lib.Lists Model.C08 Model.C08_Chunk Proofs.C08.
Import ListNotations.

Section Chunk.
Variable dsha : bytes -> bytes.
Variable csize : nat.
Variable cps : list bytes.
Notation total := (total csize cps).
Notation table := (table csize cps).
Notation attempt := (attempt dsha csize cps).
Notation attempts := (attempts dsha csize cps).

(* chunk number k holds headers c and c hashes to the k-th checkpoint *)
Definition matches_checkpoint (k : nat) (c : list bytes) : Prop := nth_error cps k = Some (dsha (concat c)).
Definition legit (present : chunks) : Prop := Forall (fun kc => matches_checkpoint (fst kc) (snd kc)) present.

Lemma find_chunk_legit present k c : legit present -> find_chunk k present = Some c -> matches_checkpoint k c.
Proof.
  induction 1 as [|[k' c'] r Hc _ IH]; cbn [find_chunk]; [discriminate|].
  destruct (Nat.eqb_spec k k') as [->|]; [|exact IH]. intro F. injection F as <-. exact Hc.
Qed.

Definition att_ok (a : attempt_in) (o : att_result) : Prop :=
  match o with
  | AttDone r _ =>
      t_verified (mv_state r) = true ->
      exists c, matches_checkpoint (Z.to_nat (a_height a) / csize) c /\
                in_range (table (Z.to_nat (a_height a) / csize) c) (a_height a) /\
                proof_checks dsha (table (Z.to_nat (a_height a) / csize) c) (a_raw a) (a_height a)
                             (effective (a_arg a) (a_net a))
  | AttMismatch st => t_verified st = false
  end.

Lemma attempt_ok present st a : legit present -> t_verified st = false ->
  legit (fst (attempt present st a)) /\ att_ok a (snd (attempt present st a)).
Proof.
  intros HL Hst. unfold C08_Chunk.attempt.
  assert (V : forall c asked, matches_checkpoint (Z.to_nat (a_height a) / csize) c ->
              att_ok a (AttDone (maybe_verify dsha (table (Z.to_nat (a_height a) / csize) c) st (a_raw a)
                                              (a_height a) (a_arg a) (a_net a)) asked)).
  { intros c asked Hc V. exists c. split; [exact Hc|]. now apply (verified_iff dsha) in V. }
  destruct (find_chunk _ present) as [c|] eqn:F; [split; [exact HL | apply V, (find_chunk_legit _ _ _ HL F)]|].
  destruct (_ && is_ret_tx _) eqn:R.
  - destruct (nth_error cps _) as [cp|] eqn:N; [|split; assumption].
    destruct (bytes_eqb _ cp) eqn:E; [|split; assumption].
    apply bytes_eqb_eq in E. rewrite <- E in N. split; [constructor; assumption | exact (V _ _ N)].
  - (* the guard failed: the probe is out of range or did not end with RetTx, so it left the flag as it was *)
    split; [exact HL|]. intro V'. exfalso.
    destruct (verified_char dsha (repeat [] total) st (a_raw a) (a_height a) (a_arg a) (a_net a)) as [_ C].
    rewrite C in V'; [congruence|]. unfold in_range. rewrite repeat_length. intros [[H0 H1] Ho].
    apply Z.ltb_lt in H0, H1. rewrite H0, H1, Ho in R. discriminate R.
Qed.

Lemma attempts_ok : forall l present, legit present -> Forall2 att_ok l (snd (attempts present l)).
Proof.
  induction l as [|a r IH]; intros present HL; cbn [C08_Chunk.attempts]; [constructor|].
  destruct (attempt_ok present {| t_height := (-2)%Z; t_position := (-1)%Z; t_verified := false |} a HL eq_refl)
    as [L1 O1].
  destruct (attempt present _ a) as [p1 o]. specialize (IH p1 L1).
  destruct (attempts p1 r) as [p2 os]. constructor; assumption.
Qed.

(* after a restart on ANY file content: only chunks that hash to their checkpoint count as present, so the
   same guarantee holds for every sequence of attempts that follows *)
Lemma reopen_legit disk : legit (reopen dsha cps disk).
Proof.
  apply Forall_forall. intros [k c] Hin. apply filter_In in Hin as [_ Hf]. cbn [fst snd] in *.
  unfold matches_checkpoint. destruct (nth_error cps k) as [cp|]; [|discriminate].
  apply bytes_eqb_eq in Hf. now rewrite Hf.
Qed.

Lemma nth_table k c h d : (k * csize <= h < k * csize + length c)%nat -> (h < total)%nat ->
  nth h (table k c) d = nth (h - k * csize) c d.
Proof.
  intros H Ht. unfold C08_Chunk.table. rewrite nth_firstn_lt by exact Ht.
  rewrite app_nth2 by (rewrite repeat_length; lia). rewrite repeat_length.
  apply app_nth1. lia.
Qed.

End Chunk.
