(* What BlobManager.setup establishes from ANY state is read off two equations that say what table and completed set
   are afterwards (restart_db_exact, restart_completed_In).  What every operation keeps comes from one closure
   principle (Section Closed: properties of directory, table and completed set that are closed under the elementary
   moves).  The clauses that tie directory, table, completed set and cache together between restarts and through the
   stream manager's start-up are one bundle (inv). *)
From Coq Require Import NArith List Bool.
From LV Require Import Lib.Bytes Lib.Lists Lib.Alist Model.C18.
Import ListNotations.
Local Open Scope N_scope.

Lemma if_pres {A} (P : A -> Prop) (b : bool) (x y : A) : P x -> P y -> P (if b then x else y).
Proof. destruct b; auto. Qed.

Lemma fst_if {A B} (P : A -> Prop) (b : bool) (x y : A * B) : P (fst x) -> P (fst y) -> P (fst (if b then x else y)).
Proof. destruct b; auto. Qed.

Lemma let_pair {A B C} (p : A * B) (f : A -> B -> C) : (let (a, b) := p in f a b) = f (fst p) (snd p).
Proof. destruct p. reflexivity. Qed.

Definition has_key {V} (m : list (name * V)) (k : name) : bool :=
  match lookup m k with Some _ => true | None => false end.

Lemma lookup_app {V} (a b : list (name * V)) k :
  lookup (a ++ b) k = match lookup a k with Some v => Some v | None => lookup b k end.
Proof. induction a as [|[k' v] a IH]; simpl; [reflexivity|]. destruct (bytes_eqb k' k); auto. Qed.

Lemma lookup_remove_key {V} (m : list (name * V)) k k' :
  lookup (remove_key m k) k' = if bytes_eqb k k' then None else lookup m k'.
Proof. rewrite bytes_eqb_sym. exact (alook_adel bytes_eqb bytes_eqb_spec m k k'). Qed.

Lemma lookup_set_key {V} (m : list (name * V)) k v k' :
  lookup (set_key m k v) k' = if bytes_eqb k k' then Some v else lookup m k'.
Proof. unfold set_key. simpl. rewrite lookup_remove_key. destruct (bytes_eqb k k'); reflexivity. Qed.

Lemma lookup_map {V} (f : name * V -> name * V) (g : name -> V -> V) (m : list (name * V)) k :
  (forall p, f p = (fst p, g (fst p) (snd p))) -> lookup (map f m) k = option_map (g k) (lookup m k).
Proof.
  intro H. induction m as [|[a v] m IH]; simpl; [reflexivity|]. rewrite H. simpl.
  destruct (bytes_eqb_spec a k) as [->|_]; [reflexivity | exact IH].
Qed.

Lemma lookup_none_notin {V} (m : list (name * V)) k : lookup m k = None <-> ~ In k (map fst m).
Proof. exact (alook_None bytes_eqb bytes_eqb_spec m k). Qed.

Lemma lookup_some_in {V} (m : list (name * V)) k v : lookup m k = Some v -> In k (map fst m).
Proof. induction m as [|[a x] m IH]; simpl; [discriminate|]. destruct (bytes_eqb_spec a k); auto. Qed.

Lemma NoDup_set_key {V} (m : list (name * V)) k v : NoDup (map fst m) -> NoDup (map fst (set_key m k v)).
Proof.
  intro H. unfold set_key. simpl. constructor; [|apply NoDup_map_filter, H].
  apply lookup_none_notin. rewrite lookup_remove_key, bytes_eqb_refl. reflexivity.
Qed.

Lemma mem_In k l : mem k l = true <-> In k l.
Proof. apply existsb_eqb, bytes_eqb_eq. Qed.

Lemma mem_filter k f l : mem k (filter f l) = mem k l && f k.
Proof. apply eq_true_iff_eq. rewrite andb_true_iff, !mem_In, filter_In. reflexivity. Qed.

Lemma mem_app k a b : mem k (a ++ b) = mem k a || mem k b.
Proof. apply existsb_app. Qed.

Lemma mem_cons k x l : mem k (x :: l) = bytes_eqb x k || mem k l.
Proof. unfold mem. simpl. rewrite (bytes_eqb_sym k x). reflexivity. Qed.

Lemma In_set_add h k l : In h (set_add k l) <-> h = k \/ In h l.
Proof.
  unfold set_add. destruct (mem k l) eqn:E; simpl; [|intuition congruence].
  apply mem_In in E. intuition congruence.
Qed.

Lemma NoDup_set_add l k : NoDup l -> NoDup (set_add k l).
Proof.
  unfold set_add. destruct (mem k l) eqn:E; [tauto|]. constructor; [|assumption].
  rewrite <- mem_In. congruence.
Qed.

Lemma In_fold_set_add h l : forall acc,
  In h (fold_left (fun acc x => set_add x acc) l acc) <-> In h l \/ In h acc.
Proof.
  induction l as [|x l IH]; intro acc; simpl; [tauto|].
  rewrite IH, In_set_add. intuition congruence.
Qed.

Lemma In_set_remove h k l : In h (set_remove k l) <-> In h l /\ h <> k.
Proof. unfold set_remove. rewrite filter_In, negb_true_iff, bytes_eqb_neq. reflexivity. Qed.

Lemma mem_map_filter_key {V} (f : name -> bool) (m : list (name * V)) k :
  mem k (map fst (filter (fun p => f (fst p)) m)) = f k && has_key m k.
Proof.
  unfold has_key. induction m as [|[a e] m IH]; simpl; [symmetry; apply andb_false_r|].
  destruct (f a) eqn:Fa; [simpl map; rewrite mem_cons|]; rewrite IH;
    destruct (bytes_eqb_spec a k) as [->|_]; try rewrite Fa; reflexivity.
Qed.

Lemma is_file_has_key0 d k : is_file d k = true -> has_key d k = true.
Proof. unfold is_file, has_key. destruct (lookup d k) as [[| | |]|]; congruence. Qed.

(* the start-up scan lists exactly the blob-hash names that are (links to) regular files *)
Lemma mem_listed d k : mem k (listed d) = valid_name k && is_file d k.
Proof.
  unfold listed. rewrite (mem_map_filter_key (fun n => valid_name n && is_file d n)).
  destruct (valid_name k); [|reflexivity]. destruct (is_file d k) eqn:F; [|reflexivity].
  rewrite (is_file_has_key0 _ _ F). reflexivity.
Qed.

Lemma mem_listed_all d k : mem k (listed_all d) = valid_name k && has_key d k.
Proof. unfold listed_all. apply mem_map_filter_key. Qed.

Lemma is_file_has_key d k : is_file d k = true -> has_key d k = true.
Proof. exact (is_file_has_key0 d k). Qed.

Lemma is_file_set_key d h sz k : is_file (set_key d h (EFile sz)) k = if bytes_eqb h k then true else is_file d k.
Proof. unfold is_file. rewrite lookup_set_key. destruct (bytes_eqb h k); reflexivity. Qed.

Lemma is_file_remove_key d h k : is_file (remove_key d h) k = if bytes_eqb h k then false else is_file d k.
Proof. unfold is_file. rewrite lookup_remove_key. destruct (bytes_eqb h k); reflexivity. Qed.

Lemma is_file_write_gen d h sz k :
  is_file (write_file d h sz) k = if is_dir d h then is_file d k else if bytes_eqb h k then true else is_file d k.
Proof. unfold write_file. destruct (is_dir d h); [reflexivity | apply is_file_set_key]. Qed.

Lemma is_file_write_nodir d h sz k : is_dir d h = false ->
  is_file (write_file d h sz) k = bytes_eqb h k || is_file d k.
Proof. intro N. rewrite is_file_write_gen, N. reflexivity. Qed.

Lemma is_dir_write_gen d h sz k : is_dir (write_file d h sz) k = true -> is_dir d k = true.
Proof.
  unfold write_file. destruct (is_dir d h); [auto|]. unfold is_dir. rewrite lookup_set_key.
  destruct (bytes_eqb h k); [discriminate | auto].
Qed.

Lemma not_dir_write d h sz k : is_dir d k = false -> is_dir (write_file d h sz) k = false.
Proof. intro N. destruct (is_dir (write_file d h sz) k) eqn:W; [apply is_dir_write_gen in W; congruence | reflexivity]. Qed.

(* every entry of the blob directory is a regular file or a link to one: no sub-directory, dangling link or loop *)
Definition files_only (d : disk_t) : Prop := Forall (fun p => exists sz, snd p = EFile sz) d.

Lemma files_only_lookup d k e : files_only d -> lookup d k = Some e -> exists sz, e = EFile sz.
Proof.
  induction 1 as [|[a x] d Hx Hd IH]; simpl; [discriminate|].
  destruct (bytes_eqb a k); [|exact IH]. intro H. inversion H. subst. exact Hx.
Qed.

Lemma files_only_is_file d k : files_only d -> has_key d k = true -> is_file d k = true.
Proof.
  unfold has_key, is_file. intros F H. destruct (lookup d k) as [e|] eqn:L; [|discriminate].
  destruct (files_only_lookup _ _ _ F L) as [sz ->]. reflexivity.
Qed.

Lemma files_only_not_dir d k : files_only d -> is_dir d k = false.
Proof.
  unfold is_dir. intro F. destruct (lookup d k) as [e|] eqn:L; [|reflexivity].
  destruct (files_only_lookup _ _ _ F L) as [sz ->]. reflexivity.
Qed.

Lemma files_only_remove d k : files_only d -> files_only (remove_key d k).
Proof. apply incl_Forall. apply incl_filter. Qed.

Lemma files_only_set d k e : (exists sz, e = EFile sz) -> files_only d -> files_only (set_key d k e).
Proof. intros E F. constructor; [exact E | apply files_only_remove; exact F]. Qed.

Lemma is_file_write_file d h sz k : files_only d ->
  is_file (write_file d h sz) k = if bytes_eqb h k then true else is_file d k.
Proof. intro F. apply is_file_write_nodir, files_only_not_dir, F. Qed.

Lemma init_files_only : files_only (disk init).
Proof. constructor. Qed.

Lemma status_insert_ignore db h st k :
  db_status (db_insert_ignore db h st) k =
  match db_status db k with Some x => Some x | None => if bytes_eqb h k then Some st else None end.
Proof.
  unfold db_insert_ignore, db_status. destruct (lookup db h) eqn:L.
  - destruct (lookup db k) eqn:Lk; [reflexivity|]. destruct (bytes_eqb_spec h k); [congruence | reflexivity].
  - rewrite lookup_app. destruct (lookup db k); reflexivity.
Qed.

Lemma NoDup_insert_ignore db h st : NoDup (map fst db) -> NoDup (map fst (db_insert_ignore db h st)).
Proof.
  unfold db_insert_ignore, db_status. intro H. destruct (lookup db h) eqn:L; [exact H|].
  rewrite map_app. pose proof (Add_app h (map fst db) []) as A. rewrite app_nil_r in A.
  apply (NoDup_Add A). split; [exact H | apply lookup_none_notin; exact L].
Qed.

Lemma status_update db h st k :
  db_status (db_update db h st) k =
  if bytes_eqb h k then option_map (fun _ => st) (db_status db k) else db_status db k.
Proof.
  unfold db_update, db_status. rewrite (lookup_map _ (fun a s => if bytes_eqb a h then st else s)).
  - rewrite (bytes_eqb_sym k h). destruct (bytes_eqb h k); destruct (lookup db k); reflexivity.
  - intros [a s]. simpl. destruct (bytes_eqb a h); reflexivity.
Qed.

Lemma status_add_finished db h k :
  db_status (db_add db h true) k = if bytes_eqb h k then Some Finished else db_status db k.
Proof.
  unfold db_add. rewrite status_update, status_insert_ignore.
  destruct (bytes_eqb h k); destruct (db_status db k); reflexivity.
Qed.

Lemma status_add_pending db h k :
  db_status (db_add db h false) k =
  match db_status db k with Some x => Some x | None => if bytes_eqb h k then Some Pending else None end.
Proof. apply status_insert_ignore. Qed.

Lemma status_delete db h k : db_status (db_delete db h) k = if bytes_eqb h k then None else db_status db k.
Proof. apply lookup_remove_key. Qed.

Lemma status_delete_all hs k : forall db,
  db_status (db_delete_all db hs) k = if mem k hs then None else db_status db k.
Proof.
  unfold db_delete_all. induction hs as [|h r IH]; intro db; cbn [fold_left]; [reflexivity|].
  rewrite IH, status_delete, mem_cons. destruct (bytes_eqb h k); destruct (mem k r); reflexivity.
Qed.

(* storage.store_stream: the named rows that are missing appear as 'pending', every other row is untouched *)
Lemma status_insert_pending {A} (f : A -> name) (l : list A) k : forall db,
  db_status (fold_left (fun acc x => db_insert_ignore acc (f x) Pending) l db) k =
  match db_status db k with Some x => Some x | None => if mem k (map f l) then Some Pending else None end.
Proof.
  induction l as [|x l IH]; intro db; cbn [fold_left map]; [destruct (db_status db k); reflexivity|].
  rewrite IH, status_insert_ignore, mem_cons.
  destruct (db_status db k); [|destruct (bytes_eqb (f x) k)]; reflexivity.
Qed.

Lemma status_sync db files k :
  db_status (fst (sync_missing db files)) k =
  match db_status db k with
  | Some Finished => if mem k files then Some Finished else Some Pending
  | x => x
  end.
Proof.
  unfold sync_missing, db_status. cbn [fst].
  rewrite (lookup_map _ (fun a s => if is_finished db a && negb (mem a files) then Pending else s)).
  - unfold is_finished, db_status.
    destruct (lookup db k) as [[|]|]; simpl; try reflexivity. destruct (mem k files); reflexivity.
  - intros [a s]. simpl. destruct (is_finished db a && negb (mem a files)); reflexivity.
Qed.

Lemma sync_to_add db files : snd (sync_missing db files) = filter (is_finished db) files.
Proof. reflexivity. Qed.

(* no cached object that [sel] rejects has a file of its name: with [fst], no BlobBuffer has one; with [snd], no
   unverified blob has one *)
Definition fileless (sel : centry -> bool) (d : disk_t) (c : cache_t) : Prop :=
  forall k e, lookup c k = Some e -> sel e = false -> is_file d k = false.

Lemma fileless_set sel d c h v :
  fileless sel d c -> (sel v = false -> is_file d h = false) -> fileless sel d (set_key c h v).
Proof.
  intros J Hv k e. rewrite lookup_set_key. destruct (bytes_eqb_spec h k) as [->|_]; [intros [= <-]; exact Hv | apply J].
Qed.

Lemma ensure_fileless sel d hs : sel (true, true) = true -> forall db c,
  fileless sel d c -> fileless sel d (snd (ensure_completed d hs db c)).
Proof.
  intro S. induction hs as [|h r IH]; intros db c J; cbn [ensure_completed]; [exact J|].
  destruct (is_blob_verified d c h); apply IH; [|exact J].
  destruct (lookup c h); [exact J | apply fileless_set; [exact J | congruence]].
Qed.

Lemma verified_is_file d c h : fileless snd d c -> is_blob_verified d c h = is_file d h.
Proof.
  intro J. unfold is_blob_verified. destruct (is_file d h) eqn:F; [|reflexivity]. destruct (lookup c h) as [e|] eqn:Lc; [|reflexivity].
  destruct (snd e) eqn:Se; [reflexivity|]. rewrite (J _ _ Lc Se) in F. discriminate.
Qed.

(* ensure_completed_blobs_status: when no unverified cached blob has a file, exactly the listed files become 'finished' *)
Lemma ensure_status d hs : forall db c k, fileless snd d c ->
  db_status (fst (ensure_completed d hs db c)) k =
  if mem k hs && is_file d k then Some Finished else db_status db k.
Proof.
  induction hs as [|h r IH]; intros db c k J; cbn [ensure_completed]; [reflexivity|].
  rewrite (verified_is_file d c h J), mem_cons. destruct (is_file d h) eqn:F.
  - rewrite IH.
    + rewrite status_add_finished. destruct (bytes_eqb_spec h k) as [->|_]; [rewrite F; destruct (mem k r)|]; reflexivity.
    + destruct (lookup c h); [exact J | apply fileless_set; [exact J | discriminate]].
  - rewrite IH by exact J. destruct (bytes_eqb_spec h k) as [->|_]; [rewrite F, andb_false_r|]; reflexivity.
Qed.

Lemma restart_eq s :
  restart s =
  let files := listed (disk s) in
  let to_add := filter (is_finished (db s)) files in
  let r := ensure_completed (disk s) (filter (fun f => negb (mem f to_add)) files) (fst (sync_missing (db s) files)) [] in
  mkState (disk s) (fst r) (fold_left (fun acc h => set_add h acc) to_add []) (snd r) true (save s) (marked s).
Proof.
  unfold restart, setup, wipe, sync_missing. cbn [disk db completed cache save marked fst]. rewrite let_pair. reflexivity.
Qed.

Lemma restart_disk s : disk (restart s) = disk s.
Proof. rewrite restart_eq. reflexivity. Qed.

Lemma restart_alive s : alive (restart s) = true.
Proof. rewrite restart_eq. reflexivity. Qed.

(* config.save_blobs plays no part in what a start does to directory, table and completed set *)
Lemma restart_with_same s b :
  disk (restart_with s b) = disk (restart s) /\ db (restart_with s b) = db (restart s) /\
  completed (restart_with s b) = completed (restart s).
Proof. unfold restart_with. rewrite !restart_eq. auto. Qed.

Lemma restart_db_exact s k :
  db_status (db (restart s)) k =
  if valid_name k && is_file (disk s) k then Some Finished
  else match db_status (db s) k with Some Finished => Some Pending | x => x end.
Proof.
  rewrite restart_eq. cbn [db]. rewrite ensure_status by (intros x e H; discriminate).
  rewrite status_sync, !mem_filter, mem_listed. unfold is_finished.
  destruct (valid_name k), (is_file (disk s) k), (db_status (db s) k) as [[|]|]; reflexivity.
Qed.

Lemma restart_completed_In s h :
  In h (completed (restart s)) <->
  valid_name h = true /\ is_file (disk s) h = true /\ db_status (db s) h = Some Finished.
Proof.
  rewrite restart_eq. cbn [completed]. rewrite In_fold_set_add, <- mem_In, mem_filter, mem_listed. unfold is_finished.
  destruct (valid_name h), (is_file (disk s) h), (db_status (db s) h) as [[|]|]; simpl; intuition congruence.
Qed.

Lemma files_finished s h : valid_name h = true -> is_file (disk s) h = true ->
  db_status (db (restart s)) h = Some Finished.
Proof. intros V F. rewrite restart_db_exact, V, F. reflexivity. Qed.

Lemma finished_have_files s h : db_status (db (restart s)) h = Some Finished ->
  valid_name h = true /\ is_file (disk s) h = true.
Proof.
  rewrite restart_db_exact.
  destruct (valid_name h), (is_file (disk s) h); cbn [andb]; auto;
    destruct (db_status (db s) h) as [[|]|]; discriminate.
Qed.

Lemma rows_frame s h : is_file (disk s) h = false ->
  db_status (db (restart s)) h = match db_status (db s) h with Some Finished => Some Pending | x => x end.
Proof. intro M. rewrite restart_db_exact, M. rewrite andb_false_r. reflexivity. Qed.

Lemma rows_not_invented s h : db_status (db s) h = None -> db_status (db (restart s)) h <> None ->
  valid_name h = true /\ is_file (disk s) h = true /\ db_status (db (restart s)) h = Some Finished.
Proof.
  intros D. rewrite restart_db_exact, D.
  destruct (valid_name h), (is_file (disk s) h); cbn [andb]; try congruence. auto.
Qed.

Lemma rows_not_deleted s h : db_status (db s) h <> None -> db_status (db (restart s)) h <> None.
Proof.
  rewrite restart_db_exact.
  destruct (valid_name h && is_file (disk s) h); [discriminate|].
  destruct (db_status (db s) h) as [[|]|]; congruence.
Qed.

(* the whole property, for ANY pre-state: whatever the directory and the table contain *)
Definition bookkeeping_ok (s0 s1 : state) : Prop :=
  disk s1 = disk s0 /\
  (forall h, In h (completed s1) -> valid_name h = true /\ is_file (disk s1) h = true) /\
  (forall h, valid_name h = true -> is_file (disk s1) h = true -> db_status (db s1) h = Some Finished) /\
  (forall h, db_status (db s0) h = Some Finished -> is_file (disk s0) h = false -> db_status (db s1) h = Some Pending) /\
  (forall h, db_status (db s1) h = Some Finished -> valid_name h = true /\ is_file (disk s1) h = true).

Lemma restart_ok s : bookkeeping_ok s (restart s).
Proof.
  unfold bookkeeping_ok. rewrite restart_disk.
  split; [reflexivity|]. split; [intros h H; apply restart_completed_In in H; tauto|].
  split; [apply files_finished|]. split; [|apply finished_have_files].
  intros h D M. rewrite (rows_frame s h M), D. reflexivity.
Qed.

Definition recorded (d : disk_t) (b : db_t) : Prop :=
  forall h, valid_name h = true -> is_file d h = true -> db_status b h = Some Finished.
Definition finished_files (d : disk_t) (b : db_t) : Prop := forall k, db_status b k = Some Finished -> is_file d k = true.
Definition backed (d : disk_t) (l : list name) : Prop := forall k, In k l -> is_file d k = true.

Lemma restart_exact t h : recorded (disk t) (db t) ->
  (In h (completed (restart t)) <-> valid_name h = true /\ is_file (disk t) h = true).
Proof. intro Rc. rewrite restart_completed_In. split; [tauto | intros [V F]; auto]. Qed.

Lemma second_restart_exact s h :
  In h (completed (restart (restart s))) <-> valid_name h = true /\ is_file (disk s) h = true.
Proof. rewrite <- (restart_disk s). apply restart_exact. intros k V. rewrite restart_disk. apply files_finished, V. Qed.

(* whatever is not a (link to a) regular file -- nothing there, a directory, a dangling link -- is neither
   'finished' after a start nor ever reported, whatever the table said *)
Lemma second_restart_general s h : is_file (disk s) h = false ->
  db_status (db (restart s)) h <> Some Finished /\
  ~ In h (completed (restart s)) /\ ~ In h (completed (restart (restart s))).
Proof.
  intro K. split; [|split]; intro H.
  - apply finished_have_files in H as [_ H]. congruence.
  - apply restart_completed_In in H as [_ [H _]]. congruence.
  - apply second_restart_exact in H as [_ H]. congruence.
Qed.

Lemma restart_db_idempotent s h : db_status (db (restart (restart s))) h = db_status (db (restart s)) h.
Proof.
  rewrite (restart_db_exact (restart s)), restart_disk, (restart_db_exact s).
  destruct (valid_name h && is_file (disk s) h); [reflexivity|].
  destruct (db_status (db s) h) as [[|]|]; reflexivity.
Qed.

Lemma restart_stable s h :
  In h (completed (restart (restart (restart s)))) <-> In h (completed (restart (restart s))).
Proof. rewrite !second_restart_exact, restart_disk. reflexivity. Qed.

Lemma announce_finished head s h : In h (announce_list head s) -> db_status (db s) h = Some Finished.
Proof.
  unfold announce_list. intro H. apply filter_In in H as [_ H]. apply andb_true_iff in H as [H _].
  unfold is_finished in H. destruct (db_status (db s) h) as [[|]|]; congruence.
Qed.

Lemma announced_have_files head s h : In h (announce_list head (restart s)) ->
  valid_name h = true /\ is_file (disk (restart s)) h = true.
Proof. intro H. apply announce_finished in H. rewrite restart_disk. apply finished_have_files; assumption. Qed.

Lemma announce_all_exact s h :
  In h (announce_list false (restart s)) <-> valid_name h = true /\ is_file (disk s) h = true.
Proof.
  split.
  - intro H. rewrite <- (restart_disk s). apply (announced_have_files false), H.
  - intros [V K]. pose proof (files_finished s h V K) as D. unfold announce_list. apply filter_In. split.
    + apply lookup_some_in in D. exact D.
    + unfold is_finished. rewrite D. reflexivity.
Qed.

Lemma announce_head_subset s h : In h (announce_list true s) ->
  In h (announce_list false s) /\ mem h (marked s) = true.
Proof.
  unfold announce_list. intro H. apply filter_In in H as [K H]. apply andb_true_iff in H as [H1 H2].
  split; [|exact H2]. apply filter_In. split; [exact K|]. rewrite H1. reflexivity.
Qed.

(* the object returned is the one cached afterwards and no other cache entry moves.  A hit touches nothing; a miss
   returns a verified BlobFile when the file is there with an acceptable length, an unverified object when no file is
   there, and an unverified BlobFile after deleting a file of another length *)
Lemma get_blob_spec sv d c h len d1 e c1 : get_blob sv d c h len = (d1, e, c1) ->
  lookup c1 h = Some e /\ (forall k, bytes_eqb h k = false -> lookup c1 k = lookup c k) /\
  (d1 = d /\ (lookup c h = Some e \/
              lookup c h = None /\ (e = (true, true) /\ is_file d h = true \/ e = (sv, false) /\ is_file d h = false)) \/
   d1 = remove_key d h /\ e = (true, false) /\ (len =? 0) = false).
Proof.
  unfold get_blob, is_file. destruct (lookup c h) as [e0|] eqn:L; [intros [= <- <- <-]; auto 6|].
  assert (Hc : forall v, lookup (set_key c h v) h = Some v /\
                         forall k, bytes_eqb h k = false -> lookup (set_key c h v) k = lookup c k).
  { intro v. split; [|intros k N]; rewrite lookup_set_key; [rewrite bytes_eqb_refl | rewrite N]; reflexivity. }
  destruct (lookup d h) as [[sz| | |]|]; [destruct (len =? 0); [|destruct (len =? sz)]|..]; cbn [orb];
    intros [= <- <- <-]; (split; [apply Hc | split; [apply Hc|]]); auto 7.
Qed.

(* with no length to compare, get_blob leaves the directory alone *)
Lemma get_blob_len0 sv d c h : exists e c1, get_blob sv d c h 0 = (d, e, c1).
Proof.
  destruct (get_blob sv d c h 0) as [[d1 e] c1] eqn:G. exists e, c1.
  apply get_blob_spec in G as (_ & _ & [[-> _] | (_ & _ & G)]); [reflexivity | discriminate].
Qed.

(* What every operation keeps.  Every operation changes the directory only by planting or removing single entries,
   the table only by insert-or-ignore, by maps that keep the keys and by deleting keys, and the completed set only
   by adding or removing a hash or by emptying it.  So properties D, B, C of the three that are closed under these
   moves hold along every history.  E says which entries may be planted and R which names may be removed. *)
Section Closed.
  Variables (D : disk_t -> Prop) (E : entry -> Prop) (R : name -> Prop) (B : db_t -> Prop) (C : list name -> Prop).
  Hypothesis D_set : forall d k e, E e -> D d -> D (set_key d k e).
  Hypothesis D_rem : forall d k, R k -> D d -> D (remove_key d k).
  Hypothesis E_file : forall sz, E (EFile sz).
  Hypothesis B_ins : forall b h st, B b -> B (db_insert_ignore b h st).
  Hypothesis B_map : forall b (f : name * status -> name * status), (forall p, fst (f p) = fst p) -> B b -> B (map f b).
  Hypothesis B_del : forall b h, B b -> B (db_delete b h).
  Hypothesis C_nil : C [].
  Hypothesis C_add : forall l h, C l -> C (set_add h l).
  Hypothesis C_rem : forall l h, C l -> C (set_remove h l).

  Definition kept (s : state) : Prop := D (disk s) /\ B (db s) /\ C (completed s).

  Lemma D_write d h sz : D d -> D (write_file d h sz).
  Proof. unfold write_file. destruct (is_dir d h); auto. Qed.

  Lemma D_get sv d c h len : R h -> D d -> D (fst (fst (get_blob sv d c h len))).
  Proof.
    intros Rh Hd. destruct (get_blob sv d c h len) as [[d1 e] c1] eqn:G.
    apply get_blob_spec in G as (_ & _ & [[-> _] | (-> & _)]); cbn [fst]; auto.
  Qed.

  Lemma B_upd b h st : B b -> B (db_update b h st).
  Proof. apply B_map. intro p. cbv beta. destruct (bytes_eqb _ h); reflexivity. Qed.

  Lemma B_add b h f : B b -> B (db_add b h f).
  Proof. unfold db_add. destruct f; auto using B_upd. Qed.

  Lemma B_delete_all hs b : B b -> B (db_delete_all b hs).
  Proof. apply fold_left_inv_In. auto. Qed.

  Lemma B_ensure d hs : forall b c, B b -> B (fst (ensure_completed d hs b c)).
  Proof.
    induction hs as [|h r IH]; intros b c Hb; cbn [ensure_completed]; [exact Hb|].
    destruct (is_blob_verified d c h); auto using B_add.
  Qed.

  Local Hint Resolve D_write B_upd B_add B_delete_all B_ensure : core.

  (* [kept] of a state that is written out: one goal for each of the three components, one more split where a
     component is an [if] *)
  Ltac componentwise :=
    repeat split;
    cbn [fst disk db completed with_disk with_db blob_completed buffer_completed create_blob store_recovered]; auto;
    try (apply if_pres; auto).

  Lemma restart_kept s : kept s -> kept (restart s).
  Proof.
    intros [Hd [Hb Hc]]. rewrite restart_eq. componentwise.
    - apply B_ensure, B_map; [|exact Hb]. intro p. cbn [fst]. destruct (_ && _); reflexivity.
    - apply fold_left_inv_In; auto.
  Qed.

  Lemma delete_loop_kept hs : (forall h, In h hs -> R h) -> forall s, kept s -> kept (fst (delete_loop s hs)).
  Proof.
    induction hs as [|h r IH]; intros HR s K; cbn [delete_loop]; [exact K|].
    apply fst_if; [|exact K]. apply IH; [auto with datatypes|]. destruct K as [Hd [Hb Hc]].
    assert (Rh : R h) by auto with datatypes.
    unfold delete_blob. destruct (lookup (cache s) h); componentwise.
  Qed.

  Lemma recover_sd_kept s st : kept s -> kept (recover_sd s st).
  Proof.
    intros [Hd [Hb Hc]]. unfold recover_sd. destruct (get_blob_len0 (save s) (disk s) (cache s) (st_sd st)) as (e & c1 & ->).
    repeat apply if_pres; componentwise.
  Qed.

  Lemma store_recovered_kept s st : kept s -> kept (store_recovered s st).
  Proof. intros [Hd [Hb Hc]]. componentwise. apply fold_left_inv_In; auto. Qed.

  Lemma load_stream_kept s st : (st_not_json st = true -> R (st_sd st)) -> kept s -> kept (load_stream s st).
  Proof.
    intros HR [Hd [Hb Hc]]. unfold load_stream. destruct (get_blob_len0 (save s) (disk s) (cache s) (st_sd st)) as (e & c1 & ->).
    destruct (fst e && snd e && st_not_json st) eqn:T; componentwise.
    apply andb_true_iff in T as [_ T]. auto.
  Qed.

  Lemma daemon_start_kept s L : (forall st, In st L -> st_not_json st = true -> R (st_sd st)) ->
    kept s -> kept (daemon_start s L).
  Proof.
    intros HR K. unfold daemon_start, daemon_start_with. rewrite let_pair.
    set (s0 := restart s). set (rec := filter (needs_recovery s0) L). set (rst := filter (rows_present s0) rec).
    assert (K2 : kept (fold_left store_recovered rst (fold_left recover_sd rec s0))).
    { repeat (apply fold_left_inv_In; [auto using store_recovered_kept, recover_sd_kept|]). apply restart_kept, K. }
    destruct K2 as [Hd [Hb Hc]]. apply fold_left_inv_In; [intros t st Hs; apply load_stream_kept; auto | componentwise].
  Qed.

  Hypothesis R_all : forall k, R k.

  Lemma step_kept s o : (is_ext_dir o = true -> forall e, E e) -> kept s -> kept (fst (step s o)).
  Proof.
    intros HE K. pose proof K as [Hd [Hb Hc]]. destruct o; cbn [step].
    1-7: apply fst_if; [exact K|].
    1-3: unfold complete, touch, crash_write; apply fst_if; [exact K|];
      pose proof (D_get (save s) (disk s) (cache s) h len (R_all h) Hd) as G;
      destruct (get_blob _ _ _ _ _) as [[d1 e] c1]; cbn [fst] in G; repeat apply fst_if; componentwise.
    - unfold publish. apply fst_if; [exact K|].
      assert (K1 : kept (fold_left create_blob (hs ++ [sd]) s)).
      { apply fold_left_inv_In; [|exact K]. intros t x _ [Td [Tb Tc]]. componentwise. }
      destruct K1 as [Td [Tb Tc]]. componentwise. apply fold_left_inv_In; auto.
    - unfold publish_crash. apply fst_if; [exact K|].
      componentwise; apply fold_left_inv_In; auto.
    - unfold delete_blobs. pose proof (delete_loop_kept hs (fun h _ => R_all h) s K) as [Gd [Gb Gc]].
      destruct (delete_loop s hs) as [s1 ok]. repeat apply fst_if; componentwise.
    - unfold stream_delete. pose proof (delete_loop_kept (sd :: hs) (fun h _ => R_all h) s K) as [Gd [Gb Gc]].
      destruct (delete_loop s (sd :: hs)) as [s1 ok]. repeat apply fst_if; componentwise.
    - cbn [fst]. apply if_pres; [exact K|]. componentwise.
    - cbn [fst]. destruct (lookup (disk s) n); [exact K|]. componentwise.
    - componentwise.
    - cbn [fst]. destruct (lookup (disk s) n); [exact K|]. componentwise.
      apply D_set; [|exact Hd]. destruct target; auto.
    - cbn [fst]. destruct (lookup (disk s) n); [exact K|]. componentwise.
    - destruct st; componentwise.
    - cbn [fst]. destruct (db_status (db s) h); exact K.
    - apply restart_kept, K.
    - apply restart_kept, K.
    - apply daemon_start_kept; [auto|]. destruct b; exact K.
  Qed.
End Closed.

Lemma run_pres (P : state -> Prop) (ok : op -> bool) :
  (forall s o, ok o = true -> P s -> P (fst (step s o))) ->
  forall ops s, forallb ok ops = true -> P s -> P (run s ops).
Proof.
  intros H ops. induction ops as [|o r IH]; intros s A Hs; cbn [run]; [exact Hs|].
  apply andb_true_iff in A as [A1 A2]. auto.
Qed.

(* no operation but the three that plant one creates anything that is not a (link to a) regular file *)
Lemma step_files_only s o : is_ext_dir o = false -> files_only (disk s) -> files_only (disk (fst (step s o))).
Proof.
  intros ND F.
  apply (step_kept files_only (fun e => exists sz, e = EFile sz) (fun _ => True) (fun _ => True) (fun _ => True));
    unfold kept; eauto using files_only_set, files_only_remove; congruence.
Qed.

Lemma run_files_only ops : forall s, forallb (fun o => negb (is_ext_dir o)) ops = true ->
  files_only (disk s) -> files_only (disk (run s ops)).
Proof. apply (run_pres (fun s => files_only (disk s))). intros s o H. apply step_files_only, negb_true_iff, H. Qed.

(* the daemon start removes no file except the sd blob of a stream whose sd blob is not JSON *)
Lemma daemon_start_disk_grows s L h : (forall st, In st L -> st_not_json st = true -> st_sd st <> h) ->
  is_file (disk s) h = true -> is_file (disk (daemon_start s L)) h = true.
Proof.
  intros NJ F.
  apply (daemon_start_kept (fun d => is_file d h = true) (fun e => exists sz, e = EFile sz) (fun k => k <> h)
           (fun _ => True) (fun _ => True)); unfold kept; auto.
  - intros d k e [sz ->] H. rewrite is_file_set_key. destruct (bytes_eqb k h); auto.
  - intros d k N H. rewrite is_file_remove_key. destruct (bytes_eqb_spec k h); [contradiction | exact H].
  - intro sz. exists sz. reflexivity.
Qed.

Lemma reachable_keys_unique ops :
  NoDup (map fst (disk (run init ops))) /\ NoDup (map fst (db (run init ops))) /\ NoDup (completed (run init ops)).
Proof.
  apply (run_pres (kept (fun d => NoDup (map fst d)) (fun b => NoDup (map fst b)) (@NoDup name)) (fun _ => true)).
  - intros s o _. apply (step_kept _ (fun _ => True) (fun _ => True));
      auto using NoDup_set_key, NoDup_insert_ignore, NoDup_set_add, NoDup_nil.
    + intros d k _. apply NoDup_map_filter.
    + intros b f H. rewrite map_map, (map_ext _ _ H). auto.
    + intros b h. apply NoDup_map_filter.
    + intros l h. apply NoDup_filter.
  - apply forallb_forall. reflexivity.
  - repeat split; constructor.
Qed.

(* between restarts, API operations alone keep every blob file recorded (files_recorded) *)
Definition is_api_op (o : op) : bool :=
  match o with
  | OComplete _ _ | OTouch _ _ | OPublish _ _ | ODelete _ _ | OStreamDelete _ _ | ORestart | ORestartSave _ => true
  | _ => false
  end.

(* a cached in-memory blob (BlobBuffer) has no file of its name *)
Definition buffers_fileless (s : state) : Prop :=
  forall k e, lookup (cache s) k = Some e -> fst e = false -> is_file (disk s) k = false.

Definition files_recorded (s : state) : Prop :=
  files_only (disk s) /\
  (forall h, valid_name h = true -> is_file (disk s) h = true -> db_status (db s) h = Some Finished) /\
  buffers_fileless s.

(* Between restarts, since 1ed13b5, what is reported as completed keeps its file (completed_backed).  API operations
   whose blob lengths are the ones the blobs really have never take a completed blob's file away without
   un-reporting it.  (OTouch -- a download that is started with a length different from the file's and never
   finished -- deletes the file through BlobFile.__init__ and is left out.) *)
Definition is_api_op_strict (o : op) : bool :=
  match o with OTouch _ _ => false | _ => is_api_op o end.

Definition completed_backed (s : state) : Prop :=
  files_recorded s /\ forall k, In k (completed s) -> is_file (disk s) k = true.

(* both pairs by one flag: the operations admitted, and what they keep on a directory of files only *)
Definition api_op (strict : bool) : op -> bool := if strict then is_api_op_strict else is_api_op.
Definition api_inv (strict : bool) (s : state) : Prop := if strict then completed_backed s else files_recorded s.

(* The clauses that relate directory, table, completed set and cache.  API operations keep the first two with
   sel = fst, and the third unless a download is abandoned (OTouch); they do not keep the fourth (delete_blobs can
   leave the rows).  The stream manager's start-up keeps all four with sel = snd. *)
Definition inv (sel : centry -> bool) (strict fin : bool) (d : disk_t) (b : db_t) (l : list name) (c : cache_t) : Prop :=
  recorded d b /\ fileless sel d c /\ (strict = true -> backed d l) /\ (fin = true -> finished_files d b).
Definition api_ok (strict : bool) (s : state) : Prop := inv fst strict false (disk s) (db s) (completed s) (cache s).
Definition start_ok (s : state) : Prop := inv snd true true (disk s) (db s) (completed s) (cache s).

Lemma api_inv_iff strict s : api_inv strict s <-> files_only (disk s) /\ api_ok strict s.
Proof.
  destruct strict; unfold api_inv, completed_backed, files_recorded, api_ok, inv, recorded, backed; intuition discriminate.
Qed.

(* get_blob keeps the first two clauses, and all of them when it leaves the directory alone *)
Lemma get_blob_inv sel strict fin sv d b l c h len d1 e c1 : sel (true, true) = true -> get_blob sv d c h len = (d1, e, c1) ->
  inv sel strict fin d b l c -> inv sel false false d1 b l c1 /\ (d1 = d -> inv sel strict fin d b l c1).
Proof.
  intros S G (Rc & J & Bk & Fn).
  assert (H : fileless sel d1 c1 /\ forall k, is_file d1 k = true -> is_file d k = true).
  { apply get_blob_spec in G as (Lh & Lo & [[-> Hit] | (-> & -> & _)]); (split; [intros k e0|intro k]).
    - destruct (bytes_eqb_spec h k) as [<-|N]; [|apply bytes_eqb_neq in N; rewrite (Lo k N); apply J].
      rewrite Lh. intros [= <-]. destruct Hit as [Hit | [_ [[-> _] | [_ F]]]]; [apply (J _ _ Hit) | congruence | auto].
    - auto.
    - rewrite is_file_remove_key. destruct (bytes_eqb h k) eqn:N; [reflexivity | rewrite (Lo k N); apply J].
    - rewrite is_file_remove_key. destruct (bytes_eqb h k); [discriminate | auto]. }
  destruct H as [J1 M]. split; [|intros ->; split; [|split; [|split]]; assumption].
  split; [|split; [exact J1 | split; discriminate]]. intros k V F. apply Rc; auto.
Qed.

(* the file of h is written and recorded (blob_completed); the cache gains at most an entry for h that sel accepts *)
Lemma file_stored sel strict fin d b l c d' c' h :
  (forall k, is_file d' k = bytes_eqb h k || is_file d k) ->
  (forall k, bytes_eqb h k = false -> lookup c' k = lookup c k) -> (forall e, lookup c' h = Some e -> sel e = true) ->
  inv sel strict fin d b l c -> inv sel strict fin d' (db_add b h true) (set_add h l) c'.
Proof.
  intros Hd Ho Hh (Rc & Fl & Bk & Fn). split; [|split; [|split]].
  - intros k V. rewrite Hd, status_add_finished. destruct (bytes_eqb h k); [reflexivity | apply Rc, V].
  - intros k e L F. destruct (bytes_eqb_spec h k) as [<-|N]; [rewrite (Hh e L) in F; discriminate|].
    apply bytes_eqb_neq in N. rewrite Hd, N. rewrite (Ho k N) in L. exact (Fl k e L F).
  - intros S k. rewrite Hd, In_set_add. intros [->|I]; [rewrite bytes_eqb_refl; reflexivity|].
    rewrite (Bk S k I). apply orb_true_r.
  - intros S k. rewrite Hd, status_add_finished. destruct (bytes_eqb h k); [reflexivity | apply (Fn S)].
Qed.

(* the download of h lands in a file: d1 is d except possibly under h, and has no directory there *)
Lemma file_cached sel strict fin d b l c d1 c1 h sz : sel (true, true) = true ->
  is_dir d1 h = false -> (forall k, bytes_eqb h k = false -> is_file d1 k = is_file d k) ->
  (forall k, bytes_eqb h k = false -> lookup c1 k = lookup c k) -> inv sel strict fin d b l c ->
  inv sel strict fin (write_file d1 h sz) (db_add b h true) (set_add h l) (set_key c1 h (true, true)).
Proof.
  intros S Nd Hd Lo. apply file_stored.
  - intro k. rewrite is_file_write_nodir by exact Nd. destruct (bytes_eqb h k) eqn:N; [reflexivity | apply Hd, N].
  - intros k N. rewrite lookup_set_key, N. apply Lo, N.
  - intro e. rewrite lookup_set_key, bytes_eqb_refl. intros [= <-]. exact S.
Qed.

(* an in-memory blob is recorded as 'pending' (buffer_completed) and cached as v *)
Lemma buffer_stored sel strict fin d b l c h v : (sel v = false -> is_file d h = false) ->
  inv sel strict fin d b l c -> inv sel strict fin d (db_add b h false) l (set_key c h v).
Proof.
  intros Hv (Rc & Fl & Bk & Fn). split; [|split; [|split]]; [|apply fileless_set; assumption|exact Bk|].
  - intros k V F. rewrite status_add_pending, (Rc k V F). reflexivity.
  - intros S k. rewrite status_add_pending. destruct (db_status b k) eqn:D; [rewrite <- D; apply (Fn S)|].
    destruct (bytes_eqb h k); discriminate.
Qed.

Lemma is_file_remove_if d h k : is_file (if is_file d h then remove_key d h else d) k = negb (bytes_eqb h k) && is_file d k.
Proof.
  destruct (is_file d h) eqn:F; [rewrite is_file_remove_key; destruct (bytes_eqb h k); reflexivity|].
  destruct (bytes_eqb_spec h k) as [<-|_]; [exact F | reflexivity].
Qed.

(* delete_blob takes the file, the report and the cache entry of h away and touches nothing else.  (The file of a
   cached BlobBuffer would stay: the hypothesis says there is none.) *)
Lemma delete_blob_spec s h : buffers_fileless s -> let t := delete_blob s h in
  (forall k, is_file (disk t) k = negb (bytes_eqb h k) && is_file (disk s) k) /\ db t = db s /\
  completed t = set_remove h (completed s) /\
  (forall k, lookup (cache t) k = if bytes_eqb h k then None else lookup (cache s) k).
Proof.
  intro Fl. unfold delete_blob. destruct (lookup (cache s) h) as [e|] eqn:L; cbn [disk db completed cache];
    (split; [|split; [reflexivity | split; [reflexivity|]]]); intro k.
  - destruct (fst e) eqn:Fe; [apply is_file_remove_if|]. destruct (bytes_eqb_spec h k) as [<-|_]; [apply (Fl _ _ L Fe) | reflexivity].
  - apply lookup_remove_key.
  - apply is_file_remove_if.
  - destruct (bytes_eqb_spec h k) as [<-|_]; [exact L | reflexivity].
Qed.

Lemma delete_blob_inv strict s h : api_ok strict s -> api_ok strict (delete_blob s h).
Proof.
  intros (Rc & Fl & Bk & _). destruct (delete_blob_spec s h Fl) as (Hd & Hb & Hl & Hc).
  unfold api_ok. rewrite Hb, Hl. split; [|split; [|split; [|discriminate]]].
  - intros k V F. rewrite Hd in F. apply andb_true_iff in F as [_ F]. auto.
  - intros k e. rewrite Hc, Hd. destruct (bytes_eqb h k); [discriminate | apply Fl].
  - intros S k I. apply In_set_remove in I as [I N]. rewrite Hd, (Bk S k I). destruct (bytes_eqb_spec h k); [congruence | reflexivity].
Qed.

Lemma delete_loop_inv strict hs : forall s, api_ok strict s ->
  let s1 := fst (delete_loop s hs) in
  api_ok strict s1 /\ (forall k, is_file (disk s1) k = true -> is_file (disk s) k = true) /\
  (snd (delete_loop s hs) = true -> forall k, In k hs -> is_file (disk s1) k = false).
Proof.
  induction hs as [|h r IH]; intros s I; cbn [delete_loop].
  - repeat (split; [solve [auto]|]). intros _ k [].
  - destruct (valid_name h); [|repeat (split; [solve [auto]|]); discriminate].
    destruct (delete_blob_spec s h (proj1 (proj2 I))) as [F1 _]. destruct (IH _ (delete_blob_inv strict s h I)) as [I2 [M2 G2]].
    split; [exact I2|]. split.
    + intros k K. apply M2 in K. rewrite F1 in K. apply andb_true_iff in K. tauto.
    + intros O k [<-|K]; [|auto]. destruct (is_file _ h) eqn:K; [|reflexivity].
      apply M2 in K. rewrite F1, bytes_eqb_refl in K. discriminate.
Qed.

Lemma rows_deleted sel strict d b l c hs : (forall k, In k hs -> is_file d k = false) ->
  inv sel strict false d b l c -> inv sel strict false d (db_delete_all b hs) l c.
Proof.
  intros G (Rc & Fl & Bk & _). split; [|split; [|split]]; [|assumption..|discriminate].
  intros k V F. rewrite status_delete_all. destruct (mem k hs) eqn:M; [|auto]. apply mem_In, G in M. congruence.
Qed.

Lemma restart_inv sel strict fin s : sel (true, true) = true ->
  inv sel strict fin (disk (restart s)) (db (restart s)) (completed (restart s)) (cache (restart s)).
Proof.
  intro S. split; [|split; [|split]].
  - intros k V F. rewrite restart_disk in F. apply files_finished; assumption.
  - rewrite restart_eq. apply ensure_fileless; [exact S | intros k e H; discriminate].
  - intros _ k I. apply (proj1 (proj2 (restart_ok s)) k I).
  - intros _ k F. rewrite restart_disk. apply finished_have_files, F.
Qed.

Lemma step_api strict s o : api_op strict o = true -> api_ok strict s -> api_ok strict (fst (step s o)).
Proof.
  intros A I. destruct o; try (destruct strict; discriminate A); cbn [step].
  1-5: apply fst_if; [exact I|].
  - unfold complete. apply fst_if; [exact I|].
    destruct (get_blob (save s) (disk s) (cache s) h len) as [[d1 e] c1] eqn:G.
    destruct (get_blob_inv fst strict false _ _ _ _ _ _ _ _ _ _ eq_refl G I) as [_ I1].
    apply get_blob_spec in G as (Lh & Lo & Dk).
    destruct Dk as [[-> _] | (-> & -> & L0)]; cbn [fst snd andb].
    + specialize (I1 eq_refl). destruct (snd e); [exact I1|]. destruct (fst e && is_file (disk s) h); [exact I1|]. destruct (len =? 0); [exact I1|].
      destruct (fst e) eqn:Fe; cbn [andb].
      * destruct (is_dir (disk s) h) eqn:Dr; [exact I1|]. apply file_cached with (d := disk s) (c := cache s); auto.
      * apply buffer_stored; [|exact I1]. intros _. apply (proj1 (proj2 I1) h e Lh Fe).
    + (* get_blob has removed a file of another length: nothing sits under h and the download is written *)
      assert (Nd : is_dir (remove_key (disk s) h) h = false)
        by (unfold is_dir; rewrite lookup_remove_key, bytes_eqb_refl; reflexivity).
      rewrite is_file_remove_key, bytes_eqb_refl, L0, Nd. apply file_cached with (d := disk s) (c := cache s); auto.
      intros k N. rewrite is_file_remove_key, N. reflexivity.
  - unfold touch. apply fst_if; [exact I|].
    destruct (get_blob (save s) (disk s) (cache s) h len) as [[d1 e] c1] eqn:G.
    destruct strict; [discriminate A | apply (get_blob_inv fst false false _ _ _ _ _ _ _ _ _ _ eq_refl G I)].
  - unfold publish. destruct (forallb _ _ && _) eqn:P; cbn [negb fst]; [|exact I].
    apply andb_true_iff in P as [P _]. rewrite forallb_forall in P. set (all := hs ++ [sd]) in *.
    assert (Fr : forall x, In x all -> is_dir (disk s) (fst x) = false /\ lookup (cache s) (fst x) = None).
    { intros x Hx. specialize (P x Hx). unfold fresh, is_dir in *.
      destruct (lookup (disk s) (fst x)), (lookup (cache s) (fst x)); rewrite ?andb_false_r in P; try discriminate P. auto. }
    (* every name is fresh: not cached, no directory under it.  create_blob leaves the cache alone and plants no
       directory, so both go through the fold beside api_ok and each file written is one file_stored *)
    assert (K : (fun t => api_ok strict t /\ cache t = cache s /\ forall x, In x all -> is_dir (disk t) (fst x) = false)
                  (fold_left create_blob all s)).
    { apply fold_left_inv_In; [|split; [exact I | split; [reflexivity | intros x Hx; apply Fr, Hx]]].
      intros t x Hx (It & Ct & Dt). split; [|split; [exact Ct | intros y Hy; apply not_dir_write, Dt, Hy]].
      unfold api_ok, create_blob, blob_completed. cbn [disk db completed cache].
      apply (file_stored fst strict false (disk t) (db t) (completed t) (cache t)); [|reflexivity| |exact It].
      - intro k. apply is_file_write_nodir, Dt, Hx.
      - rewrite Ct. destruct (Fr x Hx) as [_ ->]. discriminate. }
    destruct K as ((Rc1 & Fl1 & Bk1 & _) & _). split; [|split; [|split; [exact Bk1 | discriminate]]]; cbn [disk db cache].
    + intros k V F. rewrite status_insert_pending, (Rc1 k V F). reflexivity.
    + apply fileless_set; [exact Fl1 | discriminate].
  - unfold delete_blobs. destruct (delete_loop_inv strict hs s I) as (I1 & _ & G1).
    destruct (delete_loop s hs) as [s1 ok]. cbn [fst snd] in *.
    destruct ok; cbn [negb]; [|exact I1]. destruct from_db; [|exact I1]. apply rows_deleted; auto.
  - unfold stream_delete. destruct (delete_loop_inv strict (sd :: hs) s I) as (I1 & _ & G1).
    destruct (delete_loop s (sd :: hs)) as [s1 ok]. cbn [fst snd] in *.
    destruct ok; cbn [negb]; [|exact I1].
    apply rows_deleted; [|exact I1]. intros k K. apply G1; [reflexivity|]. apply in_app_or in K as [K|[<-|[]]]; [right | left]; auto.
  - apply restart_inv. reflexivity.
  - apply restart_inv. reflexivity.
Qed.

Lemma run_api_inv strict ops s : forallb (api_op strict) ops = true -> api_inv strict s -> api_inv strict (run s ops).
Proof.
  rewrite !api_inv_iff. revert s. apply run_pres. intros s o A [F I].
  split; [apply step_files_only; [destruct strict, o; try discriminate A; reflexivity | exact F] | apply step_api; assumption].
Qed.

(* after a start it holds whatever happened before; the files_only clause is the only one that asks anything of s *)
Lemma restart_api_inv strict s : files_only (disk s) -> api_inv strict (restart s).
Proof. intro F. apply api_inv_iff. rewrite restart_disk. split; [exact F | apply restart_inv; reflexivity]. Qed.

Lemma recover_sd_inv s st : is_dir (disk s) (st_sd st) = false -> start_ok s ->
  start_ok (recover_sd s st) /\ (forall k, is_dir (disk s) k = false -> is_dir (disk (recover_sd s st)) k = false).
Proof.
  intros ND I. unfold recover_sd.
  destruct (get_blob_len0 (save s) (disk s) (cache s) (st_sd st)) as (e & c1 & G). rewrite G.
  destruct (get_blob_inv snd true true _ _ _ _ _ _ _ _ _ _ eq_refl G I) as [_ I1]. specialize (I1 eq_refl).
  apply get_blob_spec in G as (Lh & Lo & _).
  destruct (negb _); [auto|]. destruct (snd e); [auto|]. destruct (fst e && _); [auto|].
  unfold start_ok, blob_completed, buffer_completed. destruct (fst e); cbn [disk db completed cache].
  - split; [|intro k; apply not_dir_write].
    apply file_cached with (d := disk s) (c := cache s); auto.
  - split; [|auto]. apply buffer_stored; [discriminate | exact I1].
Qed.

(* storage.recover_streams: the rows of the stream are 'pending', every other row is untouched *)
Lemma store_recovered_status s st k :
  db_status (db (store_recovered s st)) k = if mem k (st_names st) then Some Pending else db_status (db s) k.
Proof.
  unfold store_recovered. cbn [db]. rewrite (status_insert_pending (fun h => h)), map_id, status_delete_all.
  replace (mem k (st_blobs st ++ [st_sd st])) with (mem k (st_names st)).
  - destruct (mem k (st_names st)); [reflexivity|]. destruct (db_status (db s) k); reflexivity.
  - unfold st_names. rewrite mem_app, !mem_cons. cbn [mem existsb]. rewrite orb_false_r. apply orb_comm.
Qed.

Lemma mem_flat_map k (l : list stream_t) :
  mem k (flat_map st_names l) = existsb (fun st => mem k (st_names st)) l.
Proof. induction l as [|x l IH]; cbn [flat_map existsb]; [reflexivity|]. rewrite mem_app, IH. reflexivity. Qed.

Lemma fold_store_status l k : forall s,
  db_status (db (fold_left store_recovered l s)) k =
  if mem k (flat_map st_names l) then Some Pending else db_status (db s) k.
Proof.
  induction l as [|x l IH]; intro s; cbn [fold_left flat_map]; [reflexivity|].
  rewrite IH, store_recovered_status, mem_app.
  destruct (mem k (st_names x)); destruct (mem k (flat_map st_names l)); reflexivity.
Qed.

Definition inv3 (t : state) : Prop :=
  backed (disk t) (completed t) /\ recorded (disk t) (db t) /\ finished_files (disk t) (db t).

(* loading a stream keeps the three clauses: a damaged (non-JSON) sd blob loses file, row and report together *)
Lemma load_stream_inv3 t st : inv3 t -> inv3 (load_stream t st).
Proof.
  intros [IC [IFn IFl]]. unfold load_stream.
  destruct (get_blob_len0 (save t) (disk t) (cache t) (st_sd st)) as (e & c1 & ->).
  destruct (fst e && snd e && st_not_json st); unfold inv3; cbn [disk db completed]; [|auto].
  split; [|split]; intro h; rewrite is_file_remove_key.
  - intro Hh. apply In_set_remove in Hh as [Hh Ne]. destruct (bytes_eqb_spec (st_sd st) h); [congruence | apply IC, Hh].
  - rewrite status_delete. destruct (bytes_eqb (st_sd st) h); [discriminate | apply IFn].
  - rewrite status_delete. destruct (bytes_eqb (st_sd st) h); [discriminate | apply IFl].
Qed.

Lemma daemon_start_ok L s : (forall st, In st L -> is_dir (disk s) (st_sd st) = false) -> inv3 (daemon_start s L).
Proof.
  intro ND. unfold daemon_start, daemon_start_with.
  set (s0 := restart s). set (rec := filter (needs_recovery s0) L). set (rst := filter (rows_present s0) rec).
  set (s1 := fold_left recover_sd rec s0). set (s2 := fold_left store_recovered rst s1).
  (* recovering one sd blob plants no directory, so the hypothesis about L goes through the fold beside start_ok *)
  assert (I1 : start_ok s1 /\ forall st, In st L -> is_dir (disk s1) (st_sd st) = false).
  { apply fold_left_inv_In.
    - intros t st Hs [It Nt]. apply filter_In in Hs as [Hs _]. destruct (recover_sd_inv t st (Nt st Hs) It) as [A B].
      split; [exact A | intros st' Hs'; apply B, Nt, Hs'].
    - split; [apply restart_inv; reflexivity | intros st Hs; unfold s0; rewrite restart_disk; apply ND, Hs]. }
  destruct I1 as ((Rc1 & Fl1 & Bk1 & Fn1) & _).
  assert (Same : disk s2 = disk s1 /\ cache s2 = cache s1 /\ completed s2 = completed s1)
    by (apply (fold_left_inv_In (fun t => disk t = disk s1 /\ cache t = cache s1 /\ completed t = completed s1));
        [intros t x _ H; exact H | auto]).
  destruct Same as (D2 & C2 & K2).
  (* the rows of the restored streams are 'finished' exactly where the file is there; every other row is as in s1 *)
  assert (E : forall k, db_status (fst (ensure_completed (disk s2) (flat_map st_names rst) (db s2) (cache s2))) k =
                        if mem k (flat_map st_names rst) then if is_file (disk s1) k then Some Finished else Some Pending
                        else db_status (db s1) k).
  { intro k. rewrite ensure_status by (rewrite C2, D2; exact Fl1). rewrite D2. unfold s2. rewrite fold_store_status.
    destruct (mem k _), (is_file (disk s1) k); reflexivity. }
  destruct (ensure_completed _ _ _ _) as [db3 c3]. cbn [fst] in E.
  apply fold_left_inv_In; [intros; apply load_stream_inv3; assumption|]. unfold inv3. cbn [disk db completed]. rewrite D2, K2.
  split; [exact (Bk1 eq_refl)|]. split; intros h; rewrite E; destruct (mem h _).
  - intros _ ->. reflexivity.
  - apply Rc1.
  - destruct (is_file (disk s1) h); [reflexivity | discriminate].
  - apply (Fn1 eq_refl).
Qed.
