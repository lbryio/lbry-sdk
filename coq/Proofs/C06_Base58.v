(* Base58 and Base58Check. A byte string is a run of zero bytes followed by a big-endian numeral, a text a run
   of '1' followed by a base-58 numeral (bytes_nf, text_nf: instances of digs_nf of C06_Num); both directions
   are computed on that split form (b58_encode_shape, b58_decode_shape), the round trips are those of the
   canonical numerals, and both functions are injective because run and value can be read off their results.
   The all-zero strings are the one place where the two forms disagree (b58_allzero). *)
From Coq Require Import Arith NArith List Lia.
From Coq.Strings Require Import Byte.
From LV Require Import Lib.Bytes Lib.Lists Model.C06 Proofs.C06_Num.
Import ListNotations.
Local Open Scope N_scope.

Lemma alphabet_length : length alphabet = 58%nat.
Proof. reflexivity. Qed.

Lemma alphabet_nodup : NoDup alphabet.
Proof. apply (NoDup_map_inv N_of_byte), nodupb_NoDup. vm_compute. reflexivity. Qed.

Lemma digit_of_char_of_digit d : d < 58 -> digit_of_char (char_of_digit d) = Some d.
Proof. exact (alpha_dig_sym alphabet one_char byte_eqb byte_eqb_eq alphabet_nodup d). Qed.

Lemma char_of_digit_of_char c d : digit_of_char c = Some d -> d < 58 /\ char_of_digit d = c.
Proof. exact (alpha_sym_dig alphabet one_char byte_eqb byte_eqb_eq c d). Qed.

Lemma digit_of_char_none c : digit_of_char c = None -> ~ In c alphabet.
Proof. exact (alpha_dig_none alphabet byte_eqb byte_eqb_eq c). Qed.

Lemma char_of_digit_one d : d < 58 -> char_of_digit d = one_char -> d = 0.
Proof.
  intros Hd H. pose proof (digit_of_char_of_digit d Hd) as E. rewrite H in E.
  vm_compute in E. congruence.
Qed.

Lemma char_of_digit_0 : char_of_digit 0 = one_char.
Proof. reflexivity. Qed.

(* chars_to_digits is [digs digit_of_char], up to conversion *)
Lemma chars_to_digits_map ds : Forall (fun d => d < 58) ds -> chars_to_digits (map char_of_digit ds) = Some ds.
Proof. exact (digs_map 58 char_of_digit digit_of_char digit_of_char_of_digit ds). Qed.

Lemma chars_to_digits_some t ds : chars_to_digits t = Some ds ->
  map char_of_digit ds = t /\ Forall (fun d => d < 58) ds.
Proof. intro H. destruct (digs_some 58 char_of_digit digit_of_char char_of_digit_of_char t ds H). split; assumption. Qed.

Lemma text_nf t ds : chars_to_digits t = Some ds ->
  t = repeat one_char (count_leading (byte_eqb one_char) t)
      ++ map char_of_digit (rev (digits_lsb 58 (val_msb 58 ds))).
Proof.
  exact (digs_nf 58 char_of_digit digit_of_char digit_of_char_of_digit char_of_digit_of_char
           byte_eqb byte_eqb_eq ltac:(lia) t ds).
Qed.

Lemma map_char_repeat k : map char_of_digit (repeat 0 k) = repeat one_char k.
Proof. apply map_repeat. Qed.

Lemma Forall_repeat {A} (P : A -> Prop) x k : P x -> Forall P (repeat x k).
Proof. intro H. induction k; constructor; assumption. Qed.

Lemma Forall_skipn_lt {A} (P : A -> Prop) ds : Forall P ds -> forall k, Forall P (skipn k ds).
Proof. induction 1; intros [|k]; simpl; try constructor; auto. Qed.

Lemma be_decode_zeros_app k b : be_decode (repeat x00 k ++ b) = be_decode b.
Proof. rewrite !be_decode_val, map_app, map_repeat. apply val_msb_zeros_app. Qed.

Lemma N_of_byte_nz c : c <> x00 -> N_of_byte c <> 0.
Proof. intros Hc E. exact (Hc (N_of_byte_inj c x00 E)). Qed.

Lemma byte_of_N_nz d : d < 256 -> d <> 0 -> byte_of_N d <> x00.
Proof. intros Hd Hnz Hz. apply Hnz. rewrite <- (byte_of_N_small d Hd), Hz. reflexivity. Qed.

Lemma be_decode_pos c r : c <> x00 -> 0 < be_decode (c :: r).
Proof.
  intro Hc. rewrite be_decode_val.
  apply val_msb_pos; [lia | discriminate | apply N_of_byte_nz, Hc].
Qed.

Lemma int_to_bytes_be_decode c r : c <> x00 -> int_to_bytes (be_decode (c :: r)) = c :: r.
Proof.
  intro Hc. unfold int_to_bytes. pose proof (be_decode_pos c r Hc) as Hpos.
  destruct (N.eqb_spec (be_decode (c :: r)) 0) as [E|_]; [lia|].
  rewrite be_decode_val, <- map_rev, digits_msb_unique by (lia || apply Forall_N_of_byte || apply N_of_byte_nz, Hc).
  rewrite map_map, (map_ext _ id byte_of_N_of_byte). apply map_id.
Qed.

Lemma be_decode_int_to_bytes v : be_decode (int_to_bytes v) = v.
Proof.
  unfold int_to_bytes. destruct (N.eqb_spec v 0) as [->|Hv]; [reflexivity|].
  destruct (digits_msb_spec 256 v ltac:(lia)) as (Hf & _ & Hval).
  rewrite be_decode_val, <- map_rev, map_map, (map_ext_Forall _ id), map_id; [exact Hval|].
  eapply Forall_impl; [|exact Hf]. exact byte_of_N_small.
Qed.

Lemma int_to_bytes_head v : 0 < v -> exists c r, int_to_bytes v = c :: r /\ c <> x00.
Proof.
  intro Hv. unfold int_to_bytes. destruct (N.eqb_spec v 0) as [E|_]; [lia|]. rewrite <- map_rev.
  destruct (digits_msb_spec 256 v ltac:(lia)) as (Hf & Hh & Hval).
  destruct (rev (digits_lsb 256 v)) as [|d l]; [cbn in Hval; lia|].
  exists (byte_of_N d), (map byte_of_N l). split; [reflexivity | exact (byte_of_N_nz d (Forall_inv Hf) Hh)].
Qed.

(* byte strings are the numerals over the symbols [byte_of_N], every byte having a digit *)
Lemma bytes_nf b :
  b = repeat x00 (count_leading (byte_eqb x00) b) ++ map byte_of_N (rev (digits_lsb 256 (be_decode b))).
Proof.
  rewrite be_decode_val.
  apply (digs_nf 256 byte_of_N (fun c => Some (N_of_byte c))) with (eqb := byte_eqb).
  - intros d Hd. rewrite byte_of_N_small by exact Hd. reflexivity.
  - intros c d H. injection H as <-. split; [apply N_of_byte_lt | apply byte_of_N_of_byte].
  - exact byte_eqb_eq.
  - lia.
  - induction b as [|c r IH]; [reflexivity|]. cbn [digs map]. rewrite IH. reflexivity.
Qed.

Lemma byte_eqb_sym_false a b : a <> b -> byte_eqb b a = false.
Proof. intro H. apply byte_eqb_neq. congruence. Qed.

Lemma b58_encode_nonempty b : b <> [] ->
  b58_encode b = Ok (repeat one_char (count_leading (byte_eqb x00) b)
                     ++ rev (map char_of_digit (digits_lsb 58 (be_decode b)))).
Proof. destruct b; [congruence | reflexivity]. Qed.

Lemma b58_decode_nonempty t : t <> [] ->
  b58_decode t = match chars_to_digits t with
                 | None => Err EChar
                 | Some ds => Ok (repeat x00 (count_leading (byte_eqb one_char) t) ++ int_to_bytes (val_msb 58 ds))
                 end.
Proof. destruct t; [congruence | reflexivity]. Qed.

Lemma b58_decode_inv t b : b58_decode t = Ok b -> t <> [] /\ exists ds, chars_to_digits t = Some ds.
Proof.
  destruct t as [|c r]; [discriminate|]. intro H. split; [discriminate|].
  rewrite b58_decode_nonempty in H by discriminate. destruct (chars_to_digits (c :: r)); [eauto | discriminate].
Qed.

Lemma b58_encode_shape k c r : c <> x00 ->
  b58_encode (repeat x00 k ++ c :: r) =
  Ok (repeat one_char k ++ map char_of_digit (rev (digits_lsb 58 (be_decode (c :: r))))).
Proof.
  intro Hc. rewrite b58_encode_nonempty by (intro E; apply app_eq_nil in E; destruct E; discriminate).
  rewrite count_leading_app, repeat_length by apply Forall_repeat, byte_eqb_refl.
  cbn [count_leading]. rewrite (byte_eqb_sym_false c x00) by assumption.
  rewrite Nat.add_0_r, be_decode_zeros_app, map_rev. reflexivity.
Qed.

Lemma b58_decode_shape k ds : Forall (fun d => d < 58) ds -> (k + length ds > 0)%nat ->
  match ds with d :: _ => d <> 0 | [] => True end ->
  b58_decode (repeat one_char k ++ map char_of_digit ds) =
  Ok (repeat x00 k ++ int_to_bytes (val_msb 58 ds)).
Proof.
  intros Hf Hlen Hd. rewrite b58_decode_nonempty.
  2:{ intro E. apply (f_equal (@length byte)) in E. rewrite app_length, repeat_length, map_length in E. simpl in E. lia. }
  rewrite <- map_char_repeat, <- map_app.
  rewrite chars_to_digits_map.
  2:{ apply Forall_app. split; [apply Forall_repeat; lia | assumption]. }
  rewrite map_app, map_char_repeat.
  rewrite count_leading_app, repeat_length by apply Forall_repeat, byte_eqb_refl.
  rewrite val_msb_zeros_app.
  replace (count_leading (byte_eqb one_char) (map char_of_digit ds)) with 0%nat.
  - rewrite Nat.add_0_r. reflexivity.
  - destruct ds as [|d r]; [reflexivity|]. cbn [map count_leading].
    rewrite (byte_eqb_sym_false (char_of_digit d) one_char); [reflexivity|].
    intro Hx. apply Hd, char_of_digit_one; [exact (Forall_inv Hf) | exact Hx].
Qed.

Theorem b58_roundtrip_split k c r : c <> x00 ->
  bind (b58_encode (repeat x00 k ++ c :: r)) b58_decode = Ok (repeat x00 k ++ c :: r).
Proof.
  intro Hc. rewrite b58_encode_shape by assumption. cbn [bind].
  pose proof (be_decode_pos c r Hc) as Hv.
  destruct (digits_msb_spec 58 (be_decode (c :: r)) ltac:(lia)) as (Hf & Hh & Hval).
  rewrite b58_decode_shape.
  - rewrite Hval, int_to_bytes_be_decode by assumption. reflexivity.
  - exact Hf.
  - destruct (rev (digits_lsb 58 (be_decode (c :: r)))); [change (0 = be_decode (c :: r)) in Hval; lia | cbn; lia].
  - destruct (rev (digits_lsb 58 (be_decode (c :: r)))); [exact I | exact Hh].
Qed.

Lemma nonzero_split b : (exists c, In c b /\ c <> x00) ->
  exists k c r, b = repeat x00 k ++ c :: r /\ c <> x00.
Proof.
  intros [c0 [Hin Hnz]]. pose proof (bytes_nf b) as E.
  destruct (digits_msb_spec 256 (be_decode b) ltac:(lia)) as (Hf & Hh & _).
  destruct (rev (digits_lsb 256 (be_decode b))) as [|d l]; cbn [map] in E.
  - exfalso. rewrite app_nil_r in E. rewrite E in Hin. apply repeat_spec in Hin. contradiction.
  - exists (count_leading (byte_eqb x00) b), (byte_of_N d), (map byte_of_N l).
    split; [exact E | exact (byte_of_N_nz d (Forall_inv Hf) Hh)].
Qed.

Theorem b58_roundtrip b : (exists c, In c b /\ c <> x00) ->
  exists t, b58_encode b = Ok t /\ b58_decode t = Ok b.
Proof.
  intro H. destruct (nonzero_split b H) as [k [c [r [-> Hc]]]].
  pose proof (b58_roundtrip_split k c r Hc) as R.
  rewrite b58_encode_shape in * by assumption. cbn [bind] in R.
  eexists. split; [reflexivity | exact R].
Qed.

Theorem b58_decode_accepts t : (exists b, b58_decode t = Ok b) <-> (t <> [] /\ Forall (fun c => In c alphabet) t).
Proof.
  split.
  - intros [b H]. destruct (b58_decode_inv t b H) as [Hne [ds E]]. split; [exact Hne|].
    destruct (chars_to_digits_some t ds E) as [<- Hf]. rewrite Forall_map.
    eapply Forall_impl; [|exact Hf]. exact (alpha_sym_in alphabet one_char).
  - intros [Hne Hall]. rewrite b58_decode_nonempty by exact Hne.
    destruct (chars_to_digits t) eqn:E; [eauto|]. exfalso.
    apply (digs_none digit_of_char), Exists_exists in E as [c [Hin Hc]].
    rewrite Forall_forall in Hall. exact (digit_of_char_none c Hc (Hall c Hin)).
Qed.

(* the quirk: all-zero input comes back one byte longer *)
Theorem b58_allzero k : (0 < k)%nat ->
  b58_encode (repeat x00 k) = Ok (repeat one_char k) /\
  b58_decode (repeat one_char k) = Ok (repeat x00 (S k)).
Proof.
  intro Hk. split.
  - rewrite b58_encode_nonempty by (destruct k; [lia | discriminate]).
    rewrite <- (app_nil_r (repeat x00 k)), count_leading_app, repeat_length, be_decode_zeros_app
      by apply Forall_repeat, byte_eqb_refl.
    cbn. rewrite Nat.add_0_r, !app_nil_r. reflexivity.
  - pose proof (b58_decode_shape k [] (Forall_nil _)) as H. cbn [map length] in H.
    rewrite app_nil_r in H. rewrite H by (try exact I; lia).
    cbn [repeat]. rewrite repeat_cons. reflexivity.
Qed.

Theorem b58_encode_empty : b58_encode [] = Err EValue.
Proof. reflexivity. Qed.

Lemma text_split t ds : t <> [] -> chars_to_digits t = Some ds ->
  exists k ds', t = repeat one_char k ++ map char_of_digit ds' /\ Forall (fun d => d < 58) ds' /\
                (k + length ds' > 0)%nat /\ match ds' with d :: _ => d <> 0 | [] => True end.
Proof.
  intros Hne H. pose proof (text_nf t ds H) as E.
  destruct (digits_msb_spec 58 (val_msb 58 ds) ltac:(lia)) as (Hf & Hh & _).
  exists (count_leading (byte_eqb one_char) t), (rev (digits_lsb 58 (val_msb 58 ds))).
  split; [exact E|]. split; [exact Hf|]. split.
  - apply (f_equal (@length byte)) in E. rewrite app_length, repeat_length, map_length in E.
    destruct t; [congruence | cbn [length] in E; lia].
  - destruct (rev (digits_lsb 58 (val_msb 58 ds))); [exact I | exact Hh].
Qed.

Theorem b58_decode_encode t b : b58_decode t = Ok b -> (exists c, In c t /\ c <> one_char) ->
  b58_encode b = Ok t.
Proof.
  intros Hd [c0 [Hin Hc0]]. destruct (b58_decode_inv t b Hd) as [Hne [ds E]].
  destruct (text_split t ds Hne E) as [k [ds' [-> [Hf [Hlen Hhd]]]]].
  rewrite b58_decode_shape in Hd by assumption. injection Hd as <-.
  destruct ds' as [|d r].
  { exfalso. rewrite app_nil_r in Hin. apply repeat_spec in Hin. congruence. }
  pose proof (val_msb_pos 58 (d :: r) ltac:(lia) ltac:(discriminate) Hhd) as Hv.
  destruct (int_to_bytes_head _ Hv) as [c1 [r1 [Ei Hc1]]].
  rewrite Ei, b58_encode_shape by assumption.
  rewrite <- Ei, be_decode_int_to_bytes, digits_msb_unique by (assumption || lia). reflexivity.
Qed.

Lemma b58_decode_allones k : (0 < k)%nat -> b58_decode (repeat one_char k) = Ok (repeat x00 (S k)).
Proof. intro Hk. apply b58_allzero. exact Hk. Qed.

Lemma all_ones_or_not t : (exists c, In c t /\ c <> one_char) \/ t = repeat one_char (length t).
Proof.
  destruct (Forall_Exists_dec (eq one_char) (byte_eq_dec one_char) t) as [F|E].
  - right. apply Forall_eq_repeat, F.
  - left. apply Exists_exists in E as [c [Hin Hc]]. exists c. split; [exact Hin | congruence].
Qed.

(* Equal outputs have the same run of leading zeros and the same value (lead_val_inj, numeral_inj), and those
   two determine the input (text_nf, bytes_nf). *)
Theorem b58_decode_inj t1 t2 b : b58_decode t1 = Ok b -> b58_decode t2 = Ok b -> t1 = t2.
Proof.
  intros H1 H2.
  destruct (b58_decode_inv t1 b H1) as [N1 [ds1 E1]], (b58_decode_inv t2 b H2) as [N2 [ds2 E2]].
  rewrite b58_decode_nonempty, E1 in H1 by exact N1. rewrite b58_decode_nonempty, E2, <- H1 in H2 by exact N2.
  apply Ok_inj, (lead_val_inj x00 int_to_bytes be_decode) in H2 as [Hk Hv].
  - rewrite (text_nf t1 ds1 E1), (text_nf t2 ds2 E2), Hk, Hv. reflexivity.
  - intros k v. rewrite be_decode_zeros_app. apply be_decode_int_to_bytes.
Qed.

Theorem b58_encode_inj b1 b2 t : b58_encode b1 = Ok t -> b58_encode b2 = Ok t -> b1 = b2.
Proof.
  intros H1 H2. destruct b1 as [|x1 r1], b2 as [|x2 r2]; try discriminate.
  rewrite b58_encode_nonempty in H1, H2 by discriminate. rewrite <- H1, <- !map_rev in H2.
  apply Ok_inj, (numeral_inj 58 char_of_digit digit_of_char digit_of_char_of_digit ltac:(lia))
    in H2 as [Hk Hv].
  rewrite (bytes_nf (x1 :: r1)), (bytes_nf (x2 :: r2)), Hk, Hv. reflexivity.
Qed.

Theorem b58_encode_injective b1 b2 t : (exists c, In c b1 /\ c <> x00) -> (exists c, In c b2 /\ c <> x00) ->
  b58_encode b1 = Ok t -> b58_encode b2 = Ok t -> b1 = b2.
Proof. intros _ _. apply b58_encode_inj. Qed.

Section Check.
  Variable dsha : bytes -> bytes.

  (* every payload at all -- empty, or starting with zero bytes -- as long as payload ++ checksum is not all zero *)
  Theorem b58check_roundtrip_general p : (exists c, In c (p ++ checksum dsha p) /\ c <> x00) ->
    (4 <= length (dsha p))%nat ->
    exists t, b58_encode_check dsha p = Ok t /\ b58_decode_check dsha t = Ok p.
  Proof.
    intros Hnz Hlen. unfold b58_encode_check, b58_decode_check.
    destruct (b58_roundtrip (p ++ checksum dsha p) Hnz) as [t [He Hd]].
    exists t. split; [exact He|]. rewrite Hd. cbn [bind].
    assert (Hcl : length (checksum dsha p) = 4%nat).
    { unfold checksum. rewrite firstn_length. lia. }
    rewrite app_length, Hcl, Nat.add_sub, firstn_app_exact, skipn_app_exact, bytes_eqb_refl. reflexivity.
  Qed.

  Theorem b58check_roundtrip p c r : p = c :: r -> c <> x00 -> (4 <= length (dsha p))%nat ->
    exists t, b58_encode_check dsha p = Ok t /\ b58_decode_check dsha t = Ok p.
  Proof.
    intros -> Hc. apply b58check_roundtrip_general. exists c. split; [left; reflexivity | exact Hc].
  Qed.

  Theorem b58check_rejects t p : b58_decode_check dsha t = Ok p ->
    exists b, b58_decode t = Ok b /\ p = firstn (length b - 4) b /\ skipn (length b - 4) b = checksum dsha p.
  Proof.
    unfold b58_decode_check. destruct (b58_decode t) as [b|e]; [|discriminate]. cbn [bind].
    destruct (bytes_eqb _ _) eqn:E; [|discriminate]. intro H. injection H as <-.
    apply bytes_eqb_eq in E. exists b. split; [reflexivity|]. split; [reflexivity | exact E].
  Qed.

  Theorem b58check_accepts_only_matching t p : b58_decode_check dsha t = Ok p ->
    b58_decode t = Ok (p ++ checksum dsha p).
  Proof.
    intro H. destruct (b58check_rejects t p H) as [b [Hd [-> Hs]]]. rewrite <- Hs, firstn_skipn. exact Hd.
  Qed.

  (* two different strings never decode to the same payload: a corrupted string that is accepted carries
     a different payload whose own checksum matches *)
  Theorem b58check_inj t1 t2 p : b58_decode_check dsha t1 = Ok p -> b58_decode_check dsha t2 = Ok p -> t1 = t2.
  Proof.
    intros H1 H2. apply b58check_accepts_only_matching in H1. apply b58check_accepts_only_matching in H2.
    exact (b58_decode_inj _ _ _ H1 H2).
  Qed.

  Theorem b58check_errors t e : b58_decode_check dsha t = Err e -> e = EEmpty \/ e = EChar \/ e = EChecksum.
  Proof.
    unfold b58_decode_check, b58_decode. destruct t as [|c t']; [intro H; injection H as <-; auto|].
    destruct (chars_to_digits (c :: t')); cbn [bind].
    - destruct (bytes_eqb _ _); [discriminate | intro H; injection H as <-; auto].
    - intro H; injection H as <-; auto.
  Qed.
End Check.
