(* Parser.parse, Script.parse and Template.generate of lbry/wallet/script.py (Wire/Script.v) and the output classes
   of Model/C15.v.  A template without PUSH_MANY is matched token by token ([parse_simple], which [parse] computes),
   and both tables begin with such templates, pairwise incompatible by a checked decision procedure ([compat]): an
   entry among them that matches is the one [first_match] finds, whatever the order.  The token lists a template
   matches are a formula computed from the template ([shape]); [out_shape] and [in_shape] are instances by
   conversion, and so are the shapes of the claim / update / support classes, as a prefix that a payment tail
   follows ([locked_shapes]). *)
From Coq Require Import NArith ZArith List Bool Lia.
From LV Require Import Lib.Bytes Wire.Push Wire.Script Model.C15.
Import ListNotations.
Local Open Scope N_scope.

Definition match_tok (op : topcode) (t : token) : option values :=
  match op, t with
  | OpLit o, TOp v => if v =? o then Some [] else None
  | PushSingle n, TData d => Some [(n, VBytes d)]
  | PushSingle n, TOp 0 => Some [(n, VBytes [])]
  | PushInteger n, TData d => Some [(n, VInt (le_decode d))]
  | PushSub n s, TData d => Some [(n, VSub s d)]
  | SmallInt n, TSmall k => Some [(n, VSmall k)]
  | _, _ => None
  end.

Fixpoint parse_simple (ops : list topcode) (toks : list token) : option values :=
  match ops, toks with
  | [], [] => Some []
  | op :: ops', t :: toks' =>
      match match_tok op t, parse_simple ops' toks' with
      | Some a, Some b => Some (a ++ b)
      | _, _ => None
      end
  | _, _ => None
  end.

Definition of_opt (o : option values) : presult := match o with Some v => PMatch v | None => PNoMatch end.
Definition no_many (ops : list topcode) : bool := forallb (fun op => negb (is_many op)) ops.

Lemma span_push_length ops : (length (snd (span_push ops)) <= length ops)%nat.
Proof.
  induction ops as [|op r IH]; simpl; [lia|].
  destruct (is_push_op op); [|simpl; lia].
  destruct (span_push r) as [a b]. simpl in *. lia.
Qed.

Lemma consume_many_shorter name n ops' toks vs ro rt :
  consume_many name (PushMany n :: ops') toks = Some (vs, ro, rt) -> (length ro <= length ops')%nat.
Proof.
  unfold consume_many. destruct (span_data toks) as [datas rest_toks].
  cbn [span_push is_push_op]. pose proof (span_push_length ops') as L.
  destruct (span_push ops') as [a b]. simpl in L.
  destruct (1 <? _)%nat; [discriminate|].
  destruct (_ <? _)%nat; [discriminate|].
  destruct (zip_singles _ _); [|discriminate].
  intro H. inversion H; subst. exact L.
Qed.

Lemma pcons_fuel kv r : pcons kv r = PFuel -> r = PFuel.
Proof. destruct r; simpl; congruence. Qed.

Lemma parse_fuel_cons f op ops t toks :
  parse_fuel (S f) (op :: ops) (t :: toks) =
  match op with
  | PushMany n =>
      match t with
      | TData _ => match consume_many n (op :: ops) (t :: toks) with
                   | Some (vs, ro, rt) => pcons vs (parse_fuel f ro rt)
                   | None => PNoMatch
                   end
      | _ => PNoMatch
      end
  | _ => match match_tok op t with
         | Some a => pcons a (parse_fuel f ops toks)
         | None => PNoMatch
         end
  end.
Proof.
  destruct op, t as [d|k|[|p]]; try reflexivity;
    cbn [parse_fuel match_tok]; destruct (_ =? _); try reflexivity; destruct (parse_fuel f ops toks); reflexivity.
Qed.

Lemma parse_fuel_no_fuel : forall f ops toks, (length ops < f)%nat -> parse_fuel f ops toks <> PFuel.
Proof.
  induction f as [|f IH]; intros ops toks H; [lia|].
  destruct ops as [|op ops], toks as [|t toks]; try discriminate.
  rewrite parse_fuel_cons. simpl in H.
  assert (R : forall kv ro rt, (length ro <= length ops)%nat -> pcons kv (parse_fuel f ro rt) <> PFuel).
  { intros kv ro rt L K. apply pcons_fuel in K. revert K. apply IH. lia. }
  destruct op, t; try discriminate; try (destruct (match_tok _ _); [apply R; lia | discriminate]).
  destruct (consume_many _ _ _) as [[[vs ro] rt]|] eqn:E; [|discriminate].
  apply R. eapply consume_many_shorter, E.
Qed.

Lemma parse_fuel_simple : forall f ops toks, no_many ops = true -> (length ops < f)%nat ->
  parse_fuel f ops toks = of_opt (parse_simple ops toks).
Proof.
  induction f as [|f IH]; intros ops toks Hn H; [lia|].
  destruct ops as [|op ops], toks as [|t toks]; try reflexivity.
  rewrite parse_fuel_cons. cbn [parse_simple]. simpl in H.
  cbn [no_many forallb] in Hn. apply andb_true_iff in Hn as [Hop Hn].
  rewrite IH by (assumption || lia).
  destruct op; try discriminate Hop; destruct (match_tok _ t), (parse_simple ops toks); reflexivity.
Qed.

Lemma parse_no_fuel ops toks : parse ops toks <> PFuel.
Proof. apply parse_fuel_no_fuel. lia. Qed.

Lemma template_parse_no_fuel ops toks : template_parse ops toks <> PFuel.
Proof. destruct ops; [discriminate | apply parse_no_fuel]. Qed.

Lemma parse_simple_eq ops toks : no_many ops = true -> parse ops toks = of_opt (parse_simple ops toks).
Proof. intro H. apply parse_fuel_simple; [exact H | lia]. Qed.

Lemma template_parse_simple ops toks : no_many ops = true -> ops <> [] ->
  template_parse ops toks = of_opt (parse_simple ops toks).
Proof. intros H Hne. destruct ops; [congruence|]. apply parse_simple_eq. exact H. Qed.

Lemma parse_simple_nil_inv toks vs : parse_simple [] toks = Some vs -> toks = [] /\ vs = [].
Proof. destruct toks; simpl; intro H; [inversion H; auto | discriminate]. Qed.

Lemma parse_simple_cons_inv op ops toks vs : parse_simple (op :: ops) toks = Some vs ->
  exists t toks' v1 v2, toks = t :: toks' /\ match_tok op t = Some v1 /\
                        parse_simple ops toks' = Some v2 /\ vs = v1 ++ v2.
Proof.
  destruct toks as [|t toks']; cbn [parse_simple]; [discriminate|].
  destruct (match_tok op t) as [a|] eqn:E1; [|discriminate].
  destruct (parse_simple ops toks') as [b|] eqn:E2; [|discriminate].
  intro H. inversion H. exists t, toks', a, b. auto.
Qed.

Lemma parse_simple_length : forall ops toks v, parse_simple ops toks = Some v -> length ops = length toks.
Proof.
  induction ops as [|op r IH]; intros toks v H.
  - apply parse_simple_nil_inv in H as [-> _]. reflexivity.
  - apply parse_simple_cons_inv in H as (t & toks' & v1 & v2 & -> & _ & P & _). simpl. f_equal. eapply IH. exact P.
Qed.

(* a pushed datum as it appears in a token list: a data token, or OP_0 for the empty string *)
Inductive pushed : token -> bytes -> Prop :=
| pushed_data d : pushed (TData d) d
| pushed_zero : pushed (TOp 0) [].

Lemma match_tok_lit_inv o t v : match_tok (OpLit o) t = Some v -> t = TOp o /\ v = [].
Proof.
  destruct t as [d|k|x]; simpl; try discriminate.
  destruct (x =? o) eqn:E; [|discriminate]. apply N.eqb_eq in E. intro H. inversion H. subst. auto.
Qed.
Lemma match_tok_single_inv n t v : match_tok (PushSingle n) t = Some v ->
  exists d, pushed t d /\ v = [(n, VBytes d)].
Proof.
  destruct t as [d|k|[|p]]; simpl; try discriminate; intro H; inversion H.
  - exists d. split; [constructor | reflexivity].
  - exists []. split; [constructor | reflexivity].
Qed.
Lemma match_tok_int_inv n t v : match_tok (PushInteger n) t = Some v ->
  exists d, t = TData d /\ v = [(n, VInt (le_decode d))].
Proof. destruct t as [d|k|x]; simpl; try discriminate. intro H. inversion H. exists d. auto. Qed.
Lemma match_tok_sub_inv n sub t v : match_tok (PushSub n sub) t = Some v ->
  exists d, t = TData d /\ v = [(n, VSub sub d)].
Proof. destruct t as [d|k|x]; simpl; try discriminate. intro H. inversion H. exists d. auto. Qed.
Lemma match_tok_single_pushed n t d : pushed t d -> match_tok (PushSingle n) t = Some [(n, VBytes d)].
Proof. intro H. destruct H; reflexivity. Qed.
Lemma dtok_pushed d : pushed (dtok d) d.
Proof. destruct d; constructor. Qed.

(* compatibility of template opcodes: can one token satisfy both? *)
Definition compat (a b : topcode) : bool :=
  match a, b with
  | OpLit x, OpLit y => x =? y
  | OpLit x, PushSingle _ | PushSingle _, OpLit x => x =? 0
  | OpLit _, _ | _, OpLit _ => false
  | SmallInt _, SmallInt _ => true
  | SmallInt _, _ | _, SmallInt _ => false
  | _, _ => true
  end.

Lemma compat_sound a b t va vb : match_tok a t = Some va -> match_tok b t = Some vb -> compat a b = true.
Proof.
  destruct t as [d|k|[|p]], a as [x|n|n|n|n s|n]; try discriminate;
    destruct b as [y|m|m|m|m s'|m]; try discriminate; try reflexivity; intros H1 H2; cbn [compat].
  all: try apply match_tok_lit_inv in H1 as [[= <-] _]; try apply match_tok_lit_inv in H2 as [[= <-] _];
    apply N.eqb_refl.
Qed.

Fixpoint all_compat (a b : list topcode) : bool :=
  match a, b with
  | [], [] => true
  | x :: a', y :: b' => compat x y && all_compat a' b'
  | _, _ => false
  end.

Lemma all_compat_sound : forall a b toks va vb,
  parse_simple a toks = Some va -> parse_simple b toks = Some vb -> all_compat a b = true.
Proof.
  induction a as [|x a IH]; intros b toks va vb H1 H2.
  - apply parse_simple_nil_inv in H1 as [-> _]. destruct b; [reflexivity | discriminate].
  - apply parse_simple_cons_inv in H1 as (t & toks' & v1 & v2 & -> & M1 & P1 & _).
    destruct b as [|y b]; [discriminate|].
    apply parse_simple_cons_inv in H2 as (t2 & toks2 & w1 & w2 & [= <- <-] & M2 & P2 & _).
    cbn [all_compat]. rewrite (compat_sound _ _ _ _ _ M1 M2). exact (IH _ _ _ _ P1 P2).
Qed.

Definition simple_table (l : list template) : bool :=
  forallb (fun t => no_many (snd t) && negb (match snd t with [] => true | _ => false end)) l.
Fixpoint pairwise_incompat (l : list template) : bool :=
  match l with
  | [] => true
  | t :: r => forallb (fun u => negb (all_compat (snd t) (snd u))) r && pairwise_incompat r
  end.

Lemma simple_table_In l name ops : simple_table l = true -> In (name, ops) l -> no_many ops = true /\ ops <> [].
Proof.
  unfold simple_table. rewrite forallb_forall. intros H HIn. specialize (H _ HIn). simpl in H.
  apply andb_true_iff in H as [H1 H2]. split; [exact H1|]. destruct ops; discriminate.
Qed.

Lemma first_match_no_fuel tpls toks : first_match tpls toks <> SFuel.
Proof.
  induction tpls as [|[name ops] r IH]; simpl; [discriminate|].
  pose proof (template_parse_no_fuel ops toks).
  destruct (template_parse ops toks); [discriminate | exact IH | congruence].
Qed.

Lemma first_match_In : forall tpls toks name vs, first_match tpls toks = SMatch name vs ->
  exists ops, In (name, ops) tpls /\ template_parse ops toks = PMatch vs.
Proof.
  induction tpls as [|[n1 o1] r IH]; intros toks name vs H; [discriminate|].
  cbn [first_match] in H. destruct (template_parse o1 toks) as [v| |] eqn:E.
  - injection H as <- <-. exists o1. split; [left; reflexivity | exact E].
  - destruct (IH _ _ _ H) as (ops & HIn & Hp). exists ops. split; [right; exact HIn | exact Hp].
  - discriminate.
Qed.

Lemma first_match_simple_In tbl toks name vs : simple_table tbl = true ->
  first_match tbl toks = SMatch name vs -> exists ops, In (name, ops) tbl /\ parse_simple ops toks = Some vs.
Proof.
  intros Hs H. apply first_match_In in H as (ops & HIn & H). exists ops. split; [exact HIn|].
  destruct (simple_table_In _ _ _ Hs HIn) as [S1 S2]. rewrite template_parse_simple in H by assumption.
  destruct (parse_simple ops toks); [injection H as -> | discriminate]. reflexivity.
Qed.

Lemma first_match_app a b toks :
  first_match (a ++ b) toks = match first_match a toks with SNoMatch => first_match b toks | r => r end.
Proof.
  induction a as [|[n o] a IH]; cbn [app first_match]; [reflexivity|].
  destruct (template_parse o toks); [reflexivity | exact IH | reflexivity].
Qed.

Lemma first_match_nomatch_In l toks n ops : first_match l toks = SNoMatch -> In (n, ops) l ->
  template_parse ops toks = PNoMatch.
Proof.
  intros H HIn. apply in_split in HIn as (a & b & ->). rewrite first_match_app in H.
  destruct (first_match a toks); try discriminate H. cbn [first_match] in H.
  destruct (template_parse ops toks); [discriminate H | reflexivity | discriminate H].
Qed.

Lemma table_unambiguous : forall l toks a b va vb,
  simple_table l = true -> pairwise_incompat l = true -> In a l -> In b l ->
  parse_simple (snd a) toks = Some va -> parse_simple (snd b) toks = Some vb -> a = b.
Proof.
  induction l as [|h r IH]; intros toks a b va vb Hs Hp Ha Hb Ma Mb; [destruct Ha|].
  cbn [simple_table forallb] in Hs. apply andb_true_iff in Hs as [_ Hs].
  cbn [pairwise_incompat] in Hp. apply andb_true_iff in Hp as [Hh Hp].
  rewrite forallb_forall in Hh.
  destruct Ha as [Ea|Ha]; destruct Hb as [Eb|Hb].
  - congruence.
  - subst h. specialize (Hh _ Hb). rewrite (all_compat_sound _ _ _ _ _ Ma Mb) in Hh. discriminate.
  - subst h. specialize (Hh _ Ha). rewrite (all_compat_sound _ _ _ _ _ Mb Ma) in Hh. discriminate.
  - eapply IH; eassumption.
Qed.

(* an entry of the prefix that matches is the only one that does, so it is the one [first_match] finds *)
Lemma first_match_prefix : forall pre post toks name ops vs,
  simple_table pre = true -> pairwise_incompat pre = true ->
  In (name, ops) pre -> parse_simple ops toks = Some vs ->
  first_match (pre ++ post) toks = SMatch name vs.
Proof.
  intros pre post toks name ops vs Hs Hp HIn Hm. rewrite first_match_app.
  destruct (first_match pre toks) as [n v| |] eqn:E.
  - apply first_match_simple_In in E as (o & I & P); [|exact Hs].
    pose proof (table_unambiguous _ _ (n, o) (name, ops) _ _ Hs Hp I HIn P Hm) as [= -> ->]. congruence.
  - pose proof (first_match_nomatch_In _ _ _ _ E HIn) as N. destruct (simple_table_In _ _ _ Hs HIn) as [S1 S2].
    rewrite template_parse_simple, Hm in N by assumption. discriminate N.
  - destruct (first_match_no_fuel _ _ E).
Qed.

Lemma first_match_nomatch : forall l toks, simple_table l = true ->
  (forall n ops, In (n, ops) l -> length ops <> length toks) -> first_match l toks = SNoMatch.
Proof.
  intros l toks Hs H. destruct (first_match l toks) as [n v| |] eqn:E;
    [|reflexivity | destruct (first_match_no_fuel _ _ E)].
  apply first_match_simple_In in E as (ops & HIn & P); [|exact Hs].
  destruct (H _ _ HIn (parse_simple_length _ _ _ P)).
Qed.

Lemma output_table_simple : simple_table output_templates = true.
Proof. vm_compute. reflexivity. Qed.
Lemma output_table_incompat : pairwise_incompat output_templates = true.
Proof. vm_compute. reflexivity. Qed.
Definition input_simple_templates : list template := [REDEEM_PUBKEY; REDEEM_PUBKEY_HASH; REDEEM_SCRIPT_HASH_TIME_LOCK].
Lemma input_table_split : input_templates = input_simple_templates ++ [REDEEM_SCRIPT_HASH_MULTI_SIG].
Proof. reflexivity. Qed.
Lemma input_table_simple : simple_table input_simple_templates = true.
Proof. vm_compute. reflexivity. Qed.
Lemma input_table_incompat : pairwise_incompat input_simple_templates = true.
Proof. vm_compute. reflexivity. Qed.

(* Script.parse after the tokenizer: the templates tried on a token list *)
Definition parse_tokens (hint : option template) (tpls : list template) (toks : list token) : sresult :=
  let hint' := match toks, hint with [], None => Some NO_SCRIPT | _, _ => hint end in
  first_match (match hint' with Some t => [t] | None => [] end ++ tpls) toks.

Lemma script_parse_ok hint tpls s toks : tokenize s = TokOk toks ->
  script_parse hint tpls s = parse_tokens hint tpls toks.
Proof. intro T. unfold script_parse. rewrite T. reflexivity. Qed.

Lemma script_parse_cases hint tpls s :
  tokenize s = TokErr StructError /\ script_parse hint tpls s = SNoMatch \/
  exists toks, tokenize s = TokOk toks /\ script_parse hint tpls s = parse_tokens hint tpls toks.
Proof.
  unfold script_parse. pose proof (tokenize_no_fuel s).
  destruct (tokenize s) as [toks|[|]]; [right; exists toks | left | congruence]; split; reflexivity.
Qed.

Lemma script_parse_no_fuel hint tpls s : script_parse hint tpls s <> SFuel.
Proof.
  destruct (script_parse_cases hint tpls s) as [[_ ->]|(toks & _ & ->)]; [discriminate | apply first_match_no_fuel].
Qed.

Theorem no_fuel : forall s, tokenize s <> TokErr TokFuel /\ parse_output s <> SFuel /\ parse_input s <> SFuel /\
  forall t, parse_sub t s <> SFuel.
Proof.
  intro s. split; [apply tokenize_no_fuel|]. split; [apply script_parse_no_fuel|].
  split; [apply script_parse_no_fuel | intro t; apply script_parse_no_fuel].
Qed.

Lemma script_parse_shapes hint tpls (P : tname -> list token -> values -> Prop) :
  (forall toks name vs, parse_tokens hint tpls toks = SMatch name vs <-> P name toks vs) ->
  forall s name vs, script_parse hint tpls s = SMatch name vs <-> exists toks, tokenize s = TokOk toks /\ P name toks vs.
Proof.
  intros E s name vs. split.
  - destruct (script_parse_cases hint tpls s) as [[_ ->]|(toks & T & ->)]; [discriminate|].
    intro H. exists toks. split; [exact T | apply E, H].
  - intros (toks & T & H). rewrite (script_parse_ok _ _ _ _ T). apply E, H.
Qed.

(* what Script.parse without a hint accepts from a table: no tokens as no_script, any others by an entry *)
Definition table_shape (tbl : list template) (name : tname) (toks : list token) (vs : values) : Prop :=
  match toks with
  | [] => name = T_no_script /\ vs = []
  | _ => exists ops, In (name, ops) tbl /\ parse_simple ops toks = Some vs
  end.

Lemma table_shape_In tbl name ops toks vs : simple_table tbl = true -> In (name, ops) tbl ->
  parse_simple ops toks = Some vs -> table_shape tbl name toks vs.
Proof.
  intros Hs HIn H. destruct toks; [|cbn; eauto]. destruct (simple_table_In _ _ _ Hs HIn) as [_ Hne].
  apply parse_simple_length in H. destruct ops; [contradiction | discriminate H].
Qed.

Theorem parse_tokens_simple tbl post : simple_table tbl = true -> pairwise_incompat tbl = true ->
  forall toks name vs,
  parse_tokens None (tbl ++ post) toks = SMatch name vs <->
  table_shape tbl name toks vs \/
  toks <> [] /\ first_match tbl toks = SNoMatch /\ first_match post toks = SMatch name vs.
Proof.
  intros Hs Hp toks name vs. destruct toks as [|t r].
  - cbn. split; [intros [= <- <-]; auto | intros [[-> ->]|[[] _]]; reflexivity].
  - change (parse_tokens None (tbl ++ post) (t :: r)) with (first_match (tbl ++ post) (t :: r)). split.
    + rewrite first_match_app. destruct (first_match tbl (t :: r)) as [n v| |] eqn:E; intro H;
        [left | right | discriminate H].
      * injection H as <- <-. exact (first_match_simple_In _ _ _ _ Hs E).
      * repeat split; [discriminate | exact H].
    + intros [(ops & HIn & H)|(_ & N & H)]; [exact (first_match_prefix _ _ _ _ _ _ Hs Hp HIn H)|].
      rewrite first_match_app, N. exact H.
Qed.

(* a PUSH_MANY-free template given as the hint, and no table (values['script'].values of a spend): it is the only
   template tried *)
Theorem parse_tokens_hint t : simple_table [t] = true -> forall toks name vs,
  parse_tokens (Some t) [] toks = SMatch name vs <-> name = fst t /\ parse_simple (snd t) toks = Some vs.
Proof.
  intros Hs toks name vs. destruct t as [n ops]. destruct (simple_table_In _ _ _ Hs (or_introl eq_refl)) as [N Hne].
  replace (parse_tokens _ _ toks) with (first_match [(n, ops)] toks) by (destruct toks; reflexivity).
  cbn [first_match fst snd]. rewrite template_parse_simple by assumption.
  destruct (parse_simple ops toks) as [v|]; cbn [of_opt]; split; try discriminate.
  - intros [= <- <-]. auto.
  - intros [-> [= ->]]. reflexivity.
  - intros [_ [=]].
Qed.

Definition LIMIT : N := 4294967296.   (* 2^32: push_data's uint32 length *)

Theorem push_minimal : forall n, n < LIMIT ->
  push_form (push_header n) n /\ forall h, push_form h n -> (length (push_header n) <= length h)%nat.
Proof. intros n H. split; [apply push_header_form; exact H | intros h F; apply push_header_minimal; exact F]. Qed.

(* what a template slot needs from the values: present, of the right kind, below 2^32 bytes *)
Definition slot_ok (vs : values) (op : topcode) : Prop :=
  match op with
  | OpLit o => plain_op o = true
  | PushSingle n => exists d, lookup n vs = Some (VBytes d) /\ N.of_nat (length d) < LIMIT
  | PushInteger n => exists v, lookup n vs = Some (VInt v) /\ N.of_nat (length (int_bytes v)) < LIMIT
  | PushSub n _ => exists s src, lookup n vs = Some (VSub s src) /\ src <> [] /\ N.of_nat (length src) < LIMIT
  | PushMany _ | SmallInt _ => False
  end.

(* the values dictionary the parser is expected to return, in template order *)
Definition expect1 (vs : values) (op : topcode) : values :=
  match op with
  | PushSingle n => match lookup n vs with Some (VBytes d) => [(n, VBytes d)] | _ => [] end
  | PushInteger n => match lookup n vs with Some (VInt v) => [(n, VInt v)] | _ => [] end
  | PushSub n s => match lookup n vs with Some (VSub _ src) => [(n, VSub s src)] | _ => [] end
  | _ => []
  end.
Definition expected (ops : list topcode) (vs : values) : values := flat_map (expect1 vs) ops.

(* the bytes Template.generate writes for one opcode *)
Definition chunk (op : topcode) (vs : values) : option bytes :=
  match op with
  | OpLit o => Some [byte_of_N o]
  | PushSingle n => match lookup n vs with Some (VBytes d) => Some (push d) | _ => None end
  | PushInteger n => match lookup n vs with Some (VInt v) => Some (push (int_bytes v)) | _ => None end
  | PushSub n _ => match lookup n vs with Some (VSub _ src) => Some (push src) | _ => None end
  | PushMany n => match lookup n vs with Some (VList l) => Some (concat (map push l)) | _ => None end
  | SmallInt n => match lookup n vs with
                  | Some (VSmall k) => if (1 <=? k) && (k <=? 16) then Some [byte_of_N (OP_1 + (k - 1))] else None
                  | _ => None end
  end.

Lemma generate_cons op r vs :
  generate (op :: r) vs = match chunk op vs, generate r vs with Some c, Some s => Some (c ++ s) | _, _ => None end.
Proof. destruct op; reflexivity. Qed.

Lemma int_bytes_width v : (0 < N.to_nat ((N.size v + 8) / 8))%nat.
Proof. assert (1 <= (N.size v + 8) / 8) by (generalize (N.size v); intro; lia). lia. Qed.

Lemma int_bytes_nonempty v : int_bytes v <> [].
Proof.
  unfold int_bytes. pose proof (int_bytes_width v) as W.
  destruct (N.to_nat ((N.size v + 8) / 8)); [lia | discriminate].
Qed.

Lemma int_bytes_decode v : le_decode (int_bytes v) = v.
Proof.
  unfold int_bytes. apply le_decode_encode. rewrite N2Nat.id.
  set (w := (N.size v + 8) / 8).
  assert (Hw : N.size v <= 8 * w) by (unfold w; generalize (N.size v); intro; lia).
  replace 256 with (2 ^ 8) by reflexivity. rewrite <- N.pow_mul_r.
  apply N.lt_le_trans with (2 ^ N.size v); [apply N.size_gt|].
  apply N.pow_le_mono_r; [lia | exact Hw].
Qed.

Lemma int_bytes_length v : N.of_nat (length (int_bytes v)) = (N.size v + 8) / 8.
Proof. unfold int_bytes. rewrite le_encode_length, N2Nat.id. reflexivity. Qed.

Lemma dtok_nonempty d : d <> [] -> dtok d = TData d.
Proof. destruct d; [congruence | reflexivity]. Qed.

Lemma slot_roundtrip vs op : slot_ok vs op ->
  exists c t, chunk op vs = Some c /\ (forall s, tokenize (c ++ s) = tcons t (tokenize s)) /\
              match_tok op t = Some (expect1 vs op).
Proof.
  destruct op as [o|n|n|n|n sub|n]; cbn [slot_ok chunk expect1]; try contradiction.
  - intro H. exists [byte_of_N o], (TOp o). split; [reflexivity|].
    split; [intro s; apply tokenize_plain_op, H | cbn; rewrite N.eqb_refl; reflexivity].
  - intros (d & -> & Hd). exists (push d), (dtok d). split; [reflexivity|].
    split; [intro s; apply tokenize_push, Hd | apply match_tok_single_pushed, dtok_pushed].
  - intros (v & -> & Hd). exists (push (int_bytes v)), (TData (int_bytes v)). split; [reflexivity|].
    split; [intro s; rewrite <- (dtok_nonempty _ (int_bytes_nonempty v)); apply tokenize_push, Hd|].
    cbn. rewrite int_bytes_decode. reflexivity.
  - intros (s0 & src & -> & Hne & Hd). exists (push src), (TData src). split; [reflexivity|].
    split; [intro s; rewrite <- (dtok_nonempty _ Hne); apply tokenize_push, Hd | reflexivity].
Qed.

Lemma generate_roundtrip : forall ops vs, Forall (slot_ok vs) ops ->
  exists s toks, generate ops vs = Some s /\ tokenize s = TokOk toks /\
                 parse_simple ops toks = Some (expected ops vs) /\ length toks = length ops.
Proof.
  induction 1 as [|op r Hop _ (s & toks & G & T & P & L)].
  - exists [], []. repeat split; reflexivity.
  - destruct (slot_roundtrip _ _ Hop) as (c & t & C & Tc & M).
    exists (c ++ s), (t :: toks). rewrite generate_cons, C, G, Tc, T. cbn [parse_simple]. rewrite M, P.
    repeat split. simpl. congruence.
Qed.

Lemma generate_script_parse : forall pre post name ops vs,
  simple_table pre = true -> pairwise_incompat pre = true -> In (name, ops) pre ->
  Forall (slot_ok vs) ops ->
  exists s, generate ops vs = Some s /\ script_parse None (pre ++ post) s = SMatch name (expected ops vs).
Proof.
  intros pre post name ops vs Hs Hp HIn Hok.
  destruct (generate_roundtrip ops vs Hok) as (s & toks & G & T & P & L).
  exists s. split; [exact G|]. rewrite (script_parse_ok _ _ _ _ T). apply parse_tokens_simple; [exact Hs | exact Hp|].
  left. exact (table_shape_In _ _ _ _ _ Hs HIn P).
Qed.

Theorem generate_parse_output : forall name ops vs, In (name, ops) output_templates ->
  Forall (slot_ok vs) ops ->
  exists s, generate ops vs = Some s /\ parse_output s = SMatch name (expected ops vs).
Proof.
  intros name ops vs HIn Hok. unfold parse_output.
  rewrite <- (app_nil_r output_templates).
  apply generate_script_parse; [apply output_table_simple | apply output_table_incompat | exact HIn | exact Hok].
Qed.

Theorem generate_parse_input : forall name ops vs, In (name, ops) input_simple_templates ->
  Forall (slot_ok vs) ops ->
  exists s, generate ops vs = Some s /\ parse_input s = SMatch name (expected ops vs).
Proof.
  intros name ops vs HIn Hok. unfold parse_input. rewrite input_table_split.
  apply generate_script_parse; [apply input_table_simple | apply input_table_incompat | exact HIn | exact Hok].
Qed.

(* the time-lock redeem script, parsed the way values['script'].values parses it (template hint) *)
Theorem generate_parse_timelock : forall vs, Forall (slot_ok vs) (snd TIME_LOCK_SCRIPT) ->
  exists s, generate (snd TIME_LOCK_SCRIPT) vs = Some s /\ s <> [] /\
            parse_sub SubTimeLock s = SMatch T_timelock (expected (snd TIME_LOCK_SCRIPT) vs).
Proof.
  intros vs Hok.
  destruct (generate_roundtrip _ vs Hok) as (s & toks & G & T & P & L).
  exists s. split; [exact G|]. split.
  - intros ->. rewrite tokenize_nil in T. injection T as <-. discriminate L.
  - unfold parse_sub. rewrite (script_parse_ok _ _ _ _ T). apply parse_tokens_hint; [reflexivity | auto].
Qed.

(* all literal opcodes of the tables are plain opcodes, so [slot_ok] only constrains the values *)
Definition lits_plain (ops : list topcode) : bool :=
  forallb (fun op => match op with OpLit o => plain_op o | _ => true end) ops.
Lemma tables_lits_plain :
  forallb (fun t => lits_plain (snd t)) (TIME_LOCK_SCRIPT :: output_templates ++ input_simple_templates) = true.
Proof. vm_compute. reflexivity. Qed.

(* like [slot_ok], but says nothing about literal opcodes (those are a fact about the tables) *)
Definition values_fit (ops : list topcode) (vs : values) : Prop :=
  forall op, In op ops ->
    match op with
    | OpLit _ => True
    | PushSingle n => exists d, lookup n vs = Some (VBytes d) /\ N.of_nat (length d) < LIMIT
    | PushInteger n => exists v, lookup n vs = Some (VInt v) /\ (N.size v + 8) / 8 < LIMIT
    | PushSub n _ => exists s src, lookup n vs = Some (VSub s src) /\ src <> [] /\ N.of_nat (length src) < LIMIT
    | PushMany _ | SmallInt _ => False
    end.

(* [values_fit] of a concrete template: one goal per push slot *)
Ltac each_slot := refine (proj1 (Forall_forall _ _) _); repeat constructor.

Lemma values_fit_slot_ok ops vs : lits_plain ops = true -> values_fit ops vs -> Forall (slot_ok vs) ops.
Proof.
  intros Hl Hf. apply Forall_forall. intros op HIn. specialize (Hf op HIn).
  unfold lits_plain in Hl. rewrite forallb_forall in Hl. specialize (Hl op HIn).
  destruct op; cbn [slot_ok]; try assumption.
  destruct Hf as (v & H1 & H2). exists v. split; [exact H1|]. rewrite int_bytes_length. exact H2.
Qed.

Lemma table_lits_plain name ops :
  In (name, ops) (TIME_LOCK_SCRIPT :: output_templates ++ input_simple_templates) -> lits_plain ops = true.
Proof.
  intro H. pose proof tables_lits_plain as T. rewrite forallb_forall in T. apply (T _ H).
Qed.

Lemma table_fit name ops vs :
  In (name, ops) (TIME_LOCK_SCRIPT :: output_templates ++ input_simple_templates) -> values_fit ops vs ->
  Forall (slot_ok vs) ops.
Proof. intros HIn Hf. exact (values_fit_slot_ok _ _ (table_lits_plain _ _ HIn) Hf). Qed.

Lemma output_fit name ops vs : In (name, ops) output_templates -> values_fit ops vs -> Forall (slot_ok vs) ops.
Proof. intro HIn. apply (table_fit name). right. apply in_or_app. left. exact HIn. Qed.

Lemma input_fit name ops vs : In (name, ops) input_simple_templates -> values_fit ops vs -> Forall (slot_ok vs) ops.
Proof. intro HIn. apply (table_fit name). right. apply in_or_app. right. exact HIn. Qed.

Theorem generate_parse_output_fit : forall name ops vs, In (name, ops) output_templates ->
  values_fit ops vs ->
  exists s, generate ops vs = Some s /\ parse_output s = SMatch name (expected ops vs).
Proof. intros name ops vs HIn Hf. exact (generate_parse_output _ _ _ HIn (output_fit _ _ _ HIn Hf)). Qed.

Theorem generate_parse_input_fit : forall name ops vs, In (name, ops) input_simple_templates ->
  values_fit ops vs ->
  exists s, generate ops vs = Some s /\ parse_input s = SMatch name (expected ops vs).
Proof. intros name ops vs HIn Hf. exact (generate_parse_input _ _ _ HIn (input_fit _ _ _ HIn Hf)). Qed.

Theorem generate_parse_timelock_fit : forall vs, values_fit (snd TIME_LOCK_SCRIPT) vs ->
  exists s, generate (snd TIME_LOCK_SCRIPT) vs = Some s /\ s <> [] /\
            parse_sub SubTimeLock s = SMatch T_timelock (expected (snd TIME_LOCK_SCRIPT) vs).
Proof. intros vs Hf. exact (generate_parse_timelock _ (table_fit T_timelock _ _ (or_introl eq_refl) Hf)). Qed.

Definition bs (l : list N) : bytes := map byte_of_N l.
Definition ex_name : bytes := bs [110; 97; 109; 101].            (* "name" *)
Definition ex_hash : bytes := repeat (byte_of_N 17) 20.
Definition ex_claim_values : values :=
  [(F_claim_name, VBytes ex_name); (F_claim, VBytes (bs [1; 2; 3])); (F_pubkey_hash, VBytes ex_hash)].

Lemma ex_claim_fit : values_fit (snd CLAIM_NAME_PUBKEY) ex_claim_values.
Proof.
  each_slot.
  - exists ex_name. split; reflexivity.
  - exists (bs [1; 2; 3]). split; reflexivity.
  - exists ex_hash. split; reflexivity.
Qed.

Lemma ex_timelock_fit : values_fit (snd TIME_LOCK_SCRIPT) [(F_height, VInt 500); (F_pubkey_hash, VBytes ex_hash)].
Proof.
  each_slot.
  - exists 500. split; reflexivity.
  - exists ex_hash. split; reflexivity.
Qed.

Lemma field_eqb_eq a b : field_eqb a b = true <-> a = b.
Proof.
  (* a field's code is its position in all_fields *)
  assert (P : forall f, nth (N.to_nat (field_code f)) all_fields F_signature = f) by (destruct f; reflexivity).
  unfold field_eqb. rewrite N.eqb_eq. split; [|intros ->; reflexivity].
  intro H. rewrite <- (P a), H. apply P.
Qed.

Definition push_field (op : topcode) : option field :=
  match op with
  | PushSingle n | PushInteger n | PushSub n _ | PushMany n | SmallInt n => Some n
  | OpLit _ => None
  end.

(* the payload generate reads from a value *)
Definition same_payload (a b : value) : Prop :=
  match a, b with
  | VBytes x, VBytes y => x = y
  | VInt x, VInt y => x = y
  | VSub _ x, VSub _ y => x = y
  | _, _ => False
  end.

Lemma expect1_ok vs op : slot_ok vs op ->
  match push_field op with
  | None => expect1 vs op = []
  | Some m => exists v v', lookup m vs = Some v /\ expect1 vs op = [(m, v')] /\ same_payload v v'
  end.
Proof.
  destruct op; cbn [slot_ok push_field expect1]; try contradiction; [reflexivity | ..].
  - intros (d & -> & _). exists (VBytes d), (VBytes d). repeat split.
  - intros (v & -> & _). exists (VInt v), (VInt v). repeat split.
  - intros (s0 & src & -> & _). exists (VSub s0 src), (VSub t src). repeat split.
Qed.

Lemma lookup_expected : forall ops vs n, Forall (slot_ok vs) ops ->
  (exists op, In op ops /\ push_field op = Some n) ->
  exists v v', lookup n vs = Some v /\ lookup n (expected ops vs) = Some v' /\ same_payload v v'.
Proof.
  induction 1 as [|op r Hop _ IH]; intros (op0 & HIn & Hf); [destruct HIn|].
  change (expected (op :: r) vs) with (expect1 vs op ++ expected r vs).
  assert (Tail : op <> op0 -> exists v v', lookup n vs = Some v /\ lookup n (expected r vs) = Some v' /\ same_payload v v').
  { intro Hne. destruct HIn as [E|HIn]; [congruence|]. apply IH. exists op0. auto. }
  apply expect1_ok in Hop. destruct (push_field op) as [m|] eqn:F.
  - destruct Hop as (v & v' & L & -> & S). cbn [app lookup]. destruct (field_eqb m n) eqn:E.
    + apply field_eqb_eq in E as ->. exists v, v'. auto.
    + apply Tail. intros ->. rewrite Hf in F. injection F as ->.
      rewrite (proj2 (field_eqb_eq m m) eq_refl) in E. discriminate.
  - rewrite Hop. apply Tail. congruence.
Qed.

Lemma chunk_same_payload op vs vs' n v v' : push_field op = Some n ->
  lookup n vs = Some v -> lookup n vs' = Some v' -> same_payload v v' -> chunk op vs' = chunk op vs.
Proof.
  destruct op; cbn [push_field chunk]; try discriminate; intros [= ->] -> ->;
    destruct v, v'; cbn [same_payload]; try contradiction; intros ->; reflexivity.
Qed.

Lemma generate_expected_gen : forall ops all vs, Forall (slot_ok vs) all -> (forall op, In op ops -> In op all) ->
  generate ops (expected all vs) = generate ops vs.
Proof.
  induction ops as [|op r IH]; intros all vs Hok Hsub; [reflexivity|].
  rewrite !generate_cons, (IH all vs Hok) by (intros o Ho; apply Hsub; right; exact Ho).
  destruct (push_field op) as [n|] eqn:F; [|destruct op; try discriminate F; reflexivity].
  destruct (lookup_expected all vs n Hok) as (v & v' & L1 & L2 & S); [exists op; split; [apply Hsub; left|]; auto|].
  rewrite (chunk_same_payload _ _ _ _ _ _ F L1 L2 S). reflexivity.
Qed.

(* generating again from what the parser returned reproduces a generated script: any parser and table of which
   generate-then-parse is known *)
Lemma parse_then_generate (parse : bytes -> sresult) (tbl : list template) :
  (forall name ops vs, In (name, ops) tbl -> Forall (slot_ok vs) ops ->
     exists s, generate ops vs = Some s /\ parse s = SMatch name (expected ops vs)) ->
  (forall name ops vs, In (name, ops) tbl -> values_fit ops vs -> Forall (slot_ok vs) ops) ->
  forall name ops vs s vs', In (name, ops) tbl -> values_fit ops vs ->
    generate ops vs = Some s -> parse s = SMatch name vs' -> generate ops vs' = Some s.
Proof.
  intros R F name ops vs s vs' HIn Hf G P. pose proof (F _ _ _ HIn Hf) as Hok.
  destruct (R _ _ _ HIn Hok) as (s2 & G2 & P2). rewrite G in G2. injection G2 as <-. rewrite P in P2. injection P2 as ->.
  rewrite generate_expected_gen with (all := ops); auto.
Qed.

Theorem parse_then_generate_output : forall name ops vs s vs', In (name, ops) output_templates ->
  values_fit ops vs -> generate ops vs = Some s -> parse_output s = SMatch name vs' ->
  generate ops vs' = Some s.
Proof. exact (parse_then_generate parse_output output_templates generate_parse_output output_fit). Qed.

Theorem parse_then_generate_input : forall name ops vs s vs', In (name, ops) input_simple_templates ->
  values_fit ops vs -> generate ops vs = Some s -> parse_input s = SMatch name vs' ->
  generate ops vs' = Some s.
Proof. exact (parse_then_generate parse_input input_simple_templates generate_parse_input input_fit). Qed.

Theorem subscript_verbatim_general : forall ops vs s n t t' src,
  generate ops vs = Some s -> In (PushSub n t) ops -> lookup n vs = Some (VSub t' src) ->
  exists pre post, s = pre ++ push src ++ post.
Proof.
  induction ops as [|op r IH]; intros vs s n t t' src G HIn L; [destruct HIn|].
  rewrite generate_cons in G.
  destruct (chunk op vs) as [c|] eqn:C; [|discriminate].
  destruct (generate r vs) as [sr|] eqn:Gr; [|discriminate].
  injection G as <-. destruct HIn as [->|HIn].
  - cbn [chunk] in C. rewrite L in C. injection C as <-. exists [], sr. reflexivity.
  - destruct (IH vs sr n t t' src Gr HIn L) as (pre & post & ->).
    exists (c ++ pre), post. rewrite app_assoc. reflexivity.
Qed.

Theorem timelock_spend_verbatim : forall sig pk t src,
  generate (snd REDEEM_SCRIPT_HASH_TIME_LOCK)
           [(F_signature, VBytes sig); (F_pubkey, VBytes pk); (F_script, VSub t src)]
  = Some (push sig ++ push pk ++ push src).
Proof. intros. cbn. rewrite app_nil_r. reflexivity. Qed.

(* ANY redeem script bytes (canonical or not, a time-lock script or not) offered as the subscript:
   the spending input is sig, pubkey and exactly those bytes, and parses back to exactly those bytes *)
Theorem timelock_spend_any_redeem_script : forall sig pk src,
  N.of_nat (length sig) < LIMIT -> N.of_nat (length pk) < LIMIT -> N.of_nat (length src) < LIMIT -> src <> [] ->
  parse_input (push sig ++ push pk ++ push src) =
  SMatch T_script_hash_timelock
         [(F_signature, VBytes sig); (F_pubkey, VBytes pk); (F_script, VSub SubTimeLock src)].
Proof.
  intros sig pk src Hs Hp Hsrc Hne.
  destruct (generate_parse_input_fit T_script_hash_timelock _
              [(F_signature, VBytes sig); (F_pubkey, VBytes pk); (F_script, VSub SubTimeLock src)]
              (or_intror (or_intror (or_introl eq_refl)))) as (s & G & P).
  - each_slot; [exists sig | exists pk | exists SubTimeLock, src]; auto.
  - rewrite timelock_spend_verbatim in G. injection G as <-. exact P.
Qed.

(* the whole spend of a time-locked output: the redeem script generated from (height, pubkey_hash),
   wrapped with signature and pubkey, parses back under the global input order, and the carried
   subscript parses back to height and pubkey_hash *)
Theorem generate_parse_timelock_spend : forall sig pk height pkh,
  N.of_nat (length sig) < LIMIT -> N.of_nat (length pk) < LIMIT -> N.of_nat (length pkh) < LIMIT - 32 ->
  height < 2 ^ 64 ->
  exists src s,
    generate (snd TIME_LOCK_SCRIPT) [(F_height, VInt height); (F_pubkey_hash, VBytes pkh)] = Some src /\
    generate (snd REDEEM_SCRIPT_HASH_TIME_LOCK)
             [(F_signature, VBytes sig); (F_pubkey, VBytes pk); (F_script, VSub SubTimeLock src)] = Some s /\
    parse_input s = SMatch T_script_hash_timelock
                      [(F_signature, VBytes sig); (F_pubkey, VBytes pk); (F_script, VSub SubTimeLock src)] /\
    parse_sub SubTimeLock src = SMatch T_timelock [(F_height, VInt height); (F_pubkey_hash, VBytes pkh)].
Proof.
  intros sig pk height pkh Hs Hp Hh Hv. unfold LIMIT in *.
  (* the height takes at most 9 bytes, so the redeem script is at most 32 bytes longer than pkh *)
  assert (Hsz : (N.size height + 8) / 8 <= 9).
  { assert (N.size height <= 64).
    { destruct height as [|p]; [simpl; lia|].
      rewrite N.size_log2 by discriminate.
      assert (N.log2 (N.pos p) < 64) by (apply N.log2_lt_pow2; lia). lia. }
    generalize dependent (N.size height). intros. lia. }
  destruct (generate_parse_timelock_fit [(F_height, VInt height); (F_pubkey_hash, VBytes pkh)])
    as (src & G1 & Hne & P1).
  { each_slot; [exists height | exists pkh]; unfold LIMIT; split; (reflexivity || lia). }
  exists src, (push sig ++ push pk ++ push src).
  split; [exact G1|]. split; [apply timelock_spend_verbatim|]. split; [|exact P1].
  apply timelock_spend_any_redeem_script; try assumption.
  cbn in G1. injection G1 as <-.
  pose proof (push_length (int_bytes height)). pose proof (push_length pkh).
  pose proof (int_bytes_length height). unfold LIMIT.
  repeat (rewrite app_length || cbn [length]). lia.
Qed.

(* a generated script framed by its compact-size length (as inside a serialised transaction) is read
   back whole, for EVERY total script length below 2^63, whatever follows *)
Theorem frame_roundtrip : forall s rest, N.of_nat (length s) < 9223372036854775808 ->
  unframe (frame s ++ rest) = Some (s, rest).
Proof.
  intros s rest H. unfold unframe, frame.
  rewrite LV.Wire.CompactSize.read_string_encode by exact H. reflexivity.
Qed.

(* so whatever a parser says of a generated script, it says of the script read back from the wire *)
Lemma on_wire (parse : bytes -> sresult) (g : option bytes) (res : sresult) :
  (exists s, g = Some s /\ parse s = res) ->
  exists s, g = Some s /\
    (forall rest, N.of_nat (length s) < 9223372036854775808 ->
       exists s', unframe (frame s ++ rest) = Some (s', rest) /\ parse s' = res).
Proof.
  intros (s & G & P). exists s. split; [exact G|]. intros rest H. exists s. split; [apply frame_roundtrip; exact H | exact P].
Qed.

Theorem generated_output_on_wire : forall name ops vs, In (name, ops) output_templates -> values_fit ops vs ->
  exists s, generate ops vs = Some s /\
    (forall rest, N.of_nat (length s) < 9223372036854775808 ->
       exists s', unframe (frame s ++ rest) = Some (s', rest) /\
                  parse_output s' = SMatch name (expected ops vs)).
Proof. intros name ops vs HIn Hf. exact (on_wire parse_output _ _ (generate_parse_output_fit name ops vs HIn Hf)). Qed.

Theorem generated_input_on_wire : forall name ops vs, In (name, ops) input_simple_templates -> values_fit ops vs ->
  exists s, generate ops vs = Some s /\
    (forall rest, N.of_nat (length s) < 9223372036854775808 ->
       exists s', unframe (frame s ++ rest) = Some (s', rest) /\
                  parse_input s' = SMatch name (expected ops vs)).
Proof. intros name ops vs HIn Hf. exact (on_wire parse_input _ _ (generate_parse_input_fit name ops vs HIn Hf)). Qed.

Definition pkh_tail (a : token) : list token := [TOp OP_DUP; TOp OP_HASH160; a; TOp OP_EQUALVERIFY; TOp OP_CHECKSIG].
Definition sh_tail (a : token) : list token := [TOp OP_HASH160; a; TOp OP_EQUAL].

(* the exact token shape (and the values read off it) of every template OutputScript knows *)
Definition out_shape (t : tname) (toks : list token) (vs : values) : Prop :=
  match t with
  | T_no_script => toks = [] /\ vs = []
  | T_pay_pubkey_full => exists a pk, pushed a pk /\
      toks = [a; TOp OP_CHECKSIG] /\ vs = [(F_pubkey, VBytes pk)]
  | T_pay_pubkey_hash => exists a h, pushed a h /\
      toks = pkh_tail a /\ vs = [(F_pubkey_hash, VBytes h)]
  | T_pay_script_hash => exists a h, pushed a h /\
      toks = sh_tail a /\ vs = [(F_script_hash, VBytes h)]
  | T_pay_segwit => exists a h, pushed a h /\
      toks = [TOp OP_0; a] /\ vs = [(F_script_hash, VBytes h)]
  | T_return_data => exists a d, pushed a d /\
      toks = [TOp OP_RETURN; a] /\ vs = [(F_data, VBytes d)]
  | T_claim_name_pkh => exists a n b c e h, pushed a n /\ pushed b c /\ pushed e h /\
      toks = [TOp OP_CLAIM_NAME; a; b; TOp OP_2DROP; TOp OP_DROP] ++ pkh_tail e /\
      vs = [(F_claim_name, VBytes n); (F_claim, VBytes c); (F_pubkey_hash, VBytes h)]
  | T_claim_name_sh => exists a n b c e h, pushed a n /\ pushed b c /\ pushed e h /\
      toks = [TOp OP_CLAIM_NAME; a; b; TOp OP_2DROP; TOp OP_DROP] ++ sh_tail e /\
      vs = [(F_claim_name, VBytes n); (F_claim, VBytes c); (F_script_hash, VBytes h)]
  | T_support_claim_pkh => exists a n b i e h, pushed a n /\ pushed b i /\ pushed e h /\
      toks = [TOp OP_SUPPORT_CLAIM; a; b; TOp OP_2DROP; TOp OP_DROP] ++ pkh_tail e /\
      vs = [(F_claim_name, VBytes n); (F_claim_id, VBytes i); (F_pubkey_hash, VBytes h)]
  | T_support_claim_sh => exists a n b i e h, pushed a n /\ pushed b i /\ pushed e h /\
      toks = [TOp OP_SUPPORT_CLAIM; a; b; TOp OP_2DROP; TOp OP_DROP] ++ sh_tail e /\
      vs = [(F_claim_name, VBytes n); (F_claim_id, VBytes i); (F_script_hash, VBytes h)]
  | T_support_claim_data_pkh => exists a n b i c d e h, pushed a n /\ pushed b i /\ pushed c d /\ pushed e h /\
      toks = [TOp OP_SUPPORT_CLAIM; a; b; c; TOp OP_2DROP; TOp OP_2DROP] ++ pkh_tail e /\
      vs = [(F_claim_name, VBytes n); (F_claim_id, VBytes i); (F_support, VBytes d); (F_pubkey_hash, VBytes h)]
  | T_support_claim_data_sh => exists a n b i c d e h, pushed a n /\ pushed b i /\ pushed c d /\ pushed e h /\
      toks = [TOp OP_SUPPORT_CLAIM; a; b; c; TOp OP_2DROP; TOp OP_2DROP] ++ sh_tail e /\
      vs = [(F_claim_name, VBytes n); (F_claim_id, VBytes i); (F_support, VBytes d); (F_script_hash, VBytes h)]
  | T_update_claim_pkh => exists a n b i c d e h, pushed a n /\ pushed b i /\ pushed c d /\ pushed e h /\
      toks = [TOp OP_UPDATE_CLAIM; a; b; c; TOp OP_2DROP; TOp OP_2DROP] ++ pkh_tail e /\
      vs = [(F_claim_name, VBytes n); (F_claim_id, VBytes i); (F_claim, VBytes d); (F_pubkey_hash, VBytes h)]
  | T_update_claim_sh => exists a n b i c d e h, pushed a n /\ pushed b i /\ pushed c d /\ pushed e h /\
      toks = [TOp OP_UPDATE_CLAIM; a; b; c; TOp OP_2DROP; TOp OP_2DROP] ++ sh_tail e /\
      vs = [(F_claim_name, VBytes n); (F_claim_id, VBytes i); (F_claim, VBytes d); (F_script_hash, VBytes h)]
  | _ => False      (* InputScript template names are never produced by OutputScript *)
  end.

(* The token lists a template without PUSH_MANY matches, and the values read off them, as a formula
   computed from the template: one existential pair (token, datum) per PUSH_SINGLE, one datum per
   PUSH_INTEGER / PUSH_SUBSCRIPT, literal opcodes as they stand.  The conditions, the tokens and the
   values are accumulated in continuations so that all quantifiers come first, and what is said at the
   end of the template is a parameter: [shape ops id id id (reads toks vs)] unfolds to
   [exists a1 d1 .. an dn, pushed a1 d1 /\ .. /\ pushed an dn /\ toks = [..] /\ vs = [..]]. *)
Definition cont := (Prop -> Prop) -> (list token -> list token) -> (values -> values) -> Prop.

Fixpoint shape (ops : list topcode) (c : Prop -> Prop) (kt : list token -> list token) (kv : values -> values)
    (K : cont) : Prop :=
  match ops with
  | [] => K c kt kv
  | OpLit o :: r => shape r c (fun t => kt (TOp o :: t)) kv K
  | PushSingle n :: r =>
      exists a d, shape r (fun X => c (pushed a d /\ X)) (fun t => kt (a :: t)) (fun v => kv ((n, VBytes d) :: v)) K
  | PushInteger n :: r =>
      exists d, shape r c (fun t => kt (TData d :: t)) (fun v => kv ((n, VInt (le_decode d)) :: v)) K
  | PushSub n s :: r =>
      exists d, shape r c (fun t => kt (TData d :: t)) (fun v => kv ((n, VSub s d) :: v)) K
  | SmallInt n :: r =>
      exists k, shape r c (fun t => kt (TSmall k :: t)) (fun v => kv ((n, VSmall k) :: v)) K
  | PushMany _ :: _ => False
  end.

(* the end of a whole script: these are the tokens, these the values *)
Definition reads (toks : list token) (vs : values) : cont := fun c kt kv => c (toks = kt [] /\ vs = kv []).

(* the accumulated condition is a conjunction with a hole at the end *)
Definition linear (c : Prop -> Prop) : Prop := forall X, c X <-> c True /\ X.

Lemma linear_and c (P : Prop) : linear c -> linear (fun X => c (P /\ X)).
Proof. intros L X. rewrite (L (P /\ X)), (L (P /\ True)). tauto. Qed.

Lemma parse_shape : forall ops c kt kv t v, linear c -> c True ->
  parse_simple ops t = Some v -> shape ops c kt kv (reads (kt t) (kv v)).
Proof.
  induction ops as [|op r IH]; intros c kt kv t v L C H.
  - apply parse_simple_nil_inv in H as [-> ->]. apply L. auto.
  - apply parse_simple_cons_inv in H as (a & t' & v1 & v' & -> & M & H & ->).
    destruct op; cbn [shape].
    1: apply match_tok_lit_inv in M as [-> ->]; exact (IH _ _ _ _ _ L C H).
    1: apply match_tok_single_inv in M as (d & P & ->); exists a, d;
       apply (IH _ (fun t => kt (a :: t)) (fun v => kv ((n, VBytes d) :: v)));
         [apply linear_and, L | apply L; auto | exact H].
    all: destruct a as [d|k|x]; try discriminate M; injection M as <-; eexists; exact (IH _ _ _ _ _ L C H).
Qed.

Lemma shape_parse : forall ops c kt kv toks vs, linear c -> shape ops c kt kv (reads toks vs) ->
  c True /\ exists t v, parse_simple ops t = Some v /\ toks = kt t /\ vs = kv v.
Proof.
  induction ops as [|op r IH]; intros c kt kv toks vs L H.
  - apply L in H as (C & -> & ->). split; [exact C|]. exists [], []. auto.
  - destruct op; cbn [shape] in H; [| destruct H as (a & d & H) | destruct H as (d & H) | contradiction
                                   | destruct H as (d & H) | destruct H as (k & H)].
    all: apply IH in H as (C & t' & v & P & -> & ->); [|apply linear_and, L || exact L].
    2: apply L in C as (C & Pa & _).
    all: split; [exact C|]; do 2 eexists; (split; [|split; reflexivity]); cbn [parse_simple].
    2: rewrite (match_tok_single_pushed _ _ _ Pa).
    all: rewrite P; cbn [match_tok]; rewrite ?N.eqb_refl; reflexivity.
Qed.

Theorem parse_simple_shape ops toks vs :
  parse_simple ops toks = Some vs <-> shape ops (fun X => X) (fun t => t) (fun v => v) (reads toks vs).
Proof.
  assert (L : linear (fun X => X)) by (intro X; tauto). split.
  - exact (parse_shape ops _ (fun t => t) (fun v => v) toks vs L I).
  - intro H. apply shape_parse in H as (_ & t & v & P & -> & ->); [exact P | exact L].
Qed.

(* a family of shape formulas that is [shape] of the table's templates, entry by entry, and holds of no other
   name, describes what the table accepts *)
Lemma shape_table (sh : tname -> list token -> values -> Prop) tbl : simple_table tbl = true ->
  Forall (fun t => forall toks vs,
            sh (fst t) toks vs <-> shape (snd t) (fun X => X) (fun t => t) (fun v => v) (reads toks vs))
         (NO_SCRIPT :: tbl) ->
  (forall name toks vs, sh name toks vs -> In name (map fst (NO_SCRIPT :: tbl))) ->
  forall name toks vs, sh name toks vs <-> table_shape tbl name toks vs.
Proof.
  intros Hs F C name toks vs.
  assert (P : forall n ops, In (n, ops) (NO_SCRIPT :: tbl) -> (sh n toks vs <-> parse_simple ops toks = Some vs)).
  { intros n ops HIn. pose proof (proj1 (Forall_forall _ _) F _ HIn toks vs) as E. cbn [fst snd] in E. rewrite E.
    symmetry. apply parse_simple_shape. }
  split.
  - intro H. pose proof (C _ _ _ H) as HIn. apply in_map_iff in HIn as ([n ops] & <- & HIn).
    apply (P _ _ HIn) in H. cbn [fst]. destruct HIn as [[= <- <-]|HIn].
    + apply parse_simple_nil_inv in H as [-> ->]. split; reflexivity.
    + exact (table_shape_In _ _ _ _ _ Hs HIn H).
  - destruct toks; cbn [table_shape].
    + intros [-> ->]. apply (P T_no_script []); [left|]; reflexivity.
    + intros (ops & HIn & H). apply (P name ops); [right; exact HIn | exact H].
Qed.

Lemma out_shape_table name toks vs : out_shape name toks vs <-> table_shape output_templates name toks vs.
Proof.
  revert name toks vs.
  apply shape_table; [apply output_table_simple | repeat first [apply Forall_cons | apply Forall_nil]; reflexivity |].
  intros name toks vs H. destruct name; try contradiction; clear H; cbn; auto 16.
Qed.

Lemma out_shape_of_parse : forall name ops toks vs, In (name, ops) output_templates ->
  parse_simple ops toks = Some vs -> out_shape name toks vs.
Proof.
  intros name ops toks vs HIn H. apply out_shape_table. exact (table_shape_In _ _ _ _ _ output_table_simple HIn H).
Qed.

Lemma parse_of_out_shape : forall name toks vs, out_shape name toks vs -> toks <> [] ->
  exists ops, In (name, ops) output_templates /\ parse_simple ops toks = Some vs.
Proof. intros name toks vs H Hne. apply out_shape_table in H. destruct toks; [congruence | exact H]. Qed.

Theorem out_tokens toks name vs : parse_tokens None output_templates toks = SMatch name vs <-> out_shape name toks vs.
Proof.
  rewrite <- (app_nil_r output_templates), (parse_tokens_simple _ _ output_table_simple output_table_incompat),
    out_shape_table.
  split; [intros [H|(_ & _ & [=])]; exact H | auto].
Qed.

(* complete description of OutputScript parsing on arbitrary byte strings *)
Theorem parse_output_shapes : forall s name vs,
  parse_output s = SMatch name vs <-> exists toks, tokenize s = TokOk toks /\ out_shape name toks vs.
Proof. exact (script_parse_shapes None output_templates out_shape out_tokens). Qed.

Theorem out_shape_unique : forall toks n1 v1 n2 v2,
  out_shape n1 toks v1 -> out_shape n2 toks v2 -> n1 = n2 /\ v1 = v2.
Proof.
  intros toks n1 v1 n2 v2 H1 H2. apply out_tokens in H1, H2. rewrite H1 in H2. injection H2 as -> ->. split; reflexivity.
Qed.

Theorem parse_output_nomatch s : parse_output s = SNoMatch <->
  tokenize s = TokErr StructError \/
  exists toks, tokenize s = TokOk toks /\ forall name vs, ~ out_shape name toks vs.
Proof.
  unfold parse_output. destruct (script_parse_cases None output_templates s) as [[T ->]|(toks & T & ->)]; rewrite T.
  - split; auto.
  - split.
    + intro H. right. exists toks. split; [reflexivity|]. intros name vs O. apply out_tokens in O. congruence.
    + intros [[=]|(t & [= <-] & Hn)]. destruct (parse_tokens _ _ toks) as [n v| |] eqn:P; [|reflexivity|].
      * apply out_tokens in P. destruct (Hn _ _ P).
      * destruct (first_match_no_fuel _ _ P).
Qed.

Definition not_data_head (l : list token) : Prop := match l with TData _ :: _ => False | _ => True end.

Lemma span_data_spec : forall toks datas rest, span_data toks = (datas, rest) ->
  toks = map TData datas ++ rest /\ not_data_head rest.
Proof.
  induction toks as [|t r IH]; intros datas rest H.
  - inversion H. split; [reflexivity | exact I].
  - destruct t as [d|k|v]; cbn [span_data] in H.
    + destruct (span_data r) as [a b] eqn:E. inversion H; subst.
      destruct (IH a rest eq_refl) as [-> Hn]. split; [reflexivity | exact Hn].
    + inversion H. split; [reflexivity | exact I].
    + inversion H. split; [reflexivity | exact I].
Qed.

Lemma span_data_map : forall l rest, not_data_head rest -> span_data (map TData l ++ rest) = (l, rest).
Proof.
  induction l as [|d l IH]; intros rest H.
  - cbn [map app]. destruct rest as [|[x|k|v] r]; try reflexivity. contradiction.
  - cbn [map app span_data]. rewrite IH by exact H. reflexivity.
Qed.

Lemma split_last {A} (l : list A) k : length l = S k -> exists x, skipn k l = [x] /\ l = firstn k l ++ [x].
Proof.
  intro H. assert (L : length (skipn k l) = 1%nat) by (rewrite skipn_length; lia).
  destruct (skipn k l) as [|x [|y r]] eqn:E; try discriminate L.
  exists x. split; [reflexivity|]. rewrite <- E. symmetry. apply firstn_skipn.
Qed.

Definition MS_OPS := snd REDEEM_SCRIPT_HASH_MULTI_SIG.

Lemma consume_many_ms n f sub toks :
  consume_many n [PushMany n; PushSub f sub] toks =
  let (datas, rest) := span_data toks in
  if (length datas <? 2)%nat then None
  else match zip_singles [PushSub f sub] (skipn (length datas - 1) datas) with
       | Some vs => Some ((n, VList (firstn (length datas - 1) datas)) :: vs, [], rest)
       | None => None
       end.
Proof. unfold consume_many. destruct (span_data toks). reflexivity. Qed.

Lemma multisig_parse_iff toks vs :
  parse MS_OPS toks = PMatch vs <->
  exists sigs src, sigs <> [] /\ toks = TOp 0 :: map TData sigs ++ [TData src] /\
                   vs = [(F_signatures, VList sigs); (F_script, VSub SubMultiSig src)].
Proof.
  (* after OP_0 the PUSH_MANY step takes the whole run of data tokens: all but the last are the
     signatures, the last is the subscript, and nothing may follow *)
  unfold parse, MS_OPS. cbn [snd REDEEM_SCRIPT_HASH_MULTI_SIG length]. split.
  - destruct toks as [|[?|?|[|?]] [|[d|?|[|?]] r]]; try discriminate.
    rewrite 2 parse_fuel_cons. cbn [match_tok OP_0 N.eqb pcons app]. rewrite consume_many_ms.
    destruct (span_data _) as [datas rest] eqn:E. apply span_data_spec in E as [E _].
    destruct (Nat.ltb_spec (length datas) 2) as [|Hge]; [discriminate|].
    destruct (split_last datas (length datas - 1)) as (x & S1 & S2); [lia|].
    rewrite S1. cbn [zip_singles push_single]. destruct rest; [|discriminate]. intros [= <-].
    exists (firstn (length datas - 1) datas), x. split; [|split; [|reflexivity]].
    + intro K. apply (f_equal (@length bytes)) in K. rewrite firstn_length in K. simpl in K. lia.
    + rewrite E, app_nil_r. f_equal. rewrite S2 at 1. rewrite map_app. reflexivity.
  - intros (sigs & src & Hne & -> & ->). destruct sigs as [|s1 sr]; [congruence|].
    cbn [map app]. rewrite 2 parse_fuel_cons. cbn [match_tok OP_0 N.eqb pcons app]. rewrite consume_many_ms.
    change (TData s1 :: map TData sr ++ [TData src]) with (map TData (s1 :: sr) ++ map TData [src]).
    rewrite <- map_app, <- (app_nil_r (map TData _)), span_data_map by exact I.
    rewrite app_length. cbn [length].
    replace (S (length sr) + 1 <? 2)%nat with false by (symmetry; apply Nat.ltb_ge; lia).
    replace (S (length sr) + 1 - 1)%nat with (length (s1 :: sr)) by (simpl; lia).
    rewrite skipn_app_exact, firstn_app_exact. reflexivity.
Qed.

Definition in_shape (t : tname) (toks : list token) (vs : values) : Prop :=
  match t with
  | T_no_script => toks = [] /\ vs = []
  | T_pubkey => exists a sig, pushed a sig /\ toks = [a] /\ vs = [(F_signature, VBytes sig)]
  | T_pubkey_hash => exists a sig b pk, pushed a sig /\ pushed b pk /\
      toks = [a; b] /\ vs = [(F_signature, VBytes sig); (F_pubkey, VBytes pk)]
  | T_script_hash_timelock => exists a sig b pk src, pushed a sig /\ pushed b pk /\
      toks = [a; b; TData src] /\
      vs = [(F_signature, VBytes sig); (F_pubkey, VBytes pk); (F_script, VSub SubTimeLock src)]
  | T_script_hash_multi_sig => exists sigs src, (2 <= length sigs)%nat /\
      toks = TOp 0 :: map TData sigs ++ [TData src] /\
      vs = [(F_signatures, VList sigs); (F_script, VSub SubMultiSig src)]
  | _ => False
  end.

Lemma in_shape_table name toks vs :
  in_shape name toks vs <->
  table_shape input_simple_templates name toks vs \/
  name = T_script_hash_multi_sig /\ in_shape T_script_hash_multi_sig toks vs.
Proof.
  (* [shape_table] at in_shape without its multisig line: a PUSH_MANY template has no [shape] *)
  rewrite <- (shape_table (fun n => match n with T_script_hash_multi_sig => fun _ _ => False | _ => in_shape n end)
                          _ input_table_simple).
  - destruct name; (split; [auto | intros [H|[E H]]; first [exact H | discriminate E | destruct H]]).
  - repeat first [apply Forall_cons | apply Forall_nil]; reflexivity.
  - intros n t v H. destruct n; try contradiction; cbn; auto.
Qed.

Lemma in_shape_of_parse : forall name ops toks vs, In (name, ops) input_simple_templates ->
  parse_simple ops toks = Some vs -> in_shape name toks vs.
Proof.
  intros name ops toks vs HIn H. apply in_shape_table. left. exact (table_shape_In _ _ _ _ _ input_table_simple HIn H).
Qed.

Lemma parse_of_in_shape : forall name toks vs, in_shape name toks vs -> toks <> [] ->
  name <> T_script_hash_multi_sig ->
  exists ops, In (name, ops) input_simple_templates /\ parse_simple ops toks = Some vs.
Proof.
  intros name toks vs H Hne Hnm. apply in_shape_table in H as [H|[E _]]; [|contradiction].
  destruct toks; [congruence | exact H].
Qed.

(* the last entry of InputScript.templates is reached when the others fail: OP_0, the signatures and the redeem
   script, with at least two signatures, since with one script_hash+timelock has matched with an empty signature *)
Lemma multisig_last toks name vs :
  toks <> [] /\ first_match input_simple_templates toks = SNoMatch /\
    first_match [REDEEM_SCRIPT_HASH_MULTI_SIG] toks = SMatch name vs <->
  name = T_script_hash_multi_sig /\ in_shape T_script_hash_multi_sig toks vs.
Proof.
  cbn [first_match REDEEM_SCRIPT_HASH_MULTI_SIG template_parse in_shape]. change (OpLit OP_0 :: _) with MS_OPS. split.
  - intros (_ & N & H). destruct (parse MS_OPS toks) as [v| |] eqn:P; try discriminate. injection H as <- <-.
    split; [reflexivity|]. apply multisig_parse_iff in P as (sigs & src & Hne & -> & ->).
    exists sigs, src. split; [|auto]. destruct sigs as [|s1 [|s2 sr]]; [congruence | | simpl; lia].
    apply first_match_nomatch_In with (n := T_script_hash_timelock) (ops := snd REDEEM_SCRIPT_HASH_TIME_LOCK) in N;
      [discriminate N | do 2 right; left; reflexivity].
  - intros (-> & sigs & src & L & -> & ->). split; [discriminate|]. split.
    + apply first_match_nomatch; [apply input_table_simple|]. intros n ops HIn. cbn [length].
      rewrite app_length, map_length. destruct HIn as [E|[E|[E|[]]]]; injection E as <- <-; simpl; lia.
    + erewrite (proj2 (multisig_parse_iff _ _)); [reflexivity|].
      exists sigs, src. split; [destruct sigs; [simpl in L; lia | discriminate] | auto].
Qed.

Theorem in_tokens toks name vs : parse_tokens None input_templates toks = SMatch name vs <-> in_shape name toks vs.
Proof.
  rewrite input_table_split, (parse_tokens_simple _ _ input_table_simple input_table_incompat),
    in_shape_table, multisig_last. tauto.
Qed.

(* complete description of InputScript parsing on arbitrary byte strings, multisig included *)
Theorem parse_input_shapes : forall s name vs,
  parse_input s = SMatch name vs <-> exists toks, tokenize s = TokOk toks /\ in_shape name toks vs.
Proof. exact (script_parse_shapes None input_templates in_shape in_tokens). Qed.

(* the time-lock redeem script as values['script'] parses it (template hint, no other templates) *)
Theorem parse_timelock_shapes : forall s name vs,
  parse_sub SubTimeLock s = SMatch name vs <->
  exists h a k, pushed a k /\ name = T_timelock /\
    tokenize s = TokOk ([TData h; TOp OP_CHECKLOCKTIMEVERIFY; TOp OP_DROP] ++ pkh_tail a) /\
    vs = [(F_height, VInt (le_decode h)); (F_pubkey_hash, VBytes k)].
Proof.
  intros s name vs. unfold parse_sub.
  rewrite (script_parse_shapes _ _ _ (parse_tokens_hint TIME_LOCK_SCRIPT eq_refl)). split.
  - intros (toks & T & -> & P). apply parse_simple_shape in P as (h & a & k & Pa & -> & ->).
    exists h, a, k. auto.
  - intros (h & a & k & P & -> & T & ->). eexists. split; [exact T|]. split; [reflexivity|].
    apply parse_simple_shape. exists h, a, k. split; [exact P | split; reflexivity].
Qed.

Definition pay_tail (l : list token) : Prop := exists a h, pushed a h /\ (l = pkh_tail a \/ l = sh_tail a).

(* the end of a prefix that a payment tail follows *)
Definition tails (toks : list token) : cont := fun c kt kv => exists tl, c (pay_tail tl /\ toks = kt tl).

Definition tail_ops (pkh : bool) : list topcode := if pkh then PAY_PUBKEY_HASH_OPS else PAY_SCRIPT_HASH_OPS.

Lemma tails_iff toks c kt kv : linear c ->
  tails toks c kt kv <-> exists x : bool * values, shape (tail_ops (fst x)) c kt kv (reads toks (snd x)).
Proof.
  intro L. split.
  - intros (tl & H). apply L in H as (C & (a & d & P & [->| ->]) & ->);
      [exists (true, kv [(F_pubkey_hash, VBytes d)]) | exists (false, kv [(F_script_hash, VBytes d)])];
      exists a, d; apply L; auto.
  - intros ([[|] vs] & a & d & H); apply L in H as (C & P & -> & _);
      [exists (pkh_tail a) | exists (sh_tail a)]; apply L; (split; [exact C|]); (split; [exists a, d; auto | reflexivity]).
Qed.

(* an equivalent family of ends may stand for the end; its index comes to the front *)
Lemma shape_end {X} : forall ops c kt kv (K : cont) (K' : X -> cont), linear c ->
  (forall c kt kv, linear c -> (K c kt kv <-> exists x, K' x c kt kv)) ->
  shape ops c kt kv K <-> exists x, shape ops c kt kv (K' x).
Proof.
  induction ops as [|op r IH]; intros c kt kv K K' L E; [exact (E _ _ _ L)|].
  pose proof (fun P => linear_and c P L) as L'.
  destruct op; cbn [shape]; [exact (IH _ _ _ _ _ L E) | | | split; [contradiction | intros (_ & [])] | |]; split.
  1: intros (a & d & H); apply (IH _ _ _ _ K' (L' _) E) in H as (x & H); eauto.
  1: intros (x & a & d & H); exists a, d; apply (IH _ _ _ _ K' (L' _) E); eauto.
  all: first [intros (d & H); apply (IH _ _ _ _ K' L E) in H as (x & H); eauto
             | intros (x & d & H); exists d; apply (IH _ _ _ _ K' L E); eauto].
Qed.

(* a prefix followed by a payment tail is the prefix followed by one of the two payment templates *)
Lemma locked_shapes pre toks :
  shape pre (fun X => X) (fun t => t) (fun v => v) (tails toks) <->
  exists x : bool * values, shape pre (fun X => X) (fun t => t) (fun v => v)
                              (fun c kt kv => shape (tail_ops (fst x)) c kt kv (reads toks (snd x))).
Proof. apply shape_end; [intro X; tauto | intros c kt kv; apply tails_iff]. Qed.

Definition claim_shape (toks : list token) : Prop := exists a n b c tl,
  pushed a n /\ pushed b c /\ pay_tail tl /\
  toks = [TOp OP_CLAIM_NAME; a; b; TOp OP_2DROP; TOp OP_DROP] ++ tl.
Definition update_shape (toks : list token) : Prop := exists a n b i c d tl,
  pushed a n /\ pushed b i /\ pushed c d /\ pay_tail tl /\
  toks = [TOp OP_UPDATE_CLAIM; a; b; c; TOp OP_2DROP; TOp OP_2DROP] ++ tl.
Definition support_shape (toks : list token) : Prop := exists a n b i tl,
  pushed a n /\ pushed b i /\ pay_tail tl /\
  toks = [TOp OP_SUPPORT_CLAIM; a; b; TOp OP_2DROP; TOp OP_DROP] ++ tl.
Definition support_data_shape (toks : list token) : Prop := exists a n b i c d tl,
  pushed a n /\ pushed b i /\ pushed c d /\ pay_tail tl /\
  toks = [TOp OP_SUPPORT_CLAIM; a; b; c; TOp OP_2DROP; TOp OP_2DROP] ++ tl.
Definition purchase_shape (toks : list token) : Prop := exists a d,
  pushed a d /\ has_start_byte d = true /\ toks = [TOp OP_RETURN; a].
Definition data_shape (toks : list token) : Prop := exists a d,
  pushed a d /\ has_start_byte d = false /\ toks = [TOp OP_RETURN; a].
Definition payment_shape (toks : list token) : Prop :=
  pay_tail toks \/ exists a k, pushed a k /\ (toks = [a; TOp OP_CHECKSIG] \/ toks = [TOp OP_0; a]).

Definition shaped (toks : list token) : Prop :=
  claim_shape toks \/ update_shape toks \/ support_shape toks \/ support_data_shape toks \/
  purchase_shape toks \/ data_shape toks \/ payment_shape toks.

Definition class_shape (c : cls) (toks : list token) : Prop :=
  match c with
  | CClaim => claim_shape toks
  | CUpdate => update_shape toks
  | CSupport => support_shape toks
  | CSupportData => support_data_shape toks
  | CPurchase => purchase_shape toks
  | CData => data_shape toks
  | CPayment => payment_shape toks
  | CEmpty => toks = []
  | CNoMatch => toks <> [] /\ ~ shaped toks
  | CError => False
  end.

Lemma class_of_return_data d :
  class_of (SMatch T_return_data [(F_data, VBytes d)]) = if has_start_byte d then CPurchase else CData.
Proof. reflexivity. Qed.

Lemma class_of_match_proper name vs :
  class_of (SMatch name vs) <> CNoMatch /\ class_of (SMatch name vs) <> CError.
Proof.
  unfold class_of.
  destruct (is_claim_name name); [split; discriminate|].
  destruct (is_update_claim name); [split; discriminate|].
  destruct (is_support_claim_data name); [split; discriminate|].
  destruct (is_support_claim name); [split; discriminate|].
  destruct (is_return_data name); [destruct (is_purchase_data name vs); split; discriminate|].
  destruct name; split; discriminate.
Qed.

Lemma out_shape_class name toks vs : out_shape name toks vs -> class_shape (class_of (SMatch name vs)) toks.
Proof.
  intro H. destruct name; cbn [out_shape] in H; try contradiction.
  1: destruct H as [-> ->]; reflexivity.
  1, 4: destruct H as (a & k & P & -> & ->); right; exists a, k; auto.
  1, 2: destruct H as (a & k & P & -> & ->); left; exists a, k; auto.
  1: destruct H as (a & d & P & -> & ->); rewrite class_of_return_data;
       destruct (has_start_byte d) eqn:E; exists a, d; auto.
  (* the locked templates: a prefix, then pay_pubkey_hash (odd goals) or pay_script_hash (even goals) *)
  1, 2: apply (locked_shapes CLAIM_NAME_OPCODES).
  3, 4: apply (locked_shapes SUPPORT_CLAIM_OPCODES).
  5, 6: apply (locked_shapes SUPPORT_CLAIM_DATA_OPCODES).
  7, 8: apply (locked_shapes UPDATE_CLAIM_OPCODES).
  1, 3, 5, 7: exists (true, vs); exact H.
  all: exists (false, vs); exact H.
Qed.

Definition shape_class (c : cls) : Prop :=
  match c with CNoMatch | CError => False | _ => True end.

Lemma class_shape_out c toks : shape_class c -> class_shape c toks ->
  exists name vs, out_shape name toks vs /\ class_of (SMatch name vs) = c.
Proof.
  (* [via t]: template [t] is the witness, its values are read off the tokens *)
  Local Ltac via t := exists t; eexists; (split; [|reflexivity]); repeat eexists; eassumption.
  (* [locked H pre t1 t2]: the class is the prefix [pre] with a payment tail, [t1] and [t2] are its templates *)
  Local Ltac locked H pre t1 t2 := apply (locked_shapes pre) in H as ([[|] vs] & H);
    [exists t1 | exists t2]; exists vs; (split; [exact H | reflexivity]).
  intros Hc H. destruct c; cbn [class_shape shape_class] in *; try contradiction.
  1: locked H CLAIM_NAME_OPCODES T_claim_name_pkh T_claim_name_sh.
  1: locked H UPDATE_CLAIM_OPCODES T_update_claim_pkh T_update_claim_sh.
  1: locked H SUPPORT_CLAIM_OPCODES T_support_claim_pkh T_support_claim_sh.
  1: locked H SUPPORT_CLAIM_DATA_OPCODES T_support_claim_data_pkh T_support_claim_data_sh.
  1, 2: destruct H as (a & d & P & E & ->); exists T_return_data, [(F_data, VBytes d)];
    rewrite class_of_return_data, E; (split; [exists a, d; auto | reflexivity]).
  2: subst toks; exists T_no_script, []; split; [split; reflexivity | reflexivity].
  unfold payment_shape, pay_tail in H; decompose [ex and or] H; subst.
  - via T_pay_pubkey_hash.
  - via T_pay_script_hash.
  - via T_pay_pubkey_full.
  - via T_pay_segwit.
Qed.

Lemma shaped_iff toks : shaped toks <->
  exists c, c <> CEmpty /\ shape_class c /\ class_shape c toks.
Proof.
  split.
  - intros [H|[H|[H|[H|[H|[H|H]]]]]];
      [exists CClaim | exists CUpdate | exists CSupport | exists CSupportData | exists CPurchase
       | exists CData | exists CPayment]; (split; [discriminate | split; [exact I | exact H]]).
  - intros (c & Hne & Hc & H). unfold shaped. destruct c; cbn [class_shape shape_class] in *; try contradiction; tauto.
Qed.

Theorem class_shape_tokens c toks :
  class_shape c toks <-> class_of (parse_tokens None output_templates toks) = c.
Proof.
  assert (F : class_shape (class_of (parse_tokens None output_templates toks)) toks).
  { destruct (parse_tokens _ _ toks) as [n v| |] eqn:E.
    - apply out_tokens in E. exact (out_shape_class _ _ _ E).
    - split.
      + intros ->. discriminate E.
      + intro Hsh. apply shaped_iff in Hsh as (c' & _ & Hc & Hcs).
        destruct (class_shape_out _ _ Hc Hcs) as (n & v & O & _). apply out_tokens in O. congruence.
    - destruct (first_match_no_fuel _ _ E). }
  split; [|intros <-; exact F]. intro H.
  assert (D : c = CNoMatch \/ shape_class c) by (destruct c; cbn in *; auto).
  destruct D as [->|S].
  - (* the class found has its shape (F), and these tokens have none *)
    destruct H as [Hne Hns]. destruct (class_of _) eqn:C; try reflexivity; try contradiction F.
    all: exfalso; apply Hns, shaped_iff; eexists; (split; [|split; [|exact F]]); [discriminate | exact I].
  - destruct (class_shape_out _ _ S H) as (n & v & O & <-). apply out_tokens in O. rewrite O. reflexivity.
Qed.

Theorem class_shape_exclusive c1 c2 toks : shape_class c1 -> shape_class c2 ->
  class_shape c1 toks -> class_shape c2 toks -> c1 = c2.
Proof. intros _ _. rewrite 2 class_shape_tokens. congruence. Qed.

Lemma classify_tokens s toks c : tokenize s = TokOk toks -> (class_shape c toks <-> classify s = c).
Proof.
  intro T. rewrite class_shape_tokens. unfold classify, parse_output. rewrite (script_parse_ok _ _ _ _ T). reflexivity.
Qed.

(* a script gets a class exactly when its tokens have that class's opcode shape *)
Theorem classify_iff s c :
  classify s = c <->
  match c with
  | CError => False
  | CNoMatch => tokenize s = TokErr StructError \/ exists toks, tokenize s = TokOk toks /\ class_shape c toks
  | _ => exists toks, tokenize s = TokOk toks /\ class_shape c toks
  end.
Proof.
  destruct (script_parse_cases None output_templates s) as [[T E]|(toks & T & _)]; rewrite T.
  - assert (K : classify s = CNoMatch) by (unfold classify, parse_output; rewrite E; reflexivity).
    split; [intros <-; rewrite K; auto|].
    intro H. destruct c; try contradiction; try exact K; destruct H as (toks & [=] & _).
  - rewrite <- (classify_tokens s toks c T). split.
    + intro H. destruct c; try contradiction; eauto.
    + intro H. destruct c; try contradiction; try destruct H as [H|H]; try discriminate H;
        destruct H as (toks' & [= <-] & H); exact H.
Qed.

Definition locked_shape (toks : list token) : Prop :=
  claim_shape toks \/ update_shape toks \/ support_shape toks \/ support_data_shape toks.

Lemma locked_class s toks : tokenize s = TokOk toks -> locked_shape toks ->
  classify s = CClaim \/ classify s = CUpdate \/ classify s = CSupport \/ classify s = CSupportData.
Proof.
  intros T L. pose proof (fun c => proj1 (classify_tokens s toks c T)) as U.
  destruct L as [H|[H|[H|H]]]; [pose proof (U CClaim H) | pose proof (U CUpdate H)
                                | pose proof (U CSupport H) | pose proof (U CSupportData H)]; auto.
Qed.

(* consequence spelled out: a payment (spendable) class is never given to a script that starts
   with a claim / support / update opcode, and vice versa *)
Theorem claim_never_payment s toks : tokenize s = TokOk toks ->
  (claim_shape toks \/ update_shape toks \/ support_shape toks \/ support_data_shape toks) ->
  classify s <> CPayment /\ classify s <> CData /\ classify s <> CPurchase /\ classify s <> CEmpty /\
  row_type (classify s) <> 0.
Proof.
  intros T H. destruct (locked_class s toks T H) as [K|[K|[K|K]]]; rewrite K; repeat split; discriminate.
Qed.

Lemma ex_claim_shape : claim_shape
  ([TOp OP_CLAIM_NAME; TData ex_name; TOp 0; TOp OP_2DROP; TOp OP_DROP] ++ pkh_tail (TData ex_hash)).
Proof.
  exists (TData ex_name), ex_name, (TOp 0), [], (pkh_tail (TData ex_hash)).
  split; [constructor|]. split; [constructor|]. split; [|reflexivity].
  exists (TData ex_hash), ex_hash. split; [constructor | left; reflexivity].
Qed.

Lemma ex_nomatch_shape : class_shape CNoMatch [TOp OP_CLAIM_NAME].
Proof. exact (proj2 (classify_tokens (bs [181]) [TOp OP_CLAIM_NAME] CNoMatch eq_refl) eq_refl). Qed.

(* a claim, update or support output is shown as claim / support, stored as a claim type / support and
   is NOT a coin -- whatever the other outputs of the transaction are (a purchase record behind it
   included) and whatever the protobuf decoder says *)
Theorem view_locked : forall decodable scripts i s toks,
  nth_error scripts i = Some s -> tokenize s = TokOk toks -> locked_shape toks ->
  exists jt r, view_at decodable scripts i = Some (Some jt, r, false) /\
    (jt = JClaimCreate \/ jt = JClaimUpdate \/ jt = JSupport) /\ (r = 1 \/ r = 3) /\
    (claim_shape toks -> jt = JClaimCreate /\ r = 1) /\
    (update_shape toks -> jt = JClaimUpdate /\ r = 1) /\
    (support_shape toks \/ support_data_shape toks -> jt = JSupport /\ r = 3).
Proof.
  intros decodable scripts i s toks Hn T L. unfold view_at. rewrite Hn.
  pose proof (fun c => proj1 (classify_tokens s toks c T)) as X.
  destruct (locked_class s toks T L) as [E|[E|[E|E]]]; rewrite E in *; cbn;
    [exists JClaimCreate, 1 | exists JClaimUpdate, 1 | exists JSupport, 3 | exists JSupport, 3];
    (split; [reflexivity|]); (split; [auto|]); (split; [auto|]);
    (split; [intro K; apply (X CClaim) in K | split; [intro K; apply (X CUpdate) in K |
       intros [K|K]; [apply (X CSupport) in K | apply (X CSupportData) in K]]]); (discriminate K || auto).
Qed.

(* an output is shown or stored as a purchase only at position 0 with a decodable purchase record at
   position 1; shown as one only when it is a plain payment or an empty script, stored as one (type 4)
   whatever it is except a claim, update or support *)
Theorem view_purchase_only_payment : forall decodable scripts i jt r sp,
  view_at decodable scripts i = Some (jt, r, sp) -> (jt = Some JPurchase \/ r = 4) ->
  i = O /\ (exists s0 s1 rest, scripts = s0 :: s1 :: rest /\ purchase_record decodable s1 = true /\
                                (classify s0 = CPayment \/ classify s0 = CEmpty \/ classify s0 = CData
                                 \/ classify s0 = CPurchase \/ classify s0 = CNoMatch)) /\
  (jt = Some JPurchase -> exists s0, nth_error scripts 0 = Some s0 /\ (classify s0 = CPayment \/ classify s0 = CEmpty)).
Proof.
  intros decodable scripts i jt r sp H K. unfold view_at in H.
  destruct (nth_error scripts i) as [s|] eqn:Hn; [|discriminate]. inversion H; subst; clear H.
  assert (Lk : linked_at decodable scripts i = true).
  { destruct (linked_at decodable scripts i); [reflexivity|]. exfalso.
    destruct K as [K|K]; destruct (classify s); cbn in K; discriminate. }
  unfold linked_at in Lk. destruct i as [|i]; [|discriminate].
  destruct scripts as [|s0 [|s1 rest]]; try discriminate.
  cbn in Hn. inversion Hn; subst s0. split; [reflexivity|]. split.
  - exists s, s1, rest. split; [reflexivity|]. split; [exact Lk|].
    destruct K as [K|K]; destruct (classify s) eqn:C; cbn in K; try discriminate; try tauto;
      apply classify_iff in C; contradiction.
  - intro J. exists s. split; [reflexivity|]. destruct (classify s); cbn in J; try discriminate; tauto.
Qed.

(* the sweep: everything the coin filter lets through has no claim / update / support shape *)
Theorem spendable_not_locked : forall decodable scripts i s toks jt r,
  nth_error scripts i = Some s -> tokenize s = TokOk toks ->
  view_at decodable scripts i = Some (jt, r, true) -> ~ locked_shape toks.
Proof.
  intros decodable scripts i s toks jt r Hn T V L.
  destruct (view_locked decodable scripts i s toks Hn T L) as (jt' & r' & V' & _).
  rewrite V in V'. inversion V'.
Qed.

(* a claim, update or support output is never reported as an internal transfer (change), whoever
   funded and whoever receives it *)
Theorem internal_not_locked : forall decodable scripts i s toks mi mo,
  nth_error scripts i = Some s -> tokenize s = TokOk toks -> locked_shape toks ->
  internal_at decodable scripts i mi mo = false.
Proof.
  intros decodable scripts i s toks mi mo Hn T L. unfold internal_at. rewrite Hn.
  destruct (locked_class s toks T L) as [E|[E|[E|E]]]; rewrite E; cbn;
    rewrite andb_false_r; reflexivity.
Qed.

Lemma ex_view :
  tx_view (fun _ => true)
    [bs [181; 1; 97; 1; 98; 109; 117; 118; 169; 1; 99; 136; 172]; bs [106; 2; 80; 1]; bs [118; 169; 1; 99; 136; 172]]
  = [Some (Some JClaimCreate, 1, false); Some (Some JData, 0, true); Some (Some JPayment, 0, true)]
  /\ tx_view (fun _ => true) [bs [118; 169; 1; 99; 136; 172]; bs [106; 2; 80; 1]]
  = [Some (Some JPurchase, 4, true); Some (Some JData, 0, true)].
Proof. exact (conj eq_refl eq_refl). Qed.
