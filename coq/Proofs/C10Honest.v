(* An honest transfer completes under EVERY fragmentation and every placement of loop runs.
   As in C10Frag the state is a function of the body bytes delivered so far, and of whether the loop has run since
   the header arrived (the coroutine then waits for the writer instead of the response). *)
From Coq Require Import NArith ZArith List Bool Lia.
From Coq.Strings Require Import Byte.
From LV Require Import Lib.Bytes Model.C10 Proofs.C10 Proofs.C10Client Proofs.C10Frag.
Import ListNotations.
Local Open Scope Z_scope.

Lemma set_phase_id c : set_phase (c_phase c) c = c.
Proof. destruct c; reflexivity. Qed.

Lemma run_callbacks_pending c : w_fin (c_w c) = WPending -> run_callbacks c = c.
Proof. intros Hf. unfold run_callbacks. rewrite Hf. reflexivity. Qed.
Lemma run_callbacks_saves c : w_fin (c_w c) = WResult -> c_verified c = None ->
  run_callbacks c = set_verified (Some (w_data (c_w c))) c.
Proof. intros Hf Hv. unfold run_callbacks. rewrite Hf, Hv. reflexivity. Qed.
Lemma run_callbacks_saved c v : c_verified c = Some v -> run_callbacks c = c.
Proof. intros Hv. unfold run_callbacks. rewrite Hv. destruct (w_fin _); reflexivity. Qed.
Lemma co_step_accepts c d r : c_phase c = PhAwaitResp d -> c_fut c = FutResult r -> c_closed_ev c = false ->
  acceptable (c_hash c) (c_len c) r = true -> co_step c = co_await_fin (set_phase (PhAwaitFin (c_now c + c_T c)) c).
Proof. intros Hp Hf Hc Ha. unfold co_step. rewrite Hp, Hf, Hc, Ha. reflexivity. Qed.
Lemma co_step_fin c d : c_phase c = PhAwaitFin d -> co_step c = co_await_fin c.
Proof. intros Hp. unfold co_step. rewrite Hp. reflexivity. Qed.
Lemma co_await_fin_pending c : w_fin (c_w c) = WPending -> co_await_fin c = c.
Proof. intros Hf. unfold co_await_fin. rewrite Hf. reflexivity. Qed.
Lemma co_await_fin_result c : w_fin (c_w c) = WResult ->
  co_await_fin c = finish (DlOk (c_received c)) (run_callbacks c).
Proof. intros Hf. unfold co_await_fin. rewrite Hf. reflexivity. Qed.
Lemma finish_closed res c : w_closed (c_w c) = true -> finish res c = set_phase (PhDone res) (set_att false c).
Proof. intros Hc. unfold finish. rewrite Hc, andb_false_r. reflexivity. Qed.

(* the coroutine is past the checks of the response, or passes them at its next turn: from then on it waits for the
   writer, until now + T *)
Definition accepted (c : client) : Prop :=
  c_phase c = PhAwaitFin (c_now c + c_T c) \/
  exists d r, c_phase c = PhAwaitResp d /\ c_fut c = FutResult r /\ c_closed_ev c = false /\
              acceptable (c_hash c) (c_len c) r = true.

Lemma co_step_accepted c : accepted c -> co_step c = co_await_fin (set_phase (PhAwaitFin (c_now c + c_T c)) c).
Proof.
  intros [Hp|(d & r & Hp & Hf & Hc & Ha)]; [|apply (co_step_accepts c d r); assumption].
  rewrite (co_step_fin c _ Hp), <- Hp, set_phase_id. reflexivity.
Qed.

Section Honest.
Variable H : bytes -> bytes.
Variable json_loads : bytes -> jres.
Variable hdr : bytes.
Variable r : response.
Variable hash : bytes.
Variable n : Z.
Variable body : bytes.
Hypothesis Hparse : json_loads hdr = JResp r.
Hypothesis Hend : exists h0, hdr = h0 ++ [rbrace].
Hypothesis Hnoprefix : forall a b, hdr = a ++ rbrace :: b -> b <> [] -> json_loads (a ++ [rbrace]) = JInvalid.
Hypothesis Hshort : zlen hdr <= MAX_RESPONSE_SIZE.
Hypothesis Hblob : r_blob r = BrIncoming (Some hash) (LInt n).
Hypothesis Hn : 0 < n <= MAX_BLOB_SIZE.
(* the server is honest: the header passes the client's checks, the body is the blob *)
Hypothesis Hacc : acceptable hash (Some n) r = true.
Hypothesis Hlen : zlen body = n.
Hypothesis Hhash : H body = hash.

Notation after := (after H r hash n).
Notation Init := (Init hash n).

Variable known : option Z.
Variable d0 : Z.

(* a download just started on a healthy connection: the coroutine waits for the response *)
Definition Start (c0 : client) : Prop :=
  Init known c0 /\ c_phase c0 = PhAwaitResp d0 /\ c_lost c0 = false /\ c_closed_ev c0 = false /\ c_verified c0 = None.

(* the download has ended "ok": the blob is verified and saved, the connection kept *)
Definition done_ok (c0 : client) : client :=
  set_phase (PhDone (DlOk n)) (set_att false (set_verified (Some body) (after c0 body))).

Lemma body_w_full : body_w H hash n body = mkW body true WResult /\ zlen (firstn (Z.to_nat n) body) = n.
Proof.
  unfold body_w. rewrite firstn_all2 by (unfold zlen in Hlen; lia).
  rewrite Hlen, Hhash, Z.eqb_refl, bytes_eqb_refl. auto.
Qed.

Lemma drain_in_header c0 pre : Start c0 -> drain (set_buf pre c0) = set_buf pre c0.
Proof.
  intros ((_ & _ & I3 & _ & _ & _ & I7 & _) & Hph & Hlost & _). apply drain_to; [|exact Hlost].
  rewrite run_callbacks_pending by (cbn [set_buf c_w]; rewrite I7; reflexivity).
  unfold co_step. cbn [set_buf c_phase c_fut]. rewrite Hph, I3. reflexivity.
Qed.

(* the loop runs during the body phase: the checks pass, the coroutine goes on to wait for the writer *)
Lemma drain_open c0 ph t : Start c0 -> accepted (after (set_phase ph c0) t) -> zlen t < n ->
  drain (after (set_phase ph c0) t) = after (set_phase (PhAwaitFin (c_now c0 + c_T c0)) c0) t.
Proof.
  intros Hs Ha Hlt. apply drain_to; [|apply Hs].
  assert (Hw : w_fin (c_w (after (set_phase ph c0) t)) = WPending)
    by (cbn [C10Frag.after c_w]; rewrite (proj1 (body_w_open H hash n Hn t Hlt)); reflexivity).
  rewrite (run_callbacks_pending _ Hw), (co_step_accepted _ Ha). apply co_await_fin_pending, Hw.
Qed.

(* ... and when the body is complete the blob is saved and the download ends ok *)
Lemma drain_full c0 ph : Start c0 -> accepted (after (set_phase ph c0) body) ->
  drain (after (set_phase ph c0) body) = done_ok c0.
Proof.
  intros Hs Ha. apply drain_to; [|apply Hs]. unfold done_ok, C10Frag.after in *. destruct body_w_full as [-> ->].
  rewrite run_callbacks_saves, co_step_accepted by (reflexivity || apply Hs || exact Ha).
  rewrite co_await_fin_result, (run_callbacks_saved _ body), finish_closed by reflexivity. reflexivity.
Qed.

Lemma drain_done c0 : Start c0 -> drain (done_ok c0) = done_ok c0.
Proof. intros Hs. apply drain_to; [|apply Hs]. rewrite (run_callbacks_saved _ body); reflexivity. Qed.

(* asyncio never calls data_received with an empty segment *)
Definition sched_ok (e : event) : Prop := match e with EvData d => d <> [] | EvDrain => True | _ => False end.
Fixpoint data_of (evs : list event) : bytes :=
  match evs with
  | [] => []
  | EvData d :: r => d ++ data_of r
  | _ :: r => data_of r
  end.

(* pre: the bytes delivered so far, rest: those still to come *)
Definition HInv (c0 : client) (pre rest : bytes) (c : client) : Prop :=
  (c = set_buf pre c0 /\ exists z, hdr = pre ++ z /\ z <> []) \/
  (exists t ph, pre = hdr ++ t /\ body = t ++ rest /\ accepted (after (set_phase ph c0) t) /\ c = after (set_phase ph c0) t) \/
  (pre = hdr ++ body /\ c = done_ok c0).

Lemma short_of_rest (t rest : bytes) : body = t ++ rest -> rest <> [] -> zlen t < n.
Proof.
  intros Hb Hne. rewrite <- Hlen, Hb, zlen_app. destruct rest; [congruence|]. unfold zlen. cbn [length]. lia.
Qed.

Lemma HInv_data c0 pre c d more :
  Start c0 -> HInv c0 pre (d ++ more) c -> d <> [] -> (pre ++ d) ++ more = hdr ++ body ->
  HInv c0 (pre ++ d) more (step H json_loads c (EvData d)).
Proof.
  intros Hs Hinv Hd Hstream. pose proof Hs as (Hi & Hph & _ & Hcev & _).
  destruct Hinv as [[-> _]|[(t & ph & -> & Hb & Ha & ->)|[-> _]]].
  - destruct (prefix_cases _ _ _ _ Hstream) as [[z [Hz Hzn]]|[t Ht]].
    + left. split; [eapply step_in_header|]; eauto.
    + (* the coroutine has not run yet: it will find the response acceptable *)
      right. left. exists t, (c_phase c0). rewrite set_phase_id.
      rewrite Ht, <- app_assoc in Hstream. apply app_inv_head in Hstream.
      repeat split; auto; [|eapply step_completes_header; eassumption].
      right. exists d0, r. repeat split; auto. change (acceptable (c_hash c0) (Some n) r = true).
      replace (c_hash c0) with hash by (symmetry; apply Hi). exact Hacc.
  - right. left. exists (t ++ d), ph. rewrite <- !app_assoc. repeat split; auto.
    apply (step_body H r hash n Hn json_loads known); [exact Hi|].
    apply (short_of_rest t (d ++ more)); [exact Hb|destruct d; [congruence|discriminate]].
  - (* everything was delivered already: no non-empty segment can follow *)
    exfalso. apply (f_equal (@length _)) in Hstream. rewrite !app_length in Hstream.
    destruct d; [congruence|]. cbn in Hstream. lia.
Qed.

Lemma HInv_drain c0 pre rest c : Start c0 -> HInv c0 pre rest c -> HInv c0 pre rest (drain c).
Proof.
  intros Hs [[-> Hh]|[(t & ph & -> & Hb & Ha & ->)|[-> ->]]].
  - left. rewrite (drain_in_header c0 pre Hs). auto.
  - right. destruct rest as [|b rest].
    + rewrite app_nil_r in Hb. subst t. right. rewrite (drain_full c0 ph Hs Ha). auto.
    + left. exists t, (PhAwaitFin (c_now c0 + c_T c0)).
      rewrite (drain_open c0 ph t Hs Ha) by (apply (short_of_rest t (b :: rest)); [assumption|discriminate]).
      repeat split; auto. left; reflexivity.
  - right. right. rewrite (drain_done c0 Hs). auto.
Qed.

Theorem honest_transfer_completes c0 evs :
  Start c0 -> Forall sched_ok evs -> data_of evs = hdr ++ body ->
  let c := drain (run H json_loads c0 evs) in
  c_phase c = PhDone (DlOk n) /\ c_verified c = Some body /\ c_received c = n /\ c_open c = true /\
  w_data (c_w c) = body.
Proof.
  intros Hs Hok Hd c.
  assert (Hdone : drain (run H json_loads c0 evs) = done_ok c0).
  { unfold run. destruct (fold_left_stream (step H json_loads) (fun e => match e with EvData d => d | _ => [] end) data_of sched_ok
                (HInv c0) (hdr ++ body) eq_refl
                (fun e _ => match e with EvData _ => eq_refl | _ => eq_refl end)) with (evs := evs) (pre := @nil byte) (s := c0)
      as [[_ [z [Hh Hne]]]|[(t & ph & Hp & Hb & Ha & ->)|[_ ->]]]; auto.
    - intros pre more c1 e Hinv Hoke Hstream. destruct e; try contradiction.
      + eapply HInv_data; eassumption.
      + rewrite app_nil_r. apply HInv_drain; assumption.
    - left. split; [symmetry; apply set_buf_id, Hs|]. exists hdr. split; [reflexivity|].
      destruct Hend as [h0 ->]. destruct h0; discriminate.
    - exfalso. apply (f_equal (@length _)) in Hh. rewrite !app_length in Hh. destruct z; [congruence|cbn in Hh; lia].
    - rewrite app_nil_r in Hb. subst t. apply drain_full; assumption.
    - apply drain_done, Hs. }
  unfold c. rewrite Hdone. unfold done_ok, C10Frag.after. destruct body_w_full as [-> ->].
  destruct Hs as ((I1 & _) & _). cbn. auto.
Qed.

End Honest.

Lemma request_starts hash n known c :
  c_buf c = [] -> c_lost c = false -> (known = None \/ known = Some n) ->
  Start hash n known (c_now c + c_T c) (request hash known c).
Proof.
  intros Hb Hl Hk. unfold request, Start, Init.
  destruct (c_open c) eqn:Eo; cbn; rewrite ?Eo, ?Hb, ?Hl; repeat split; auto.
Qed.
