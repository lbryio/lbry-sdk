(* dict_values_to_lbc (to_lbc of Model.C20_Dict) commutes with the lookup along any path (lookup_to_lbc); what is
   said about leaves and about a second application is read off that equation and C20's [exact]. *)
From Coq Require Import ZArith List.
From LV Require Import Lib.Bytes Model.C20 Proofs.C20 Model.C20_Dict.
Import ListNotations.

Lemma assoc_map k kvs :
  assoc k (map (fun kx => (fst kx, to_lbc (snd kx))) kvs) = option_map to_lbc (assoc k kvs).
Proof.
  induction kvs as [|[k' x] r IH]; [reflexivity|].
  cbn [map assoc fst snd]. destruct (bytes_eqb k k'); [reflexivity | exact IH].
Qed.

Lemma lookup_to_lbc path : forall v, lookup path (to_lbc v) = option_map to_lbc (lookup path v).
Proof.
  induction path as [|k p IH]; intro v; [reflexivity|].
  destruct v as [z|b|s|t|kvs]; try reflexivity.
  cbn [to_lbc lookup]. rewrite assoc_map. destruct (assoc k kvs) as [x|]; [apply IH | reflexivity].
Qed.

Lemma keys_kept kvs : map fst (map (fun kx : bytes * jv => (fst kx, to_lbc (snd kx))) kvs) = map fst kvs.
Proof. rewrite map_map. reflexivity. Qed.

Lemma int_leaf path v z : lookup path v = Some (JVInt z) ->
  exists m k, lookup path (to_lbc v) = Some (JVStr (format z)) /\
    dec_exact (format z) = Some (m, k) /\ (m * 10 ^ 8 = z * 10 ^ Z.of_N k)%Z /\ (1 <= k <= 8)%N.
Proof.
  intro H. destruct (exact z) as (m & k & H1 & H2 & H3). exists m, k.
  rewrite lookup_to_lbc, H. auto.
Qed.

(* a Python bool is an integer *)
Lemma other_leaf path v x : lookup path v = Some x ->
  (forall z, x <> JVInt z) -> (forall b, x <> JVBool b) -> (forall kvs, x <> JVDict kvs) ->
  lookup path (to_lbc v) = Some x.
Proof.
  intros H Hi Hb Hd. rewrite lookup_to_lbc, H. destruct x; cbn [option_map to_lbc]; try reflexivity.
  - destruct (Hi z eq_refl). - destruct (Hb b eq_refl). - destruct (Hd kvs eq_refl).
Qed.

(* strings are not amounts: no double conversion *)
Lemma to_lbc_idem_at path v : lookup path (to_lbc (to_lbc v)) = lookup path (to_lbc v).
Proof.
  rewrite !lookup_to_lbc. destruct (lookup path v) as [x|]; [|reflexivity]. cbn [option_map]. f_equal.
  clear. revert x. fix IH 1. intros [z|b|s|t|kvs]; try reflexivity.
  cbn [to_lbc]. f_equal. rewrite map_map. cbn [fst snd].
  induction kvs as [|[k x] r IHr]; [reflexivity|]. cbn [map fst snd]. rewrite (IH x). f_equal. exact IHr.
Qed.
