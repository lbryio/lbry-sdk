(* Positional numerals in an arbitrary base >= 2: the digit loop with fuel computes the one canonical numeral
   of its argument (digits below the base, no zero in the most significant place). A string over any symbols
   that stand for digits (Base58 characters, bytes, mnemonic words) is a run of zero symbols followed by the
   canonical numeral of its value, in exactly one way. *)
From Coq Require Import Arith NArith List Lia.
From Coq.Strings Require Import Byte.
From LV Require Import Lib.Bytes Lib.Lists Lib.Numeral Model.C06.
Import ListNotations.
Local Open Scope N_scope.

(* the fuel bounds the bit length, and a division by b >= 2 takes at least one bit off *)
Lemma fuel_step b f v : 2 <= b -> v < 2 ^ N.of_nat (S f) -> v / b < 2 ^ N.of_nat f.
Proof.
  rewrite Nat2N.inj_succ, N.pow_succ_r'. intros Hb Hv. apply N.div_lt_upper_bound; [lia|].
  apply N.lt_le_trans with (1 := Hv). apply N.mul_le_mono_r. exact Hb.
Qed.

Lemma digits_fuel_bound b : 0 < b -> forall fuel v, Forall (fun d => d < b) (digits_fuel fuel b v).
Proof.
  intros Hb. induction fuel as [|f IH]; intros v; cbn [digits_fuel]; [constructor|].
  destruct (v =? 0); constructor; [apply N.mod_lt; lia | apply IH].
Qed.

Lemma digits_fuel_spec b : 2 <= b -> forall fuel v, v < 2 ^ N.of_nat fuel ->
  val_lsb b (digits_fuel fuel b v) = v /\ last (digits_fuel fuel b v) 1 <> 0.
Proof.
  intros Hb. induction fuel as [|f IH]; intros v Hv.
  - apply N.lt_1_r in Hv. subst v. split; [reflexivity | discriminate].
  - cbn [digits_fuel]. destruct (N.eqb_spec v 0) as [->|Hnz]; [split; [reflexivity | discriminate]|].
    destruct (IH (v / b) (fuel_step b f v Hb Hv)) as (Hval & Hlast). split.
    + cbn [val_lsb]. rewrite Hval. pose proof (N.div_mod v b). lia.
    + destruct (digits_fuel f b (v / b)); [|exact Hlast].
      (* no further digit: v / b = 0, so the only digit is v itself *)
      cbn in Hval |- *. symmetry in Hval. apply N.div_small_iff in Hval; [|lia]. rewrite N.mod_small; assumption.
Qed.

Lemma size_fuel v : v < 2 ^ N.of_nat (N.to_nat (N.size v)).
Proof. rewrite N2Nat.id. apply N.size_gt. Qed.

Lemma digits_lsb_val b v : 2 <= b -> val_lsb b (digits_lsb b v) = v.
Proof. intro Hb. apply digits_fuel_spec; [assumption | apply size_fuel]. Qed.

Lemma digits_lsb_bound b v : 0 < b -> Forall (fun d => d < b) (digits_lsb b v).
Proof. intro Hb. apply digits_fuel_bound. exact Hb. Qed.

Lemma digits_lsb_canon b v : 2 <= b -> last (digits_lsb b v) 1 <> 0.
Proof. intro Hb. apply digits_fuel_spec; [assumption | apply size_fuel]. Qed.

Lemma val_msb_snoc b l d : val_msb b (l ++ [d]) = val_msb b l * b + d.
Proof. unfold val_msb. rewrite fold_left_app. reflexivity. Qed.

Lemma val_msb_rev b ds : val_msb b (rev ds) = val_lsb b ds.
Proof.
  induction ds as [|d r IH]; [reflexivity|].
  cbn [rev val_lsb]. rewrite val_msb_snoc, IH. lia.
Qed.

Lemma val_lsb_app_zeros b ds k : val_lsb b (ds ++ repeat 0 k) = val_lsb b ds.
Proof.
  induction ds as [|d r IH]; cbn [app val_lsb].
  - induction k as [|k IHk]; [reflexivity|]. cbn [repeat val_lsb]. rewrite IHk. lia.
  - rewrite IH. reflexivity.
Qed.

Lemma val_msb_zeros_app b k ds : val_msb b (repeat 0 k ++ ds) = val_msb b ds.
Proof. exact (val_zeros_app b k ds). Qed.

Lemma hd_rev {A} (l : list A) d : hd d (rev l) = last l d.
Proof. induction l as [|x l _] using rev_ind; [reflexivity|]. rewrite rev_app_distr, last_last. reflexivity. Qed.

Lemma digits_msb_spec b v : 2 <= b ->
  Forall (fun d => d < b) (rev (digits_lsb b v)) /\ hd 1 (rev (digits_lsb b v)) <> 0 /\
  val_msb b (rev (digits_lsb b v)) = v.
Proof.
  intro Hb. rewrite hd_rev, val_msb_rev.
  split; [apply Forall_rev, digits_lsb_bound; lia | split; [apply digits_lsb_canon | apply digits_lsb_val]; exact Hb].
Qed.

Lemma digits_msb_unique b ds : 2 <= b -> Forall (fun d => d < b) ds -> hd 1 ds <> 0 ->
  rev (digits_lsb b (val_msb b ds)) = ds.
Proof.
  intros Hb Hf Hh. destruct (digits_msb_spec b (val_msb b ds) Hb) as (Hf' & Hh' & Hv).
  apply (val_inj b); assumption || lia.
Qed.

Lemma digits_lsb_unique b ds : 2 <= b -> Forall (fun d => d < b) ds -> last ds 1 <> 0 ->
  digits_lsb b (val_lsb b ds) = ds.
Proof.
  intros Hb Hf Hl. rewrite <- val_msb_rev, <- (rev_involutive (digits_lsb _ _)), digits_msb_unique;
    [apply rev_involutive | exact Hb | apply Forall_rev, Hf | rewrite hd_rev; exact Hl].
Qed.

Lemma val_msb_pos b ds : 0 < b -> ds <> [] -> hd 1 ds <> 0 -> 0 < val_msb b ds.
Proof.
  intros Hb Hne Hh. destruct ds as [|d r]; [congruence|]. pose proof (val_lower b d r Hh).
  assert (b ^ N.of_nat (length r) <> 0) by (apply N.pow_nonzero; lia). unfold val_msb, val in *. lia.
Qed.

Lemma be_decode_val bs : be_decode bs = val_msb 256 (map N_of_byte bs).
Proof.
  unfold be_decode. rewrite <- (rev_involutive bs) at 2. rewrite map_rev, val_msb_rev.
  induction (rev bs) as [|x r IH]; [reflexivity|]. cbn [le_decode map val_lsb]. rewrite IH. reflexivity.
Qed.

Lemma Forall_N_of_byte bs : Forall (fun d => d < 256) (map N_of_byte bs).
Proof. induction bs; constructor; [apply N_of_byte_lt | assumption]. Qed.

Lemma count_leading_spec {A} (p : A -> bool) l d (e := count_leading p l) :
  (e <= length l)%nat /\ Forall (fun x => p x = true) (firstn e l) /\ ((e < length l)%nat -> p (nth e l d) = false).
Proof.
  subst e. induction l as [|x r (Hle & Hf & Hs)]; cbn [count_leading length]; [repeat split; [lia | constructor | lia]|].
  destruct (p x) eqn:E; cbn [firstn nth length].
  - repeat split; [lia | constructor; assumption | intro H; apply Hs; lia].
  - repeat split; [lia | constructor | intros _; exact E].
Qed.

Lemma count_leading_app {A} (p : A -> bool) a b :
  Forall (fun x => p x = true) a -> count_leading p (a ++ b) = (length a + count_leading p b)%nat.
Proof. induction 1 as [|x r Hx _ IH]; [reflexivity|]. cbn [app count_leading length]. rewrite Hx, IH. reflexivity. Qed.

Lemma count_leading_firstn {A} (p : A -> bool) l : forall n, count_leading p (firstn n l) = Nat.min n (count_leading p l).
Proof.
  induction l as [|x r IH]; intros [|n]; try reflexivity. cbn [firstn count_leading].
  destruct (p x); [rewrite IH|]; reflexivity.
Qed.

(* An alphabet: the symbol of a digit is the entry at that place, the digit of a symbol its index (list.index
   under a decidable equality). *)
Section Alphabet.
  Context {A : Type} (al : list A) (dflt : A).

  Lemma alpha_sym_in d : d < N.of_nat (length al) -> In (nth (N.to_nat d) al dflt) al.
  Proof. intro Hd. apply nth_In. lia. Qed.

  Context (eqb : A -> A -> bool).
  Hypothesis eqb_spec : forall x y, eqb x y = true <-> x = y.

  Lemma index_of_spec x l d :
    match index_of eqb x l with Some i => (i < length l)%nat /\ nth i l d = x | None => ~ In x l end.
  Proof.
    induction l as [|y r IH]; cbn [index_of]; [intros []|]. destruct (eqb x y) eqn:E.
    - apply eqb_spec in E. subst y. split; [cbn; lia | reflexivity].
    - destruct (index_of eqb x r) as [j|]; cbn [option_map length nth In].
      + split; [lia | apply IH].
      + intros [->|H]; [|exact (IH H)]. rewrite (proj2 (eqb_spec x x) eq_refl) in E. discriminate.
  Qed.

  Lemma index_of_nth l : NoDup l -> forall i d, (i < length l)%nat -> index_of eqb (nth i l d) l = Some i.
  Proof.
    intros Hnd i d Hi. pose proof (index_of_spec (nth i l d) l d) as S.
    destruct (index_of eqb (nth i l d) l) as [j|]; [|destruct (S (nth_In l d Hi))].
    f_equal. exact (proj1 (NoDup_nth l d) Hnd j i (proj1 S) Hi (proj2 S)).
  Qed.

  Lemma alpha_sym_dig c d : option_map N.of_nat (index_of eqb c al) = Some d ->
    d < N.of_nat (length al) /\ nth (N.to_nat d) al dflt = c.
  Proof.
    pose proof (index_of_spec c al dflt) as S. destruct (index_of eqb c al) as [i|]; [|discriminate].
    intro H. injection H as <-. rewrite Nat2N.id. split; [lia | apply S].
  Qed.

  Lemma alpha_dig_none c : option_map N.of_nat (index_of eqb c al) = None -> ~ In c al.
  Proof.
    pose proof (index_of_spec c al c) as S. destruct (index_of eqb c al); [discriminate | intros _; exact S].
  Qed.

  Hypothesis al_nodup : NoDup al.

  Lemma alpha_dig_sym d : d < N.of_nat (length al) ->
    option_map N.of_nat (index_of eqb (nth (N.to_nat d) al dflt) al) = Some d.
  Proof.
    intro Hd. rewrite (index_of_nth al al_nodup) by lia. cbn [option_map]. rewrite N2Nat.id. reflexivity.
  Qed.
End Alphabet.

Lemma lead_val_inj {A V} (z : A) (f : V -> list A) (g : list A -> V) :
  (forall k v, g (repeat z k ++ f v) = v) ->
  forall k1 v1 k2 v2, repeat z k1 ++ f v1 = repeat z k2 ++ f v2 -> k1 = k2 /\ v1 = v2.
Proof.
  intros Hg k1 v1 k2 v2 E. assert (v1 = v2) by (rewrite <- (Hg k1 v1), E; apply Hg). subst v2.
  apply app_inv_tail, (f_equal (@length A)) in E. rewrite !repeat_length in E. auto.
Qed.

(* Strings of symbols read as numerals in base b. All that is used of the symbols is that [sym] and [dig] are
   inverse to each other between the digits below b and the symbols that have a digit. *)
Section Codec.
  Context {A : Type} (b : N) (sym : N -> A) (dig : A -> option N).
  Hypothesis dig_sym : forall d, d < b -> dig (sym d) = Some d.
  Hypothesis sym_dig : forall c d, dig c = Some d -> d < b /\ sym d = c.

  Fixpoint digs (t : list A) : option (list N) :=
    match t with
    | [] => Some []
    | c :: r => match dig c, digs r with
                | Some d, Some ds => Some (d :: ds)
                | _, _ => None
                end
    end.

  Lemma digs_some t : forall ds, digs t = Some ds -> Forall (fun d => d < b) ds /\ map sym ds = t.
  Proof.
    induction t as [|c r IH]; intros ds H; [injection H as <-; split; [constructor | reflexivity]|].
    cbn [digs] in H. destruct (dig c) as [d|] eqn:E; [|discriminate]. destruct (digs r) as [ds'|]; [|discriminate].
    injection H as <-. destruct (sym_dig c d E) as [Hd Hc], (IH ds' eq_refl) as [Hf Hm].
    split; [constructor; assumption | cbn [map]; rewrite Hc, Hm; reflexivity].
  Qed.

  Lemma digs_map ds : Forall (fun d => d < b) ds -> digs (map sym ds) = Some ds.
  Proof.
    induction 1 as [|d r Hd _ IH]; [reflexivity|]. cbn [map digs]. rewrite (dig_sym d Hd), IH. reflexivity.
  Qed.

  Theorem digs_none t : digs t = None <-> Exists (fun c => dig c = None) t.
  Proof.
    induction t as [|c r IH]; cbn [digs]; [split; [discriminate | intro H; inversion H]|].
    rewrite Exists_cons, <- IH. destruct (dig c), (digs r); split; auto; try discriminate.
    intros [H|H]; discriminate H.
  Qed.

  Context (eqb : A -> A -> bool).
  Hypothesis eqb_spec : forall x y, eqb x y = true <-> x = y.
  Hypothesis b_ge2 : 2 <= b.

  Theorem digs_nf t ds : digs t = Some ds ->
    t = repeat (sym 0) (count_leading (eqb (sym 0)) t) ++ map sym (rev (digits_lsb b (val_msb b ds))).
  Proof.
    intro H. apply digs_some in H as [Hf <-]. induction Hf as [|d ds' Hd Hf IH]; [reflexivity|].
    cbn [map count_leading]. destruct (eqb (sym 0) (sym d)) eqn:E.
    - apply eqb_spec, (f_equal dig) in E.
      rewrite (dig_sym d Hd), (dig_sym 0 (N.lt_le_trans 0 2 b N.lt_0_2 b_ge2)) in E. injection E as <-.
      (* a zero digit in front leaves the value as it is, by computation *)
      cbn [repeat app]. f_equal. exact IH.
    - rewrite digits_msb_unique; [reflexivity | exact b_ge2 | constructor; assumption|].
      cbn [hd]. intros ->. rewrite (proj2 (eqb_spec _ _) eq_refl) in E. discriminate.
  Qed.

  Lemma numeral_inj k1 v1 k2 v2 :
    repeat (sym 0) k1 ++ map sym (rev (digits_lsb b v1)) = repeat (sym 0) k2 ++ map sym (rev (digits_lsb b v2)) ->
    k1 = k2 /\ v1 = v2.
  Proof.
    apply (lead_val_inj (sym 0) (fun v => map sym (rev (digits_lsb b v)))
             (fun t => match digs t with Some ds => val_msb b ds | None => 0 end)).
    intros k v. destruct (digits_msb_spec b v b_ge2) as (Hf & _ & Hv).
    rewrite <- (map_repeat sym), <- map_app, digs_map, val_msb_zeros_app; [exact Hv|].
    apply Forall_app. split; [|exact Hf].
    apply Forall_forall. intros d Hd. apply repeat_spec in Hd. subst d. exact (N.lt_le_trans 0 2 b N.lt_0_2 b_ge2).
  Qed.
End Codec.

(* [injection] also evaluates what it finds under the constructor (a [skipn] at a concrete offset); this does not *)
Lemma Ok_inj {A} (a b : A) : Ok a = Ok b -> a = b.
Proof. intro H. injection H as H. exact H. Qed.
