(* C08: genuine proofs of witness-serialised transactions are accepted (the leaf is the hash of the legacy
   encoding, whatever the sizes of scripts and the numbers of inputs/outputs). *)
From Coq Require Import ZArith List Lia.
From LV Require Import Lib.Bytes Wire.Tx Model.C05 Proofs.C05 Model.C08 Model.C08_Tx Proofs.C08.
Import ListNotations.
Local Open Scope N_scope.

Lemma preimage_segwit t flag wits rest : wf_tx t -> wf_wits t wits -> 0 < flag < 256 ->
  txid_preimage (serialize_segwit t flag wits ++ rest) = Some (serialize t).
Proof.
  intros Ht Hw Hf. unfold txid_preimage.
  rewrite (segwit_parse t flag wits rest Ht Hw Hf), pser_lift_with by exact Ht.
  cbn [p_flag lift_with truthy]. now rewrite (proj2 (N.eqb_neq flag 0)) by lia.
Qed.

Lemma preimage_legacy t : wf_tx t -> tx_ins t <> [] -> txid_preimage (serialize t) = Some (serialize t).
Proof.
  intros Ht Hne. unfold txid_preimage. rewrite deserialize_legacy by exact Ht. reflexivity.
Qed.

Section TxLeaf.
Variable dsha : bytes -> bytes.

(* END TO END for a witness-serialised transaction: block = the txid preimages of its transactions, the
   idx-th is the legacy encoding of t; the server returns t witness-serialised (any non-zero flag, any
   witnesses, trailing bytes) with the genuine proof: verified, position idx recorded *)
Theorem witness_tx_genuine_verified headers st pres idx t flag wits rest h arg net r :
  wf_tx t -> wf_wits t wits -> 0 < flag < 256 ->
  (idx < length pres)%nat -> nth idx pres [] = serialize t ->
  in_range headers h ->
  merkle_root dsha (map dsha pres) = Some r ->
  header_root_raw (nth (Z.to_nat h) headers []) = r ->
  effective arg net = {| m_merkle := Some (map wire (branch dsha (map dsha pres) idx));
                         m_pos := Some (Z.of_nat idx) |} ->
  exists res, maybe_verify_raw dsha headers st (serialize_segwit t flag wits ++ rest) h arg net = Some res /\
    t_verified (mv_state res) = true /\ t_position (mv_state res) = Z.of_nat idx /\
    t_height (mv_state res) = h /\ mv_outcome res = RetTx.
Proof.
  intros Ht Hw Hf Hi Hn Hr Hroot Hh He.
  unfold maybe_verify_raw. rewrite preimage_segwit by assumption.
  eexists. split; [reflexivity|]. rewrite <- Hn.
  apply (genuine_verified dsha headers st pres idx h arg net r); assumption.
Qed.
End TxLeaf.
