(* Digit strings are read through [dval].  What the parser does on a string of its grammar is
   [parse_in_grammar], what the exact reader does is [dec_exact_digits]; what the printer leaves of the eight fraction
   digits is [strip_frac_spec]; round trip, exactness and rejection follow from these. *)
From Coq Require Import NArith ZArith List Bool Lia.
From LV Require Import Lib.Bytes Lib.Lists Lib.Numeral Lib.Decimal Model.C20.
Import ListNotations.
Local Open Scope N_scope.

Definition dval (ds : bytes) : N := value (map digit_val ds).

Lemma dec_acc_spec ds : forall acc, forallb is_digit ds = true ->
  dec_acc ds acc = Some (acc * 10 ^ N.of_nat (length ds) + dval ds).
Proof.
  intros acc H. rewrite <- (map_length digit_val), <- (fold_val 10). revert acc.
  induction ds as [|b r IH]; intro acc; [reflexivity|]. cbn [forallb] in H. apply andb_true_iff in H as [Hb Hr].
  cbn [dec_acc map fold_left]. rewrite Hb. exact (IH Hr _).
Qed.

Lemma dec_acc_none ds : forall acc, forallb is_digit ds = false -> dec_acc ds acc = None.
Proof.
  induction ds as [|b r IH]; intros acc H; [discriminate|].
  cbn [forallb] in H. cbn [dec_acc]. destruct (is_digit b); [|reflexivity].
  apply IH. exact H.
Qed.

Lemma N_of_dec_spec ds : ds <> [] -> forallb is_digit ds = true -> N_of_dec ds = Some (dval ds).
Proof.
  intros Hne H. unfold N_of_dec. destruct ds as [|b r]; [congruence|].
  rewrite dec_acc_spec by exact H. f_equal; lia.
Qed.

Lemma dval_app a b : dval (a ++ b) = dval a * 10 ^ N.of_nat (length b) + dval b.
Proof. unfold dval. rewrite map_app, value_app, map_length. reflexivity. Qed.

Lemma dval_zeros j : dval (repeat zero_byte j) = 0.
Proof.
  unfold dval, zero_byte. rewrite map_repeat, digit_val_digit_byte, <- (app_nil_r (repeat 0 j)) by lia.
  exact (val_zeros_app 10 j []).
Qed.

Lemma is_digit_zero : is_digit zero_byte = true.
Proof. apply is_digit_digit_byte. lia. Qed.

Lemma forallb_zeros j : forallb is_digit (repeat zero_byte j) = true.
Proof. induction j; simpl; [reflexivity | rewrite is_digit_zero; assumption]. Qed.

Lemma fixed_digits_length w : forall n, length (fixed_digits w n) = w.
Proof. induction w as [|w IH]; intro n; simpl; [reflexivity|]. rewrite app_length, IH. simpl. lia. Qed.

Lemma fixed_digits_digits w : forall n, forallb is_digit (fixed_digits w n) = true.
Proof.
  induction w as [|w IH]; intro n; cbn [fixed_digits]; [reflexivity|].
  rewrite forallb_app, IH. cbn [forallb]. rewrite is_digit_digit_byte; [reflexivity|].
  apply N.mod_lt. lia.
Qed.

Lemma fixed_digits_dval w : forall n, n < 10 ^ N.of_nat w -> dval (fixed_digits w n) = n.
Proof.
  induction w as [|w IH]; intros n H.
  - simpl in H. cbn. unfold dval, value. simpl. lia.
  - cbn [fixed_digits]. rewrite dval_app. cbn [length].
    rewrite Nat2N.inj_succ, N.pow_succ_r' in H.
    assert (Hq : n / 10 < 10 ^ N.of_nat w) by (apply N.div_lt_upper_bound; lia).
    rewrite IH by exact Hq.
    unfold dval at 1. cbn [map]. rewrite digit_val_digit_byte by (apply N.mod_lt; lia).
    unfold value. cbn [fold_left]. change (10 ^ N.of_nat 1) with 10. pose proof (N.div_mod n 10). lia.
Qed.

Lemma rstrip0_spec ds : exists k, ds = rstrip0 ds ++ repeat zero_byte k.
Proof.
  induction ds as [|d r [k IH]].
  - exists O. reflexivity.
  - cbn [rstrip0]. destruct (rstrip0 r) as [|x t] eqn:E.
    + destruct (byte_eqb d zero_byte) eqn:Ed.
      * apply byte_eqb_eq in Ed. rewrite Ed. exists (S k). simpl in *. f_equal. exact IH.
      * exists k. simpl in *. f_equal. exact IH.
    + exists k. simpl in *. f_equal. exact IH.
Qed.

Lemma rstrip0_digits ds : forallb is_digit ds = true -> forallb is_digit (rstrip0 ds) = true.
Proof.
  intro H. destruct (rstrip0_spec ds) as [k E]. rewrite E, forallb_app in H. apply andb_true_iff in H. apply H.
Qed.

Lemma strip_frac_spec F : length F = 8%nat -> forallb is_digit F = true ->
  forallb is_digit (strip_frac F) = true /\ (1 <= length (strip_frac F) <= 8)%nat /\
  dval (strip_frac F) * 10 ^ N.of_nat (8 - length (strip_frac F)) = dval F.
Proof.
  intros HL HD. unfold strip_frac.
  destruct (rstrip0_spec F) as [k Hk]. pose proof (rstrip0_digits F HD) as Hdg.
  revert Hk Hdg. generalize (rstrip0 F) as R. intros R -> Hdg.
  rewrite app_length, repeat_length in HL. rewrite dval_app, dval_zeros, repeat_length.
  destruct R as [|x t].
  - cbn [forallb]. rewrite is_digit_zero. change [zero_byte] with (repeat zero_byte 1). rewrite dval_zeros.
    split; [reflexivity|]. split; [simpl; lia | reflexivity].
  - replace (8 - length (x :: t))%nat with k by lia. split; [exact Hdg|]. split; [simpl in *; lia | lia].
Qed.

Lemma digit_not_dot b : is_digit b = true -> byte_eqb b dot_byte = false.
Proof. intro H. apply (digit_not_byte b 46 H); [left|]; reflexivity. Qed.

Lemma split_dot_digits a b : forallb is_digit a = true -> split_dot (a ++ dot_byte :: b) = Some (a, b).
Proof.
  induction a as [|x a IH]; intro H.
  - simpl. rewrite byte_eqb_refl. reflexivity.
  - cbn [forallb] in H. apply andb_true_iff in H as [Hx Ha].
    cbn [app split_dot]. rewrite digit_not_dot by exact Hx. rewrite IH by exact Ha. reflexivity.
Qed.

Lemma split_dot_spec s a b : split_dot s = Some (a, b) -> s = a ++ dot_byte :: b.
Proof.
  revert a b. induction s as [|x s IH]; intros a b H; [discriminate|].
  cbn [split_dot] in H. destruct (byte_eqb x dot_byte) eqn:E.
  - apply byte_eqb_eq in E. inversion H; subst. reflexivity.
  - destruct (split_dot s) as [[a' c']|]; [|discriminate]. inversion H; subst.
    simpl. f_equal. apply IH. reflexivity.
Qed.

Lemma dec_of_N_dval n : dval (dec_of_N n) = n.
Proof.
  pose proof (N_of_dec_of_N n) as H.
  rewrite N_of_dec_spec in H by (apply dec_of_N_nonempty || apply dec_of_N_all_digits).
  congruence.
Qed.

Lemma format_nonneg n : format (Z.of_N n) =
  dec_of_N (n / COIN) ++ dot_byte :: strip_frac (fixed_digits 8 (n mod COIN)).
Proof.
  unfold format. rewrite Zabs2N.id. destruct (Z.of_N n <? 0)%Z eqn:E; [apply Z.ltb_lt in E; lia|].
  reflexivity.
Qed.

Definition in_grammar (s : bytes) (whole frac : bytes) : Prop :=
  s = whole ++ dot_byte :: frac /\ forallb is_digit whole = true /\ forallb is_digit frac = true
  /\ (1 <= length whole <= 10)%nat /\ (1 <= length frac <= 8)%nat.

Lemma padded_spec whole frac : forallb is_digit whole = true -> forallb is_digit frac = true -> (length frac <= 8)%nat ->
  forallb is_digit (whole ++ ljust8 frac) = true /\ length (whole ++ ljust8 frac) = (length whole + 8)%nat /\
  dval (whole ++ ljust8 frac) = dval whole * 10 ^ 8 + dval frac * 10 ^ N.of_nat (8 - length frac).
Proof.
  intros Hw Hf L. unfold ljust8. split; [rewrite !forallb_app, Hw, Hf, forallb_zeros; reflexivity|].
  split; [rewrite !app_length, repeat_length; lia|].
  rewrite !dval_app, dval_zeros, app_length, repeat_length.
  replace (length frac + (8 - length frac))%nat with 8%nat by lia. rewrite N.add_0_r. reflexivity.
Qed.

Lemma parse_in_grammar s whole frac : in_grammar s whole frac ->
  parse s = Some (dval whole * 10 ^ 8 + dval frac * 10 ^ N.of_nat (8 - length frac)).
Proof.
  intros (-> & Hw & Hf & Lw & Lf). destruct (padded_spec whole frac Hw Hf (proj2 Lf)) as (Pd & _ & Pv).
  unfold parse. rewrite split_dot_digits, Hw, Hf by exact Hw.
  rewrite !(proj2 (Nat.leb_le _ _)) by lia. cbn [andb]. rewrite N_of_dec_spec, Pv; [reflexivity | | exact Pd].
  destruct whole; [simpl in Lw; lia | discriminate].
Qed.

Lemma parse_sound s n : parse s = Some n ->
  exists whole frac, in_grammar s whole frac /\
     n = dval whole * 10 ^ 8 + dval frac * 10 ^ N.of_nat (8 - length frac).
Proof.
  intro H. pose proof H as H0. unfold parse in H0.
  destruct (split_dot s) as [[whole frac]|] eqn:E; [|discriminate]. apply split_dot_spec in E.
  destruct (forallb is_digit whole) eqn:Hw; [|discriminate].
  destruct (forallb is_digit frac) eqn:Hf; [|discriminate].
  destruct (1 <=? length whole)%nat eqn:L1; [|discriminate].
  destruct (length whole <=? 10)%nat eqn:L2; [|discriminate].
  destruct (1 <=? length frac)%nat eqn:L3; [|discriminate].
  destruct (length frac <=? 8)%nat eqn:L4; [|discriminate].
  apply Nat.leb_le in L1, L2, L3, L4.
  assert (G : in_grammar s whole frac) by (repeat split; assumption).
  exists whole, frac. split; [exact G|]. rewrite (parse_in_grammar _ _ _ G) in H. congruence.
Qed.

Lemma parse_complete s whole frac : in_grammar s whole frac -> exists n, parse s = Some n.
Proof. intro G. eexists. apply parse_in_grammar. exact G. Qed.

Lemma roundtrip n : n < 10 ^ 18 -> parse (format (Z.of_N n)) = Some n.
Proof.
  intro H. rewrite format_nonneg.
  destruct (strip_frac_spec _ (fixed_digits_length 8 (n mod COIN)) (fixed_digits_digits 8 (n mod COIN))) as (Sd & Sl & Sv).
  assert (Hw : n / COIN < 10 ^ N.of_nat 10) by (apply N.div_lt_upper_bound; [discriminate | exact H]).
  rewrite (parse_in_grammar _ (dec_of_N (n / COIN)) (strip_frac (fixed_digits 8 (n mod COIN)))).
  - rewrite dec_of_N_dval, Sv, fixed_digits_dval by (apply N.mod_lt; discriminate).
    f_equal. symmetry. rewrite N.mul_comm. apply (N.div_mod n COIN). discriminate.
  - split; [reflexivity|]. split; [apply dec_of_N_all_digits|]. split; [exact Sd|].
    split; [apply dec_of_N_length; [exact Hw | lia] | exact Sl].
Qed.

(* m / 10^l = n / 10^8 for the mantissa m of w, then the l digits of value dS, when n = w 10^8 + dS 10^(8-l) *)
Lemma mantissa_scale w dS l : (l <= 8)%nat ->
  (w * 10 ^ N.of_nat l + dS) * 10 ^ 8 = (10 ^ 8 * w + dS * 10 ^ N.of_nat (8 - l)) * 10 ^ N.of_nat l.
Proof.
  intro H. replace (10 ^ 8) with (10 ^ N.of_nat l * 10 ^ N.of_nat (8 - l)) by (rewrite <- N.pow_add_r; f_equal; lia).
  ring.
Qed.

Lemma dec_exact_digits W S : W <> [] -> S <> [] -> forallb is_digit W = true -> forallb is_digit S = true ->
  dec_exact (W ++ dot_byte :: S) = Some (Z.of_N (dval (W ++ S)), N.of_nat (length S)).
Proof.
  intros HW HS DW DS. destruct W as [|b r]; [congruence|]. destruct S as [|s0 S']; [congruence|].
  pose proof DW as Hb. cbn [forallb] in Hb. apply andb_true_iff in Hb as [Hb _].
  unfold dec_exact. cbn [app]. rewrite digit_not_minus by exact Hb.
  change (b :: r ++ dot_byte :: s0 :: S') with ((b :: r) ++ dot_byte :: s0 :: S'). rewrite split_dot_digits by exact DW.
  rewrite N_of_dec_spec; [reflexivity | discriminate | rewrite forallb_app, DW; exact DS].
Qed.

Lemma exact_nonneg n : exists m k, dec_exact (format (Z.of_N n)) = Some (Z.of_N m, k)
   /\ (Z.of_N m * 10 ^ 8 = Z.of_N n * 10 ^ Z.of_N k)%Z /\ 1 <= k <= 8.
Proof.
  rewrite format_nonneg.
  destruct (strip_frac_spec _ (fixed_digits_length 8 (n mod COIN)) (fixed_digits_digits 8 (n mod COIN))) as (Sd & Sl & Sv).
  rewrite fixed_digits_dval in Sv by (apply N.mod_lt; discriminate).
  revert Sd Sl Sv. generalize (strip_frac (fixed_digits 8 (n mod COIN))) as S. intros S Sd Sl Sv.
  exists (n / COIN * 10 ^ N.of_nat (length S) + dval S), (N.of_nat (length S)).
  split; [|split; [|clear -Sl; lia]].
  - rewrite dec_exact_digits, dval_app, dec_of_N_dval;
      [reflexivity | apply dec_of_N_nonempty | destruct S; [simpl in Sl; lia | discriminate] | apply dec_of_N_all_digits | exact Sd].
  - pose proof (mantissa_scale (n / COIN) (dval S) (length S) (proj2 Sl)) as HN.
    rewrite Sv in HN. change (10 ^ 8 * (n / COIN)) with (COIN * (n / COIN)) in HN.
    rewrite <- (N.div_mod n COIN) in HN by discriminate.
    apply (f_equal Z.of_N) in HN. rewrite !N2Z.inj_mul, !N2Z.inj_pow in HN. exact HN.
Qed.

Lemma format_neg p : format (Zneg p) = minus_byte :: format (Zpos p).
Proof. reflexivity. Qed.

Lemma dec_exact_minus b r m k : byte_eqb b minus_byte = false -> dec_exact (b :: r) = Some (Z.of_N m, k) ->
  dec_exact (minus_byte :: b :: r) = Some ((- Z.of_N m)%Z, k).
Proof.
  intros Hb H. unfold dec_exact in *. rewrite byte_eqb_refl. rewrite Hb in H.
  destruct (split_dot (b :: r)) as [[whole frac]|]; [|discriminate].
  destruct whole; [discriminate|]. destruct frac; [discriminate|].
  destruct (N_of_dec _) as [m'|]; [|discriminate].
  inversion H; subst. apply N2Z.inj in H1. subst. reflexivity.
Qed.

Lemma exact z : exists m k, dec_exact (format z) = Some (m, k)
   /\ (m * 10 ^ 8 = z * 10 ^ Z.of_N k)%Z /\ 1 <= k <= 8.
Proof.
  destruct (Z.le_gt_cases 0 z) as [Hz|Hz].
  - rewrite <- (Z2N.id z Hz). destruct (exact_nonneg (Z.to_N z)) as (m & k & H). exists (Z.of_N m), k. exact H.
  - destruct z as [|p|p]; try discriminate Hz.
    destruct (exact_nonneg (Npos p)) as (m & k & H1 & H2 & H3). exists (- Z.of_N m)%Z, k.
    split; [|split; [|exact H3]].
    + rewrite format_neg. change (Z.pos p) with (Z.of_N (Npos p)). revert H1. rewrite format_nonneg.
      destruct (dec_of_N_head (N.pos p / COIN)) as (b & r & -> & Hb & _). apply dec_exact_minus, digit_not_minus, Hb.
    + change (Z.of_N (N.pos p)) with (Z.pos p) in H2. lia.
Qed.
