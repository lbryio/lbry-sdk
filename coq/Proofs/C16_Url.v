(* The URL parser of Model.C16_Url accepts exactly in_grammar (url_parse_iff). Both directions go through one
   shape of the grammar, an optional scheme followed by render_body s1 s2 u (in_grammar_eq), with channel and stream
   segments handled at once through a boolean (seg_wf b). The print/parse round trips, unambiguity, the canonical
   spelling and the rejection of forbidden code points then follow from url_parse_iff; a malformed modifier is
   rejected by running the scanner up to it (parse_body_bad). *)
From Coq Require Import NArith PeanoNat List Bool Lia.
From LV Require Import Model.C16_Url.
Import ListNotations.
Local Open Scope N_scope.

Definition stops (p : N -> bool) (s : str) : Prop :=
  match s with [] => True | c :: _ => p c = false end.

Lemma span_app p a rest : forallb p a = true -> stops p rest -> span p (a ++ rest) = (a, rest).
Proof.
  induction a as [|x a IH]; cbn [app forallb]; intros Ha Hs.
  - destruct rest as [|c r]; [reflexivity|]. cbn [span]. cbn [stops] in Hs. rewrite Hs. reflexivity.
  - apply andb_true_iff in Ha as [Hx Ha]. cbn [span]. rewrite Hx, (IH Ha Hs). reflexivity.
Qed.

Lemma span_spec p : forall s a b, span p s = (a, b) -> s = a ++ b /\ forallb p a = true /\ stops p b.
Proof.
  induction s as [|c r IH]; cbn [span]; intros a b H.
  - injection H as <- <-. repeat split.
  - destruct (p c) eqn:E.
    + destruct (span p r) as [a' b']. injection H as <- <-. destruct (IH a' b' eq_refl) as (-> & H2 & H3).
      cbn [forallb]. rewrite E, H2. repeat split. exact H3.
    + injection H as <- <-. repeat split. exact E.
Qed.

Lemma strip_prefix_spec p : forall s r, strip_prefix p s = Some r -> s = p ++ r.
Proof.
  induction p as [|a p IH]; intros [|b s] r H; try discriminate; cbn [strip_prefix] in H.
  - injection H as <-. reflexivity.
  - injection H as <-. reflexivity.
  - destruct (N.eqb_spec a b) as [<-|]; [|discriminate]. cbn [app]. f_equal. apply IH. exact H.
Qed.

Lemma strip_prefix_app p : forall r, strip_prefix p (p ++ r) = Some r.
Proof. induction p as [|a p IH]; intro r; [reflexivity|]. cbn [app strip_prefix]. rewrite N.eqb_refl. apply IH. Qed.

(* A channel segment is a stream segment behind '@'; [seg_wf b] says so for both kinds at once (b = channel). *)
Definition opt_at (b : bool) : str := if b then [AT] else [].
Definition seg_wf (b : bool) (g : segment) : Prop := if b then channel_wf g else stream_wf g.

Lemma seg_wf_iff b g : seg_wf b g <->
  exists nm, seg_name g = opt_at b ++ nm /\ nm <> [] /\ forallb name_char nm = true /\ mod_wf (seg_mod g).
Proof.
  destruct b; cbn [seg_wf opt_at app]; unfold channel_wf, stream_wf; split.
  - intros [(nm & H1 & H2 & H3) H4]. exists nm. auto.
  - intros (nm & H1 & H2 & H3 & H4). split; [exists nm|]; auto.
  - intros (H1 & H2 & H3). exists (seg_name g). auto.
  - intros (nm & -> & H2 & H3 & H4). auto.
Qed.

Definition render_mod (sep : N) (m : modifier) : str :=
  match m with MNone => [] | MClaimId h => sep :: h | MAmount d => DOLLAR :: d end.

Lemma render_segment_eq sep g : render_segment sep g = seg_name g ++ render_mod sep (seg_mod g).
Proof. reflexivity. Qed.

(* what follows the optional scheme; a URL with one segment has no use for the second separator *)
Definition render_body (s1 s2 : N) (u : url) : str :=
  match u with
  | UStream g => render_segment s1 g
  | UChannel c => render_segment s1 c
  | UChannelStream c g => render_segment s1 c ++ SLASH :: render_segment s2 g
  end.

Lemma in_grammar_eq s u : in_grammar s u <->
  exists p s1 s2, scheme_opt p /\ sep_ok s1 /\ sep_ok s2 /\ url_wf u /\ s = p ++ render_body s1 s2 u.
Proof.
  unfold in_grammar. destruct u as [g | c | c g]; cbn [url_wf render_body]; split.
  - intros (p & Hp & sep & Hs & W & E). exists p, sep, sep. auto 6.
  - intros (p & s1 & s2 & Hp & H1 & _ & W & E). exists p. split; [exact Hp|]. exists s1. auto.
  - intros (p & Hp & sep & Hs & W & E). exists p, sep, sep. auto 6.
  - intros (p & s1 & s2 & Hp & H1 & _ & W & E). exists p. split; [exact Hp|]. exists s1. auto.
  - intros (p & Hp & s1 & s2 & H1 & H2 & Wc & Wg & E). exists p, s1, s2. auto 7.
  - intros (p & s1 & s2 & Hp & H1 & H2 & [Wc Wg] & E). exists p. split; [exact Hp|]. exists s1, s2. auto 6.
Qed.

Lemma url_print_eq u : url_print u = scheme ++ render_body COLON COLON u.
Proof. destruct u; reflexivity. Qed.

Lemma in_grammar_wf s u : in_grammar s u -> url_wf u.
Proof. intro H. apply in_grammar_eq in H as (p & s1 & s2 & _ & _ & _ & W & _). exact W. Qed.

Lemma print_in_grammar u : url_wf u -> in_grammar (url_print u) u.
Proof.
  intro W. apply in_grammar_eq. exists scheme, COLON, COLON.
  split; [right; reflexivity|]. split; [left; reflexivity|]. split; [left; reflexivity|]. split; [exact W | apply url_print_eq].
Qed.

(* a segment is followed by the end or by '/', and no character class contains '/' *)
Definition tail_ok (rest : str) : Prop := rest = [] \/ exists r, rest = SLASH :: r.

Lemma tail_stops p rest : p SLASH = false -> tail_ok rest -> stops p rest.
Proof. intros Hp [-> | [r ->]]; [exact I | exact Hp]. Qed.

Lemma mod_stops_name sep m rest : sep_ok sep -> tail_ok rest -> stops name_char (render_mod sep m ++ rest).
Proof.
  intros Hs Ht. destruct m as [|h|d]; cbn [render_mod app].
  - apply tail_stops; [reflexivity | exact Ht].
  - destruct Hs as [-> | ->]; reflexivity.
  - reflexivity.
Qed.

Lemma parse_mod_complete sep m rest : sep_ok sep -> mod_wf m -> tail_ok rest ->
  parse_mod (render_mod sep m ++ rest) = Some (m, rest).
Proof.
  intros Hs Hm Ht. destruct m as [|h|[|d0 ds]]; cbn [render_mod app mod_wf] in *.
  - destruct Ht as [-> | [r ->]]; reflexivity.
  - destruct Hm as [[Hl1 Hl2] Hh]. cbn [parse_mod].
    replace ((sep =? COLON) || (sep =? HASH)) with true by (destruct Hs as [-> | ->]; reflexivity).
    rewrite (span_app is_hex h rest Hh (tail_stops _ _ eq_refl Ht)).
    rewrite (proj2 (Nat.leb_le _ _) Hl1), (proj2 (Nat.leb_le _ _) Hl2). reflexivity.
  - contradiction.
  - destruct Hm as [H0 Hds]. cbn [parse_mod].
    change ((DOLLAR =? COLON) || (DOLLAR =? HASH)) with false. change (DOLLAR =? DOLLAR) with true. cbn iota.
    rewrite H0, (span_app is_digit ds rest Hds (tail_stops _ _ eq_refl Ht)). reflexivity.
Qed.

Lemma parse_mod_sound s m r : parse_mod s = Some (m, r) ->
  mod_wf m /\ exists sep, sep_ok sep /\ s = render_mod sep m ++ r.
Proof.
  assert (None_ok : forall t, mod_wf MNone /\ exists sep, sep_ok sep /\ t = render_mod sep MNone ++ t).
  { intro t. split; [exact I|]. exists COLON. split; [left|]; reflexivity. }
  unfold parse_mod. destruct s as [|c r0]; [intros [= <- <-]; apply None_ok|].
  destruct ((c =? COLON) || (c =? HASH)) eqn:E.
  - destruct (span is_hex r0) as [h r'] eqn:Sp. apply span_spec in Sp as (-> & Hh & _).
    destruct ((1 <=? length h)%nat && (length h <=? 40)%nat) eqn:L; [|discriminate].
    intros [= <- <-]. apply andb_true_iff in L as [L1 L2]. apply Nat.leb_le in L1, L2.
    split; [cbn [mod_wf]; auto|]. exists c. split; [|reflexivity].
    apply orb_true_iff in E as [E | E]; apply N.eqb_eq in E; [left | right]; exact E.
  - destruct (N.eqb_spec c DOLLAR) as [->|_]; [|intros [= <- <-]; apply None_ok].
    destruct r0 as [|d r1]; [discriminate|]. destruct (is_digit19 d) eqn:D19; [|discriminate].
    destruct (span is_digit r1) as [ds r'] eqn:Sp. apply span_spec in Sp as (-> & Hds & _).
    intros [= <- <-]. split; [cbn [mod_wf]; auto|]. exists COLON. split; [left|]; reflexivity.
Qed.

(* parse_claim strips the '@' of a channel and then runs the same scanner for both kinds *)
Definition claim_tail (pfx t : str) : option (segment * str) :=
  let (nm, r) := span name_char t in
  match nm with
  | [] => None
  | _ :: _ => match parse_mod r with
              | Some (m, r') => Some ({| seg_name := pfx ++ nm; seg_mod := m |}, r')
              | None => None
              end
  end.

Lemma parse_claim_eq b s : parse_claim b s =
  match strip_prefix (opt_at b) s with Some t => claim_tail (opt_at b) t | None => None end.
Proof.
  destruct b; [|reflexivity]. destruct s as [|c t]; [reflexivity|].
  unfold parse_claim. cbn [opt_at strip_prefix]. rewrite (N.eqb_sym AT c). destruct (c =? AT); reflexivity.
Qed.

Lemma parse_claim_eval b nm x : nm <> [] -> forallb name_char nm = true -> stops name_char x ->
  parse_claim b (opt_at b ++ nm ++ x) =
  match parse_mod x with
  | Some (m, r) => Some ({| seg_name := opt_at b ++ nm; seg_mod := m |}, r)
  | None => None
  end.
Proof.
  intros Hne Hn Hx. rewrite parse_claim_eq, strip_prefix_app. unfold claim_tail. rewrite (span_app _ _ _ Hn Hx).
  destruct nm; [contradiction | reflexivity].
Qed.

(* the first code point decides between the '@' form and the plain form *)
Lemma parse_claim_head b nm x : nm <> [] -> forallb name_char nm = true ->
  parse_claim (negb b) (opt_at b ++ nm ++ x) = None.
Proof.
  rewrite parse_claim_eq. destruct nm as [|n0 nm]; [contradiction|]. intros _ H.
  cbn [forallb] in H. apply andb_true_iff in H as [H _]. destruct b; cbn [negb opt_at app strip_prefix].
  - reflexivity.
  - destruct (N.eqb_spec AT n0) as [<-|]; [discriminate H | reflexivity].
Qed.

Lemma parse_claim_complete b sep g rest : sep_ok sep -> seg_wf b g -> tail_ok rest ->
  parse_claim b (render_segment sep g ++ rest) = Some (g, rest).
Proof.
  intros Hs W Ht. apply seg_wf_iff in W as (nm & Hname & Hne & Hn & Hm). destruct g as [name m]. cbn [seg_name seg_mod] in *.
  rewrite render_segment_eq. cbn [seg_name seg_mod]. subst name. rewrite <- !app_assoc.
  rewrite (parse_claim_eval b nm _ Hne Hn (mod_stops_name sep m rest Hs Ht)), (parse_mod_complete sep m rest Hs Hm Ht).
  reflexivity.
Qed.

Lemma parse_claim_complete_end b sep g : sep_ok sep -> seg_wf b g -> parse_claim b (render_segment sep g) = Some (g, []).
Proof. intros Hs W. rewrite <- (app_nil_r (render_segment sep g)). apply parse_claim_complete; [| |left]; auto. Qed.

Lemma parse_claim_sound b s g r : parse_claim b s = Some (g, r) ->
  exists sep, sep_ok sep /\ seg_wf b g /\ s = render_segment sep g ++ r.
Proof.
  rewrite parse_claim_eq. destruct (strip_prefix (opt_at b) s) as [t|] eqn:E; [|discriminate].
  apply strip_prefix_spec in E as ->. unfold claim_tail.
  destruct (span name_char t) as [nm r0] eqn:Sp. apply span_spec in Sp as (-> & Hn & _).
  destruct nm as [|n0 nm]; [discriminate|]. destruct (parse_mod r0) as [[m r']|] eqn:Pm; [|discriminate].
  intros [= <- <-]. apply parse_mod_sound in Pm as (Hm & sep & Hs & ->). exists sep. split; [exact Hs|]. split.
  - apply seg_wf_iff. exists (n0 :: nm). repeat split; [discriminate | exact Hn | exact Hm].
  - rewrite render_segment_eq. cbn [seg_name seg_mod]. rewrite <- !app_assoc. reflexivity.
Qed.

Lemma parse_claim_excl b s g r : parse_claim b s = Some (g, r) -> parse_claim (negb b) s = None.
Proof.
  intro H. apply parse_claim_sound in H as (sep & _ & W & ->). apply seg_wf_iff in W as (nm & Hname & Hne & Hn & _).
  rewrite render_segment_eq, Hname, <- !app_assoc. apply parse_claim_head; assumption.
Qed.

Lemma parse_body_complete s1 s2 u : sep_ok s1 -> sep_ok s2 -> url_wf u -> parse_body (render_body s1 s2 u) = Some u.
Proof.
  intros H1 H2 W. unfold parse_body. destruct u as [g | c | c g]; cbn [render_body url_wf] in *.
  - pose proof (parse_claim_complete_end false s1 g H1 W) as P. rewrite (parse_claim_excl false _ _ _ P : parse_claim true _ = None), P. reflexivity.
  - rewrite (parse_claim_complete_end true s1 c H1 W). reflexivity.
  - destruct W as [Wc Wg].
    rewrite (parse_claim_complete true s1 c (SLASH :: _) H1 Wc (or_intror (ex_intro _ _ eq_refl))).
    change (SLASH =? SLASH) with true. cbn iota. rewrite (parse_claim_complete_end false s2 g H2 Wg). reflexivity.
Qed.

Lemma parse_body_sound s u : parse_body s = Some u ->
  exists s1 s2, sep_ok s1 /\ sep_ok s2 /\ url_wf u /\ s = render_body s1 s2 u.
Proof.
  unfold parse_body. destruct (parse_claim true s) as [[c r]|] eqn:Pc.
  - rewrite (parse_claim_excl true _ _ _ Pc : parse_claim false s = None). apply parse_claim_sound in Pc as (s1 & H1 & Wc & ->).
    destruct r as [|x r1].
    + intros [= <-]. exists s1, s1. rewrite app_nil_r. auto.
    + destruct (N.eqb_spec x SLASH) as [->|_]; [|discriminate].
      destruct (parse_claim false r1) as [[st [|]]|] eqn:Ps; try discriminate.
      intros [= <-]. apply parse_claim_sound in Ps as (s2 & H2 & Wg & ->). exists s1, s2.
      rewrite app_nil_r. cbn [url_wf render_body]. auto.
  - destruct (parse_claim false s) as [[st [|]]|] eqn:Ps; try discriminate.
    intros [= <-]. apply parse_claim_sound in Ps as (s1 & H1 & Wg & ->). exists s1, s1. rewrite app_nil_r. auto.
Qed.

(* the optional scheme: once "lbry://" has been consumed, trying again without consuming it never helps *)
Lemma parse_body_scheme x : parse_body (scheme ++ x) = None.
Proof. reflexivity. Qed.

Lemma url_parse_eq s :
  url_parse s = match strip_prefix scheme s with Some rest => parse_body rest | None => parse_body s end.
Proof.
  unfold url_parse. destruct (strip_prefix scheme s) as [rest|] eqn:E; [|reflexivity].
  apply strip_prefix_spec in E as ->. destruct (parse_body rest); [reflexivity | apply parse_body_scheme].
Qed.

Lemma url_parse_scheme b : url_parse (scheme ++ b) = parse_body b.
Proof. rewrite url_parse_eq, strip_prefix_app. reflexivity. Qed.

Lemma body_no_scheme b u : parse_body b = Some u -> strip_prefix scheme b = None.
Proof.
  intro H. destruct (strip_prefix scheme b) as [rest|] eqn:E; [|reflexivity].
  apply strip_prefix_spec in E as ->. rewrite parse_body_scheme in H. discriminate.
Qed.

Lemma url_parse_complete s u : in_grammar s u -> url_parse s = Some u.
Proof.
  intro H. apply in_grammar_eq in H as (p & s1 & s2 & Hp & H1 & H2 & W & ->).
  pose proof (parse_body_complete s1 s2 u H1 H2 W) as Pb. destruct Hp as [-> | ->].
  - cbn [app]. rewrite url_parse_eq, (body_no_scheme _ _ Pb). exact Pb.
  - rewrite url_parse_scheme. exact Pb.
Qed.

Lemma url_parse_sound s u : url_parse s = Some u -> in_grammar s u.
Proof.
  rewrite url_parse_eq. intro H. apply in_grammar_eq. destruct (strip_prefix scheme s) as [rest|] eqn:E.
  - apply strip_prefix_spec in E as ->. apply parse_body_sound in H as (s1 & s2 & H1 & H2 & W & ->).
    exists scheme, s1, s2. unfold scheme_opt. auto 7.
  - apply parse_body_sound in H as (s1 & s2 & H1 & H2 & W & ->). exists [], s1, s2. unfold scheme_opt. auto 7.
Qed.

Lemma url_parse_iff s u : url_parse s = Some u <-> in_grammar s u.
Proof. split; [apply url_parse_sound | apply url_parse_complete]. Qed.

Lemma url_rejects_outside s : (forall u, ~ in_grammar s u) -> url_parse s = None.
Proof.
  intro H. destruct (url_parse s) as [u|] eqn:E; [|reflexivity]. exfalso. apply (H u), url_parse_sound, E.
Qed.

Lemma url_parse_print u : url_wf u -> url_parse (url_print u) = Some u.
Proof. intro W. apply url_parse_complete, print_in_grammar, W. Qed.

Lemma url_unambiguous s u1 u2 : in_grammar s u1 -> in_grammar s u2 -> u1 = u2.
Proof. intros H1 H2. apply url_parse_complete in H1, H2. congruence. Qed.

Lemma url_print_inj u1 u2 : url_wf u1 -> url_wf u2 -> url_print u1 = url_print u2 -> u1 = u2.
Proof.
  intros W1 W2 E. pose proof (url_parse_print u1 W1) as P1. rewrite E, (url_parse_print u2 W2) in P1. congruence.
Qed.

(* a fact about the code points below a bound is checked by running through them *)
Lemma forall_below (P : N -> bool) (n : nat) :
  forallb P (map N.of_nat (seq 0 n)) = true -> forall c, c < N.of_nat n -> P c = true.
Proof.
  intros H c Hc. rewrite forallb_forall in H. apply H, in_map_iff. exists (N.to_nat c).
  split; [apply N2Nat.id | apply in_seq; lia].
Qed.

Lemma hex_name c : is_hex c = true -> name_char c = true.
Proof.
  intro H. assert (B : c < N.of_nat 103).
  { unfold is_hex in H. apply orb_true_iff in H as [H | H]; apply andb_true_iff in H as [_ H]; apply N.leb_le in H; lia. }
  assert (T : implb (is_hex c) (name_char c) = true) by (apply (forall_below (fun c => implb (is_hex c) (name_char c)) 103); [vm_compute; reflexivity | exact B]).
  rewrite H in T. exact T.
Qed.

Lemma digit_name c : is_digit c = true -> name_char c = true.
Proof. intro H. apply hex_name. unfold is_digit in H. unfold is_hex. rewrite H. reflexivity. Qed.

Lemma digit19_digit c : is_digit19 c = true -> is_digit c = true.
Proof.
  unfold is_digit19, is_digit. intro H. apply andb_true_iff in H as [H1 H2]. apply N.leb_le in H1.
  rewrite H2, andb_true_r. apply N.leb_le. lia.
Qed.

Lemma forallb_impl (p q : N -> bool) l : (forall c, p c = true -> q c = true) -> forallb p l = true -> forallb q l = true.
Proof. rewrite !forallb_forall. auto. Qed.

(* hex digits and decimal digits are allowed in names, so all that the canonical spelling and the rejection
   of forbidden code points need to know about a modifier is that its text is made of name characters *)
Definition mod_text (m : modifier) : str := match m with MNone => [] | MClaimId t | MAmount t => t end.

Lemma mod_text_name m : mod_wf m -> forallb name_char (mod_text m) = true.
Proof.
  destruct m as [|h|[|d0 ds]]; cbn [mod_wf mod_text]; try reflexivity.
  - intros [_ H]. exact (forallb_impl _ _ _ hex_name H).
  - intros [H0 H]. cbn [forallb]. rewrite (digit_name _ (digit19_digit _ H0)). exact (forallb_impl _ _ _ digit_name H).
Qed.

Definition h2c (c : N) : N := if c =? HASH then COLON else c.

Lemma canon_eq s : canon s = (match strip_prefix scheme s with Some _ => [] | None => scheme end) ++ map h2c s.
Proof. reflexivity. Qed.

Lemma name_h2c l : forallb name_char l = true -> map h2c l = l.
Proof.
  induction l as [|c l IH]; [reflexivity|]. cbn [forallb map]. intro H. apply andb_true_iff in H as [Hc Hl].
  rewrite (IH Hl). unfold h2c. destruct (N.eqb_spec c HASH) as [->|]; [discriminate Hc | reflexivity].
Qed.

Lemma render_canon b sep g : sep_ok sep -> seg_wf b g -> map h2c (render_segment sep g) = render_segment COLON g.
Proof.
  intros Hs W. apply seg_wf_iff in W as (nm & Hname & _ & Hn & Hm). apply mod_text_name in Hm.
  rewrite !render_segment_eq, Hname, !map_app, (name_h2c nm Hn). f_equal; [destruct b; reflexivity|]. f_equal.
  destruct (seg_mod g); cbn [render_mod map mod_text] in *; [reflexivity | |]; rewrite (name_h2c _ Hm).
  - destruct Hs as [-> | ->]; reflexivity.
  - reflexivity.
Qed.

Lemma body_canon s1 s2 u : sep_ok s1 -> sep_ok s2 -> url_wf u ->
  map h2c (render_body s1 s2 u) = render_body COLON COLON u.
Proof.
  intros H1 H2 W. destruct u as [g | c | c g]; cbn [render_body url_wf] in *.
  - exact (render_canon false s1 g H1 W).
  - exact (render_canon true s1 c H1 W).
  - destruct W as [Wc Wg]. rewrite map_app. cbn [map].
    rewrite (render_canon true s1 c H1 Wc), (render_canon false s2 g H2 Wg). reflexivity.
Qed.

Lemma canon_print s u : in_grammar s u -> canon s = url_print u.
Proof.
  intro H. apply in_grammar_eq in H as (p & s1 & s2 & Hp & H1 & H2 & W & ->).
  rewrite canon_eq, url_print_eq, map_app, (body_canon s1 s2 u H1 H2 W). destruct Hp as [-> | ->].
  - cbn [app]. rewrite (body_no_scheme _ u); [reflexivity | apply parse_body_complete; assumption].
  - rewrite strip_prefix_app. reflexivity.
Qed.

Lemma url_print_parse s u : url_parse s = Some u -> url_print u = canon s /\ url_wf u.
Proof.
  intro H. apply url_parse_sound in H. split; [symmetry; apply canon_print; exact H | eapply in_grammar_wf; exact H].
Qed.

Lemma url_canon_stable s u : url_parse s = Some u -> url_parse (canon s) = Some u /\ canon (canon s) = canon s.
Proof.
  intro H. destruct (url_print_parse s u H) as [Hp Hw]. rewrite <- Hp. split.
  - apply url_parse_print. exact Hw.
  - apply canon_print, print_in_grammar, Hw.
Qed.

Definition soft (c : N) : Prop := hard_forbidden c = false.

Lemma name_soft l : forallb name_char l = true -> Forall soft l.
Proof.
  rewrite forallb_forall, Forall_forall. intros H c Hc. specialize (H c Hc).
  unfold name_char in H. apply negb_true_iff in H. unfold soft, hard_forbidden. rewrite H. reflexivity.
Qed.

Lemma segment_soft b sep g : sep_ok sep -> seg_wf b g -> Forall soft (render_segment sep g).
Proof.
  intros Hs W. apply seg_wf_iff in W as (nm & Hname & _ & Hn & Hm). apply mod_text_name, name_soft in Hm.
  rewrite render_segment_eq, Hname. repeat (apply Forall_app; split).
  - destruct b; repeat constructor.
  - exact (name_soft nm Hn).
  - destruct (seg_mod g); cbn [render_mod mod_text] in *; [constructor | |]; constructor; try exact Hm.
    + destruct Hs as [-> | ->]; reflexivity.
    + reflexivity.
Qed.

Lemma grammar_soft s u : in_grammar s u -> Forall soft s.
Proof.
  intro H. apply in_grammar_eq in H as (p & s1 & s2 & Hp & H1 & H2 & W & ->). apply Forall_app. split.
  - destruct Hp as [-> | ->]; repeat constructor.
  - destruct u as [g | c | c g]; cbn [render_body url_wf] in *.
    + exact (segment_soft false s1 g H1 W).
    + exact (segment_soft true s1 c H1 W).
    + destruct W as [Wc Wg]. apply Forall_app. split; [exact (segment_soft true s1 c H1 Wc)|].
      constructor; [reflexivity | exact (segment_soft false s2 g H2 Wg)].
Qed.

(* any string that contains, anywhere, a forbidden code point other than : # $ / @ is refused *)
Lemma url_rejects_forbidden s c : In c s -> hard_forbidden c = true -> url_parse s = None.
Proof.
  intros Hin Hc. apply url_rejects_outside. intros u G.
  apply grammar_soft in G. rewrite Forall_forall in G. specialize (G c Hin). unfold soft in G. congruence.
Qed.

(* a name may not contain ANY forbidden code point, the structural ones included: a stream name is a
   maximal run of allowed code points *)
Lemma wf_names_allowed u : url_wf u ->
  match u with
  | UStream g => forallb name_char (seg_name g) = true
  | UChannel c => forallb name_char (tl (seg_name c)) = true
  | UChannelStream c g => forallb name_char (tl (seg_name c)) = true /\ forallb name_char (seg_name g) = true
  end.
Proof.
  destruct u as [g | c | c g]; cbn [url_wf].
  - intro H. apply H.
  - intros [(nm & -> & _ & H) _]. exact H.
  - intros [[(nm & -> & _ & H) _] (_ & Hg & _)]. split; [exact H | exact Hg].
Qed.

Definition claim_id_ok (x : str) : Prop := (1 <= length x <= 40)%nat /\ forallb is_hex x = true.
Definition amount_ok (x : str) : Prop :=
  match x with [] => False | d0 :: ds => is_digit19 d0 = true /\ forallb is_digit ds = true end.
(* c :: x is a modifier introducer followed by text that is not a well-formed modifier body *)
Definition bad_modifier (c : N) (x : str) : Prop :=
  (sep_ok c /\ ~ claim_id_ok x) \/ (c = DOLLAR /\ ~ amount_ok x).

Lemma bad_modifier_stops c x : bad_modifier c x -> name_char c = false /\ c <> SLASH.
Proof. intros [[[-> | ->] _] | [-> _]]; split; (reflexivity || discriminate). Qed.

(* whatever the scanner makes of c :: x, it must stop inside x, and not at a '/': had it consumed all of x,
   x would have been a well-formed modifier body *)
Lemma parse_mod_bad c x m r : ~ In SLASH x -> bad_modifier c x -> parse_mod (c :: x) = Some (m, r) ->
  exists y t, r = y :: t /\ y <> SLASH.
Proof.
  intros Hx Hbad Pm. destruct (bad_modifier_stops c x Hbad) as [_ Hc].
  apply parse_mod_sound in Pm as (Hm & sep & Hs & E). destruct r as [|y t].
  - exfalso. rewrite app_nil_r in E. destruct m; cbn [render_mod] in E; [discriminate | |]; injection E as -> ->.
    + destruct Hbad as [[_ B] | [-> _]]; [exact (B Hm) | destruct Hs; discriminate].
    + destruct Hbad as [[[|] _] | [_ B]]; [discriminate | discriminate | exact (B Hm)].
  - exists y, t. split; [reflexivity|]. intros ->. apply Hx.
    destruct m; cbn [render_mod app] in E; injection E as E1 E2; [contradiction | |]; rewrite E2; apply in_elt.
Qed.

Lemma parse_body_bad b nm c x : nm <> [] -> forallb name_char nm = true -> ~ In SLASH x -> bad_modifier c x ->
  parse_body (opt_at b ++ nm ++ c :: x) = None.
Proof.
  intros Hne Hn Hx Hbad.
  assert (Hr : forall g r, parse_claim b (opt_at b ++ nm ++ c :: x) = Some (g, r) -> exists y t, r = y :: t /\ y <> SLASH).
  { intros g r. rewrite (parse_claim_eval b nm (c :: x) Hne Hn (proj1 (bad_modifier_stops c x Hbad))).
    destruct (parse_mod (c :: x)) as [[m r']|] eqn:Pm; [|discriminate]. intros [= _ <-]. exact (parse_mod_bad c x m r' Hx Hbad Pm). }
  pose proof (parse_claim_head b nm (c :: x) Hne Hn) as Hother. unfold parse_body.
  destruct b; cbn [negb] in Hother; rewrite Hother.
  - destruct (parse_claim true _) as [[g r]|]; [|reflexivity]. destruct (Hr g r eq_refl) as (y & t & -> & Hy).
    rewrite (proj2 (N.eqb_neq y SLASH) Hy). reflexivity.
  - destruct (parse_claim false _) as [[g r]|]; [|reflexivity]. destruct (Hr g r eq_refl) as (y & t & -> & _). reflexivity.
Qed.

Lemma url_parse_noslash b : ~ In SLASH b -> url_parse b = parse_body b.
Proof.
  intro H. rewrite url_parse_eq. destruct (strip_prefix scheme b) as [rest|] eqn:E; [|reflexivity].
  apply strip_prefix_spec in E as ->. exfalso. apply H, in_or_app. left. cbn. tauto.
Qed.

(* a stream or channel URL, with or without scheme, whose modifier text is malformed is refused *)
Lemma url_rejects_bad_modifier p pre nm c x :
  scheme_opt p -> (pre = [] \/ pre = [AT]) -> nm <> [] -> forallb name_char nm = true ->
  ~ In SLASH x -> bad_modifier c x ->
  url_parse (p ++ pre ++ nm ++ c :: x) = None.
Proof.
  intros Hp Hpre Hne Hn Hx Hbad.
  assert (Hb : parse_body (pre ++ nm ++ c :: x) = None).
  { destruct Hpre as [-> | ->]; [apply (parse_body_bad false) | apply (parse_body_bad true)]; assumption. }
  destruct Hp as [-> | ->]; [|rewrite url_parse_scheme; exact Hb].
  cbn [app]. rewrite url_parse_noslash; [exact Hb|]. rewrite !in_app_iff. intros [X | [X | [X | X]]].
  - destruct Hpre as [-> | ->]; [exact X | destruct X as [X | X]; [discriminate X | exact X]].
  - rewrite forallb_forall in Hn. discriminate (Hn _ X).
  - exact (proj2 (bad_modifier_stops c x Hbad) X).
  - exact (Hx X).
Qed.

Lemma bad_modifier_inhabited : bad_modifier 58 [103] /\ bad_modifier 36 [48].
Proof.
  split.
  - left. split; [left; reflexivity|]. intros [_ H]. discriminate H.
  - right. split; [reflexivity|]. intros [H _]. discriminate H.
Qed.
