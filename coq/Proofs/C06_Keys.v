(* Extended keys. xk_parse reads fixed ranges of a 78-byte string: cut such a string at the field boundaries
   (xk_split) and every range is the field that stands there (xk_layout), so that parsing is computed on the cut
   form (xk_parse_fields) and both directions against xk_serialize are case analyses. The string form adds
   Base58Check; the 4-byte child number is a big-endian numeral. *)
From Coq Require Import Arith NArith List Lia.
From Coq.Strings Require Import Byte.
From LV Require Import Lib.Bytes Lib.Lists Model.C06 Proofs.C06_Num Proofs.C06_Base58.
Import ListNotations.
Local Open Scope N_scope.

Lemma nth_skipn0 {A} n (l : list A) d : nth n l d = nth 0 (skipn n l) d.
Proof. revert l. induction n as [|n IH]; intros [|x l]; [reflexivity.. | apply IH]. Qed.

Lemma cut_at {A} n m (l : list A) : length l = (n + m)%nat -> exists a b, l = a ++ b /\ length a = n /\ length b = m.
Proof.
  intro H. exists (firstn n l), (skipn n l). rewrite firstn_skipn, firstn_length, skipn_length, H.
  repeat split; lia.
Qed.

Lemma slice_mid a b (x y z : bytes) : length x = a -> length y = (b - a)%nat -> slice a b (x ++ y ++ z) = y.
Proof. intros Ha Hb. unfold slice. rewrite <- Hb, <- Ha, skipn_app_exact. apply firstn_app_exact. Qed.

Lemma xk_layout (e v p nb cc key : bytes) d : e = v ++ [d] ++ p ++ nb ++ cc ++ key ->
  length v = 4%nat -> length p = 4%nat -> length nb = 4%nat -> length cc = 32%nat ->
  firstn 4 e = v /\ nth 4 e x00 = d /\ slice 5 9 e = p /\ slice 9 13 e = nb /\ slice 13 45 e = cc /\ skipn 45 e = key.
Proof.
  intros -> Hv Hp Hn Hc. repeat split.
  - apply firstn_app_exact'. symmetry. exact Hv.
  - rewrite <- Hv. apply nth_middle.
  - rewrite (app_assoc v). apply slice_mid; [rewrite app_length, Hv; reflexivity | exact Hp].
  - rewrite (app_assoc v), (app_assoc _ p). apply slice_mid; [rewrite !app_length, Hv, Hp; reflexivity | exact Hn].
  - rewrite (app_assoc v), (app_assoc _ p), (app_assoc _ nb).
    apply slice_mid; [rewrite !app_length, Hv, Hp, Hn; reflexivity | exact Hc].
  - rewrite (app_assoc v), (app_assoc _ p), (app_assoc _ nb), (app_assoc _ cc).
    apply skipn_app_exact'. rewrite !app_length, Hv, Hp, Hn, Hc. reflexivity.
Qed.

(* 78 = 4 + 1 + 4 + 4 + 32 + 33 *)
Lemma xk_split e : length e = 78%nat ->
  exists (v : bytes) d (p nb cc key : bytes), e = v ++ [d] ++ p ++ nb ++ cc ++ key /\
    length v = 4%nat /\ length p = 4%nat /\ length nb = 4%nat /\ length cc = 32%nat /\ length key = 33%nat.
Proof.
  intro El.
  destruct (cut_at 4 74 e El) as (v & r1 & -> & Hv & H1).
  destruct (cut_at 1 73 r1 H1) as (dd & r2 & -> & Hd & H2).
  destruct (cut_at 4 69 r2 H2) as (p & r3 & -> & Hp & H3).
  destruct (cut_at 4 65 r3 H3) as (nb & r4 & -> & Hn & H4).
  destruct (cut_at 32 33 r4 H4) as (cc & key & -> & Hc & Hk).
  destruct dd as [|d [|]]; try discriminate Hd.
  exists v, d, p, nb, cc, key. repeat split; assumption.
Qed.

Definition xk_wf (pub_valid : bytes -> bool) (k : xkey) : Prop :=
  xk_depth k < 256 /\ length (xk_pfp k) = 4%nat /\ xk_n k < 4294967296 /\ length (xk_cc k) = 32%nat /\
  match xk_kind k with
  | KPub => length (xk_key k) = 33%nat /\ is_23 (nth 0 (xk_key k) x00) = true /\ pub_valid (xk_key k) = true
  | KPriv => length (xk_key k) = 32%nat /\ priv_valid (xk_key k) = true
  end.

Section XKey.
  Variables ver_pub ver_priv : bytes.
  Variable pub_valid : bytes -> bool.
  Hypothesis ver_pub_len : length ver_pub = 4%nat.
  Hypothesis ver_priv_len : length ver_priv = 4%nat.
  Hypothesis ver_distinct : ver_pub <> ver_priv.

  Lemma xk_serialize_length k : xk_wf pub_valid k -> length (xk_serialize ver_pub ver_priv k) = 78%nat.
  Proof.
    intros (Hd & Hp & Hn & Hc & Hk). unfold xk_serialize.
    rewrite !app_length, be_encode_length, Hp, Hc. cbn [length].
    destruct (xk_kind k); destruct Hk as (Hk & _); cbn [length]; rewrite Hk;
      [rewrite ver_pub_len | rewrite ver_priv_len]; reflexivity.
  Qed.

  Lemma xk_parse_fields v d p nb cc key :
    length v = 4%nat -> length p = 4%nat -> length nb = 4%nat -> length cc = 32%nat -> length key = 33%nat ->
    xk_parse ver_pub ver_priv pub_valid (v ++ [d] ++ p ++ nb ++ cc ++ key) =
    if bytes_eqb v ver_pub then
      if negb (is_23 (nth 0 key x00)) then Err EPubPrefix
      else if pub_valid key then Ok (mk_xkey KPub (N_of_byte d) p (be_decode nb) cc key) else Err EBadKey
    else if bytes_eqb v ver_priv then
      if negb (byte_eqb (nth 0 key x00) x00) then Err EPrivPrefix
      else if priv_valid (skipn 1 key) then Ok (mk_xkey KPriv (N_of_byte d) p (be_decode nb) cc (skipn 1 key))
           else Err EBadKey
    else Err EVersion.
  Proof.
    intros Hv Hp Hn Hc Hk. unfold xk_parse. set (e := v ++ [d] ++ p ++ nb ++ cc ++ key).
    assert (El : length e = 78%nat) by (unfold e; rewrite !app_length, Hv, Hp, Hn, Hc, Hk; reflexivity).
    rewrite El, (nth_skipn0 45), <- (skipn_skipn 1 45).
    destruct (xk_layout e v p nb cc key d eq_refl Hv Hp Hn Hc) as (-> & -> & -> & -> & -> & ->). reflexivity.
  Qed.

  Theorem xk_parse_serialize k : xk_wf pub_valid k -> xk_parse ver_pub ver_priv pub_valid (xk_serialize ver_pub ver_priv k) = Ok k.
  Proof.
    intros (Hd & Hp & Hn & Hc & Hk). destruct k as [kd depth pfp n cc key].
    unfold xk_serialize. cbn [xk_kind xk_depth xk_pfp xk_n xk_cc xk_key] in *.
    destruct kd; [destruct Hk as (Hl & H23 & Hpv) | destruct Hk as (Hl & Hpv)];
      rewrite xk_parse_fields by (assumption || apply be_encode_length || (cbn [length]; congruence)).
    - rewrite bytes_eqb_refl, H23, Hpv, byte_of_N_small, be_decode_encode by assumption. reflexivity.
    - rewrite (proj2 (bytes_eqb_neq ver_priv ver_pub)) by congruence. cbn [nth skipn].
      rewrite bytes_eqb_refl, byte_eqb_refl, Hpv, byte_of_N_small, be_decode_encode by assumption. reflexivity.
  Qed.

  Lemma forget_parent_master k : xk_pfp k = zero4 -> xk_forget_parent k = k.
  Proof. destruct k. cbn. intros ->. reflexivity. Qed.

  (* what the implementation's key object keeps: everything but the parent fingerprint *)
  Theorem xk_from_extended_serialize k : xk_wf pub_valid k ->
    xk_from_extended ver_pub ver_priv pub_valid (xk_serialize ver_pub ver_priv k) = Ok (xk_forget_parent k).
  Proof. intro H. unfold xk_from_extended. rewrite xk_parse_serialize by assumption. reflexivity. Qed.

  Theorem xk_reserialize_master k : xk_wf pub_valid k -> xk_pfp k = zero4 ->
    res_map (xk_serialize ver_pub ver_priv) (xk_from_extended ver_pub ver_priv pub_valid (xk_serialize ver_pub ver_priv k))
    = Ok (xk_serialize ver_pub ver_priv k).
  Proof. intros H Hz. rewrite xk_from_extended_serialize, forget_parent_master by assumption. reflexivity. Qed.

  Theorem xk_parse_sound e k : xk_parse ver_pub ver_priv pub_valid e = Ok k ->
    xk_wf pub_valid k /\ xk_serialize ver_pub ver_priv k = e.
  Proof using ver_pub_len ver_priv_len ver_distinct.
    (* the three are not used: Props.C06_extkey_parse_sound is stated with them *)
    intro H. assert (El : length e = 78%nat).
    { unfold xk_parse in H. destruct (Nat.eqb_spec (length e) 78); [assumption | discriminate]. }
    destruct (xk_split e El) as (v & d & p & nb & cc & key & -> & Hv & Hp & Hn & Hc & Hk).
    rewrite xk_parse_fields in H by assumption.
    pose proof (N_of_byte_lt d) as Hd. pose proof (be_decode_lt nb) as Hlt. rewrite Hn in Hlt.
    unfold xk_wf, xk_serialize. destruct (bytes_eqb v ver_pub) eqn:Ep.
    - apply bytes_eqb_eq in Ep. destruct (is_23 _) eqn:E23; [|discriminate].
      destruct (pub_valid key) eqn:Epv; [|discriminate]. apply Ok_inj in H. subst k v.
      cbn [xk_kind xk_depth xk_pfp xk_n xk_cc xk_key]. rewrite byte_of_N_of_byte, be_encode_decode_len by assumption.
      repeat split; assumption.
    - destruct (bytes_eqb v ver_priv) eqn:Es; [|discriminate]. apply bytes_eqb_eq in Es.
      destruct (byte_eqb _ x00) eqn:E0; [|discriminate]. apply byte_eqb_eq in E0.
      destruct (priv_valid _) eqn:Epv; [|discriminate]. apply Ok_inj in H. subst k v.
      destruct key as [|k0 sk]; [discriminate|]. cbn [nth skipn length] in *. subst k0.
      cbn [xk_kind xk_depth xk_pfp xk_n xk_cc xk_key]. rewrite byte_of_N_of_byte, be_encode_decode_len by assumption.
      repeat split; try assumption. exact (eq_add_S _ _ Hk).
  Qed.

  Section XStr.
    Variable dsha : bytes -> bytes.
    Hypothesis ver_pub_nz : hd x00 ver_pub <> x00.
    Hypothesis ver_priv_nz : hd x00 ver_priv <> x00.

    Theorem xk_string_roundtrip k : xk_wf pub_valid k ->
      (4 <= length (dsha (xk_serialize ver_pub ver_priv k)))%nat ->
      exists t, xk_to_string ver_pub ver_priv dsha k = Ok t /\
                xk_of_string ver_pub ver_priv pub_valid dsha t = Ok (xk_forget_parent k).
    Proof.
      intros Hwf Hlen. unfold xk_to_string, xk_of_string.
      assert (Hhd : exists c r, xk_serialize ver_pub ver_priv k = c :: r /\ c <> x00).
      { unfold xk_serialize. pose proof ver_pub_len as Hvp. pose proof ver_priv_len as Hvs.
        destruct (xk_kind k).
        - destruct ver_pub as [|c r]; [discriminate|]. exists c. eexists. split; [reflexivity | exact ver_pub_nz].
        - destruct ver_priv as [|c r]; [discriminate|]. exists c. eexists. split; [reflexivity | exact ver_priv_nz]. }
      destruct Hhd as [c [r [E Hc]]].
      destruct (b58check_roundtrip dsha _ c r E Hc Hlen) as [t [He Hd]].
      exists t. split; [exact He|]. rewrite Hd. cbn [bind]. apply xk_from_extended_serialize. exact Hwf.
    Qed.

    Theorem xk_of_string_sound t k : xk_of_string ver_pub ver_priv pub_valid dsha t = Ok k ->
      exists k0, b58_decode_check dsha t = Ok (xk_serialize ver_pub ver_priv k0) /\ xk_wf pub_valid k0 /\
                 k = xk_forget_parent k0.
    Proof.
      unfold xk_of_string. destruct (b58_decode_check dsha t) as [e|]; [|discriminate]. cbn [bind].
      unfold xk_from_extended. destruct (xk_parse ver_pub ver_priv pub_valid e) as [k0|] eqn:E; [|discriminate].
      cbn [res_map]. intro H. injection H as <-. destruct (xk_parse_sound e k0 E) as [Hwf Hs].
      exists k0. rewrite Hs. auto.
    Qed.

    (* decode -> encode gives the string back when the string carries a zero parent fingerprint (master keys) *)
    Theorem xk_string_decode_encode_master t k : xk_of_string ver_pub ver_priv pub_valid dsha t = Ok k ->
      (exists c, In c t /\ c <> one_char) ->
      (forall k0, b58_decode_check dsha t = Ok (xk_serialize ver_pub ver_priv k0) -> xk_pfp k0 = zero4) ->
      xk_to_string ver_pub ver_priv dsha k = Ok t.
    Proof.
      intros H Hne Hz. destruct (xk_of_string_sound t k H) as [k0 [Hd [_ ->]]].
      rewrite forget_parent_master by exact (Hz k0 Hd). apply b58check_accepts_only_matching in Hd. unfold xk_to_string, b58_encode_check.
      apply b58_decode_encode; assumption.
    Qed.
  End XStr.
End XKey.

Lemma child_number_lt h i : i < HARDENED -> child_number h i < 256 ^ N.of_nat 4.
Proof. unfold child_number, HARDENED. change (256 ^ N.of_nat 4) with 4294967296. destruct h; lia. Qed.

Theorem index_bytes_injective h1 i1 h2 i2 : i1 < HARDENED -> i2 < HARDENED ->
  index_bytes h1 i1 = index_bytes h2 i2 -> h1 = h2 /\ i1 = i2.
Proof.
  intros H1 H2 E. unfold index_bytes in E.
  apply be_encode_inj in E; try (apply child_number_lt; assumption).
  unfold child_number, HARDENED in *. destruct h1, h2; split; try reflexivity; lia.
Qed.

Theorem index_bytes_decode h i : i < HARDENED ->
  length (index_bytes h i) = 4%nat /\ be_decode (index_bytes h i) = child_number h i /\
  (HARDENED <=? be_decode (index_bytes h i)) = h.
Proof.
  intro Hi. unfold index_bytes. rewrite be_encode_length, be_decode_encode by (apply child_number_lt; assumption).
  split; [reflexivity|]. split; [reflexivity|]. unfold child_number, HARDENED in *.
  destruct h; [apply N.leb_le | apply N.leb_gt]; lia.
Qed.

(* the HMAC message determines (serialised key, child number) *)
Theorem ckd_message_injective s1 s2 i1 i2 : length s1 = length s2 -> i1 < INDEX_LIMIT -> i2 < INDEX_LIMIT ->
  s1 ++ be_encode 4 i1 = s2 ++ be_encode 4 i2 -> s1 = s2 /\ i1 = i2.
Proof.
  intros Hl H1 H2 E. apply app_inv_len in E; [|exact Hl]. destruct E as [Es Ei].
  split; [exact Es|]. apply be_encode_inj in Ei; assumption.
Qed.
