(* The serialisation caches of a Transaction object: [coherent] (every filled cache holds what the
   present fields serialise to) is established by a reset or an add, kept by every operation but an
   in-place edit, and makes every read current. Transaction.sign (reset, anything interleaved, reset)
   therefore leaves a coherent object; without the trailing reset it does not. *)
From Coq Require Import NArith List Bool.
From LV Require Import Lib.Bytes Wire.Tx Model.C05 Model.C05Cache.
Import ListNotations.
Local Open Scope N_scope.

Section CacheProofs.
  Variable sha256 : bytes -> bytes.
  Notation coherent := (coherent sha256).
  Notation read_id := (read_id sha256).
  Notation cstep := (cstep sha256).
  Notation crun := (crun sha256).
  Notation idof := (fun b => rev (sha256 (sha256 b))).

  (* c_init, c_reset and c_add all produce such a state *)
  Lemma coherent_empty cur seg : coherent (mk_cstate cur None None None seg None).
  Proof. repeat split; left; reflexivity. Qed.

  Lemma outs_blob_coherent s : coherent s -> outs_blob s = ser_outs (tx_outs (c_cur s)).
  Proof. intros (_ & [Ho|Ho] & _); unfold outs_blob; rewrite Ho; reflexivity. Qed.

  Lemma fresh_raw_coherent s : coherent s -> fresh_raw s = serialize (c_cur s).
  Proof. intro C. unfold fresh_raw. rewrite outs_blob_coherent by exact C. reflexivity. Qed.

  Definition current (f : bytes -> bytes) (rd : cstate -> bytes * cstate) : Prop := forall s, coherent s ->
    fst (rd s) = f (serialize (c_cur s)) /\ coherent (snd (rd s)) /\ c_cur (snd (rd s)) = c_cur s.

  Lemma read_raw_current : current (fun b => b) read_raw.
  Proof.
    intros s C. unfold read_raw. rewrite fresh_raw_coherent, outs_blob_coherent by exact C.
    destruct C as ([R|R] & Co & Ci & Cs); rewrite R; repeat split; auto.
  Qed.

  Lemma read_sans_current : current (fun b => b) read_sans.
  Proof.
    intros s C. unfold read_sans. destruct (c_seg s); [|apply read_raw_current, C].
    rewrite fresh_raw_coherent, outs_blob_coherent by exact C.
    destruct C as (Cr & Co & Ci & [R|R]); rewrite R; repeat split; auto.
  Qed.

  Lemma read_id_current : current idof read_id.
  Proof.
    intros s C. unfold Model.C05Cache.read_id. pose proof C as (_ & _ & [I|I] & _); rewrite I.
    - destruct (read_sans_current s C) as (F & (Cr & Co & _ & Cs) & E).
      destruct (read_sans s) as [r s']. cbn [fst snd] in *. subst r. rewrite <- E.
      repeat split; auto.
    - split; [reflexivity | split; [exact C | reflexivity]].
  Qed.

  Lemma coherent_reads s : coherent s ->
    fst (read_raw s) = serialize (c_cur s) /\ fst (read_sans s) = serialize (c_cur s) /\
    fst (read_id s) = idof (serialize (c_cur s)).
  Proof.
    intro C. split; [apply read_raw_current, C|].
    split; [apply read_sans_current, C | apply read_id_current, C].
  Qed.

  Lemma current_step {f rd} s : current f rd -> coherent s -> coherent (fst (let (r, s') := rd s in (s', [r]))).
  Proof. intros H C. destruct (H s C) as (_ & C' & _). destruct (rd s). exact C'. Qed.

  Lemma cstep_coherent s op : is_edit op = false -> coherent s -> coherent (fst (cstep s op)).
  Proof.
    intros Hop C. destruct op; cbn [Model.C05Cache.cstep is_edit] in *; try discriminate.
    - apply coherent_empty.
    - apply coherent_empty.
    - exact (current_step s read_raw_current C).
    - exact (current_step s read_id_current C).
    - exact (current_step s read_sans_current C).
  Qed.

  Lemma crun_app s a b : crun s (a ++ b) =
    let (s1, o1) := crun s a in let (s2, o2) := crun s1 b in (s2, o1 ++ o2).
  Proof.
    revert s. induction a as [|op a IH]; intro s; cbn [app Model.C05Cache.crun].
    - destruct (crun s b). reflexivity.
    - destruct (cstep s op) as [s1 o1]. rewrite IH. destruct (crun s1 a) as [s2 o2].
      destruct (crun s2 b) as [s3 o3]. rewrite app_assoc. reflexivity.
  Qed.

  Lemma crun_cons_fst s op ops : fst (crun s (op :: ops)) = fst (crun (fst (cstep s op)) ops).
  Proof.
    cbn [Model.C05Cache.crun]. destruct (cstep s op) as [s1 o1]. cbn [fst]. destruct (crun s1 ops). reflexivity.
  Qed.

  Lemma crun_app_fst s a b : fst (crun s (a ++ b)) = fst (crun (fst (crun s a)) b).
  Proof. rewrite crun_app. destruct (crun s a) as [s1 o1]. cbn [fst]. destruct (crun s1 b). reflexivity. Qed.

  Lemma crun_coherent ops : forall s, forallb (fun op => negb (is_edit op)) ops = true ->
    coherent s -> coherent (fst (crun s ops)).
  Proof.
    induction ops as [|op ops IH]; intros s H C; [exact C|].
    cbn [forallb] in H. apply andb_true_iff in H as [H1 H2]. rewrite crun_cons_fst.
    apply IH; [exact H2|]. apply cstep_coherent; [apply negb_true_iff, H1 | exact C].
  Qed.

  Lemma crun_restores s before op after : (op = OReset \/ exists t', op = OAdd t') ->
    forallb (fun op => negb (is_edit op)) after = true ->
    coherent (fst (crun s (before ++ op :: after))).
  Proof.
    intros Hop H. rewrite crun_app_fst, crun_cons_fst. apply crun_coherent; [exact H|].
    destruct Hop as [->|[t' ->]]; apply coherent_empty.
  Qed.

  Lemma coherent_raw_id s : coherent s ->
    fst (read_raw s) = serialize (c_cur s) /\ fst (read_id s) = idof (serialize (c_cur s)).
  Proof. intro C. destruct (coherent_reads s C) as (R & _ & I). exact (conj R I). Qed.
End CacheProofs.

(* [Model.C05.sample_tx] with another locktime *)
Definition sample_tx2 : tx := mk_tx 2 [sample_in; sample_in] [sample_out] 7.

(* without the trailing reset an interleaved read leaves the pre-signature serialisation cached *)
Lemma sign_without_final_reset_refuted :
  let s' := fst (crun (fun b => b) (c_init sample_tx) [OReset; OReadId; OEdit sample_tx2]) in
  fst (read_raw s') <> serialize (c_cur s').
Proof. vm_compute. discriminate. Qed.

(* Transaction._add before fix 80cfc1a: when the iterable raises midway the items already appended
   change the fields but no reset happens -- an edit without a reset after a read: the next read is
   stale. (The model's OAdd is the repaired behaviour: fields change, then reset.) *)
Lemma partial_add_without_reset_refuted :
  let s' := fst (crun (fun b => b) (c_init sample_tx) [OReadRaw; OEdit sample_tx2]) in
  fst (read_raw s') <> serialize (c_cur s') /\
  let s'' := fst (crun (fun b => b) (c_init sample_tx) [OReadRaw; OAdd sample_tx2]) in
  fst (read_raw s'') = serialize (c_cur s'').
Proof. split; vm_compute; [discriminate | reflexivity]. Qed.

(* a parsed segwit object whose id was read, then changed WITHOUT clearing _raw_sans_segwit (an edit that
   keeps the caches, then only raw/id cleared is not expressible; the nearest history: id read, edit, no reset)
   reads the old stripped bytes *)
Lemma parsed_segwit_stale_without_reset_refuted :
  let s' := fst (crun (fun b => b) (c_parsed sample_tx (serialize sample_tx) true) [OReadId; OEdit sample_tx2]) in
  fst (read_sans s') <> serialize (c_cur s') /\
  let s'' := fst (crun (fun b => b) (c_parsed sample_tx (serialize sample_tx) true) [OReadId; OAdd sample_tx2]) in
  fst (read_sans s'') = serialize (c_cur s'') /\ fst (read_id (fun b => b) s'') = rev (serialize (c_cur s'')).
Proof. split; [|split]; vm_compute; [discriminate | reflexivity | reflexivity]. Qed.
