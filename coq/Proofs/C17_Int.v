(* Python's int() and the strict grammar of fix 4abdbc1 read back what '%d' prints (dec_of_N / dec_of_Z of
   Lib.Decimal): on a string of digits int_body is Lib.Decimal's dec_acc with a digit counter, and the counter stays
   within Python's limit of 4300 digits. *)
From Coq Require Import NArith ZArith List Bool Lia.
From LV Require Import Lib.Bytes Lib.Decimal Model.C17.
Import ListNotations.
Local Open Scope N_scope.

Lemma isb_c n m : n < 256 -> isb m (byte_of_N n) = (n =? m).
Proof. intro H. unfold isb. rewrite byte_of_N_small by exact H. reflexivity. Qed.

Lemma isb_true n b : isb n b = true -> b = byte_of_N n.
Proof. unfold isb. intro E. apply N.eqb_eq in E. rewrite <- (byte_of_N_of_byte b), E. reflexivity. Qed.

Lemma blen_app a b : blen (a ++ b) = blen a + blen b.
Proof. unfold blen. rewrite app_length. lia. Qed.

Lemma blen_cons x a : blen (x :: a) = 1 + blen a.
Proof. unfold blen. cbn [length]. lia. Qed.

Lemma N_of_digit_byte d : d < 10 -> N_of_byte (digit_byte d) = 48 + d.
Proof. intro H. unfold digit_byte. apply byte_of_N_small. lia. Qed.

Lemma is_digit_range b : is_digit b = true -> 48 <= N_of_byte b <= 57.
Proof. exact (Decimal.is_digit_range b). Qed.

Lemma isb_digit m b : is_digit b = true -> (m < 48 \/ 57 < m) -> isb m b = false.
Proof. intros H Hm. apply is_digit_range in H. unfold isb. apply N.eqb_neq. lia. Qed.

Lemma is_ws_digit b : is_digit b = true -> is_ws b = false.
Proof.
  intro H. apply is_digit_range in H. unfold is_ws. apply orb_false_iff. split.
  - apply andb_false_iff. right. apply N.leb_gt. lia.
  - apply N.eqb_neq. lia.
Qed.

Lemma N_of_minus : N_of_byte minus_byte = 45.
Proof. apply byte_of_N_small. reflexivity. Qed.

Lemma is_ws_minus : is_ws minus_byte = false.
Proof. unfold is_ws. rewrite N_of_minus. reflexivity. Qed.

Lemma is_digit_minus : is_digit minus_byte = false.
Proof. exact minus_not_digit. Qed.

(* for 'e', ':' and '.' *)
Lemma dec_of_N_no c n : c < 48 \/ 57 < c -> Forall (fun b => isb c b = false) (dec_of_N n).
Proof. intro Hc. eapply Forall_impl; [|apply dec_of_N_Forall]. intros b Hb. apply isb_digit; assumption. Qed.

Lemma dec_of_N_no_ws n : Forall (fun b => is_ws b = false) (dec_of_N n).
Proof. eapply Forall_impl; [|apply dec_of_N_Forall]. apply is_ws_digit. Qed.

Lemma value_upper ds : Forall (fun d => d < 10) ds -> value ds < 10 ^ N.of_nat (length ds).
Proof. exact (value_lt_pow ds). Qed.

Lemma dec_of_N_blen n k : n < 10 ^ k -> 1 <= k -> blen (dec_of_N n) <= k.
Proof.
  intros Hn Hk. rewrite <- (N2Nat.id k) in Hn. unfold blen.
  pose proof (dec_of_N_length n (N.to_nat k) Hn). lia.
Qed.

Definition NBOUND : N := 10 ^ 4300.
Definition int_ok (z : Z) : Prop := (Z.abs z < Z.of_N NBOUND)%Z.
Definition small (s : bytes) : Prop := blen s < NBOUND.

(* the bound is Python's digit limit; proofs use it only through this equation *)
Lemma NBOUND_pow : NBOUND = 10 ^ MAX_STR_DIGITS.
Proof. reflexivity. Qed.
Global Opaque NBOUND.

Lemma NBOUND_big : 65536 < NBOUND.
Proof. rewrite NBOUND_pow. apply N.lt_le_trans with (10 ^ 5); [reflexivity|]. apply N.pow_le_mono_r; discriminate. Qed.

Lemma strip_ws_id s : Forall (fun b => is_ws b = false) s -> rstrip_ws (lstrip_ws s) = s.
Proof.
  intro H. replace (lstrip_ws s) with s by (destruct H as [|b r Hb]; cbn; [|rewrite Hb]; reflexivity).
  induction H as [|b r Hb Hr IH]; [reflexivity|].
  cbn [rstrip_ws]. rewrite IH. destruct r; [rewrite Hb|]; reflexivity.
Qed.

Lemma int_body_dec_acc s : forall acc cnt prev, Forall (fun b => is_digit b = true) s ->
  (s = [] -> prev = true) -> cnt + blen s <= MAX_STR_DIGITS ->
  int_body s acc cnt prev = option_map (fun v => (v, cnt + blen s)) (dec_acc s acc).
Proof.
  induction s as [|b r IH]; intros acc cnt prev Hd Hp Hc.
  - rewrite (Hp eq_refl). cbn. rewrite N.add_0_r. reflexivity.
  - inversion Hd as [|? ? Hb Hr]; subst. cbn [int_body dec_acc]. rewrite Hb.
    rewrite blen_cons in *.
    replace (MAX_STR_DIGITS <? cnt + 1) with false by (symmetry; apply N.ltb_ge; lia).
    rewrite IH by (exact Hr || discriminate || lia). rewrite (N.mul_comm 10), N.add_assoc. reflexivity.
Qed.

Lemma int_body_dec_of_N n : n < NBOUND ->
  int_body (dec_of_N n) 0 0 false = Some (n, blen (dec_of_N n)).
Proof.
  intro Hn. rewrite int_body_dec_acc.
  - pose proof (N_of_dec_of_N n) as H. unfold N_of_dec in H.
    destruct (dec_of_N n); [discriminate|]. rewrite H. reflexivity.
  - apply dec_of_N_Forall.
  - intro E. destruct (dec_of_N_nonempty n E).
  - apply dec_of_N_blen; [rewrite <- NBOUND_pow; exact Hn | discriminate].
Qed.

Lemma py_int_dec_of_N n : n < NBOUND -> py_int_of_bytes (dec_of_N n) = Some (Z.of_N n).
Proof.
  intro Hn. unfold py_int_of_bytes. rewrite strip_ws_id by apply dec_of_N_no_ws.
  destruct (dec_of_N_head n) as (b & r & E & Hb & _).
  rewrite E, (isb_digit 45 b Hb), (isb_digit 43 b Hb) by lia. cbn [fst snd].
  rewrite <- E, int_body_dec_of_N by exact Hn. reflexivity.
Qed.

Lemma py_int_dec_of_Z z : int_ok z -> py_int_of_bytes (dec_of_Z z) = Some z.
Proof.
  intro Hz. unfold int_ok in Hz.
  destruct z as [|p|p]; [apply (py_int_dec_of_N 0); lia | apply (py_int_dec_of_N (Npos p)); lia |].
  unfold py_int_of_bytes. cbn [dec_of_Z].
  rewrite strip_ws_id by (constructor; [apply is_ws_minus | apply dec_of_N_no_ws]).
  unfold isb at 1. rewrite N_of_minus. cbn [N.eqb Pos.eqb fst snd].
  rewrite int_body_dec_of_N by lia. reflexivity.
Qed.

Lemma isb48_not_zero b : b <> digit_byte 0 -> isb 48 b = false.
Proof. intro H. destruct (isb 48 b) eqn:E; [destruct (H (isb_true _ _ E)) | reflexivity]. Qed.

Lemma len_shape_dec_of_N n : len_shape (dec_of_N n) = true.
Proof.
  pose proof (dec_of_N_all_digits n) as Hd.
  destruct (N.eq_dec n 0) as [->|Hn].
  - rewrite dec_of_N_0. cbn [len_shape forallb]. rewrite is_digit_digit_byte by lia.
    cbn [andb]. apply orb_true_r.
  - pose proof (dec_of_N_no_leading_zero n ltac:(lia)) as Hz.
    destruct (dec_of_N n) as [|b r] eqn:E; [exfalso; eapply dec_of_N_nonempty; exact E|].
    cbn [hd] in Hz. cbn [forallb] in Hd. apply andb_true_iff in Hd as [Hb Hr].
    cbn [len_shape]. rewrite Hb, Hr, (isb48_not_zero b Hz). reflexivity.
Qed.

Lemma strict_len_dec_of_N n : n < NBOUND -> strict_len (dec_of_N n) = Some (Z.of_N n).
Proof. intro H. unfold strict_len. rewrite len_shape_dec_of_N. apply py_int_dec_of_N. exact H. Qed.

Lemma int_shape_dec_of_Z z : int_shape (dec_of_Z z) = true.
Proof.
  assert (Hpos : forall n, int_shape (dec_of_N n) = true).
  { intro n. pose proof (len_shape_dec_of_N n) as Hs. destruct (dec_of_N_head n) as (b & r & E & Hb & _).
    rewrite E in *. cbn [int_shape]. rewrite (isb_digit 45 b Hb) by lia. exact Hs. }
  destruct z as [|p|p]; cbn [dec_of_Z]; try apply Hpos.
  cbn [int_shape]. unfold isb at 1. rewrite N_of_minus. cbn [N.eqb Pos.eqb].
  pose proof (len_shape_dec_of_N (Npos p)) as Hs.
  pose proof (dec_of_N_no_leading_zero (Npos p) ltac:(lia)) as Hz.
  destruct (dec_of_N (Npos p)) as [|c r] eqn:E; [discriminate|]. cbn [hd] in Hz.
  rewrite (isb48_not_zero c Hz). exact Hs.
Qed.

Lemma strict_int_dec_of_Z z : int_ok z -> strict_int (dec_of_Z z) = Some z.
Proof. intro H. unfold strict_int. rewrite int_shape_dec_of_Z. apply py_int_dec_of_Z. exact H. Qed.
