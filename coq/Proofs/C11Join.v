(* _join_buckets since fix fa89d19 ([rp = true]: the neighbours of an emptied middle bucket meet at its midpoint) keeps
   the contacts, the chain and the bucket bounds, and stops only when no bucket among several is empty ([joined]);
   removing or adding contacts in one bucket is a splice of the table ([wf_splice]). *)
From Coq Require Import NArith List Lia Permutation Arith.
From LV Require Import Lib.Lists Model.C11 Model.C11Spec Proofs.C11Base.
Import ListNotations.
Local Open Scope N_scope.

Lemma is_empty_nil b : is_empty b = true -> bpeers b = [].
Proof. unfold is_empty. destruct (bpeers b); [reflexivity | discriminate]. Qed.

Lemma is_empty_false b : is_empty b = false -> bpeers b <> [].
Proof. unfold is_empty. intros E N. rewrite N in E. discriminate. Qed.

Lemma bucket_ok_widen own b lo hi :
  bucket_ok own b -> lo <= blo b -> bhi b <= hi -> bucket_ok own (mkB lo hi (bpeers b)).
Proof.
  intros (R & L) H1 H2. split; cbn; [| exact L].
  eapply Forall_impl; [| exact R]. cbn. intros. lia.
Qed.

Lemma join_scan_cons2 rp a b rest :
  join_scan rp (a :: b :: rest) =
  if is_empty b then
    match rest with
    | c :: rest' =>
        let mid := (bhi b - blo b) / 2 + blo b in
        Some (set_hi a (if rp then mid else mid - 1) :: set_lo c mid :: rest')
    | [] => Some [set_hi a (bhi b)]
    end
  else match join_scan rp (b :: rest) with
       | Some r => Some (a :: r)
       | None => None
       end.
Proof. reflexivity. Qed.

Definition joined (t : table) : Prop := (length t <= 1)%nat \/ Forall (fun b => bpeers b <> []) t.

Lemma join_scan_spec l :
  match join_scan true l with
  | Some l' =>
      contacts l' = contacts l /\ S (length l') = length l /\
      forall own lo hi, chain lo l hi -> Forall (bucket_ok own) l -> chain lo l' hi /\ Forall (bucket_ok own) l'
  | None => Forall (fun b => bpeers b <> []) (tl l)
  end.
Proof.
  induction l as [| a l IH]; [constructor |].
  destruct l as [| b rest]; [constructor |].
  rewrite join_scan_cons2. destruct (is_empty b) eqn:E.
  - apply is_empty_nil in E.
    destruct rest as [| c rest']; cbv zeta; unfold set_hi, set_lo;
      (split; [rewrite !contacts_cons; cbn [bpeers]; rewrite E; reflexivity |]);
      (split; [reflexivity |]); cbn [chain blo bhi]; intros own lo hi C OK; rewrite !Forall_cons_iff in OK.
    + destruct C as (C1 & C2 & C3 & C4 & C5). destruct OK as (OKa & _). split; [repeat split; lia |].
      constructor; [apply bucket_ok_widen; [exact OKa | lia | lia] | constructor].
    + destruct C as (C1 & C2 & C3 & C4 & C5 & C6 & C7). destruct OK as (OKa & _ & OKc & OK).
      (* the midpoint lies within the range of the bucket that goes *)
      assert (Hm : blo b <= (bhi b - blo b) / 2 + blo b <= bhi b) by (destruct (half_bounds (bhi b - blo b)) as (h & -> & Hh); lia).
      revert Hm. generalize ((bhi b - blo b) / 2 + blo b). intros mid Hm.
      split; [repeat split; try lia; exact C7 |].
      constructor; [apply bucket_ok_widen; [exact OKa | lia | lia] |].
      constructor; [apply bucket_ok_widen; [exact OKc | lia | lia] | exact OK].
  - destruct (join_scan true (b :: rest)) as [r |].
    + destruct IH as (I1 & I2 & I3).
      split; [rewrite !contacts_cons, I1; reflexivity |]. split; [cbn [length] in *; lia |].
      cbn [chain]. intros own lo hi (C1 & C2 & C3) OK. apply Forall_cons_iff in OK. destruct OK as (OKa & OK).
      destruct (I3 own _ _ C3 OK). auto.
    + constructor; [apply is_empty_false; exact E | exact IH].
Qed.

Lemma join_step_spec t :
  match join_step true t with
  | Some t' =>
      contacts t' = contacts t /\ S (length t') = length t /\
      forall own lo hi, chain lo t hi -> Forall (bucket_ok own) t -> chain lo t' hi /\ Forall (bucket_ok own) t'
  | None => joined t
  end.
Proof.
  destruct t as [| a [| b rest]]; [left; apply Nat.le_0_l | left; apply le_n |].
  cbn [join_step]. destruct (is_empty a) eqn:E.
  - apply is_empty_nil in E. unfold set_lo.
    split; [rewrite !contacts_cons; cbn [bpeers]; rewrite E; reflexivity |]. split; [reflexivity |].
    cbn [chain blo bhi]. intros own lo hi (C1 & C2 & C3 & C4 & C5) OK. rewrite !Forall_cons_iff in OK.
    destruct OK as (_ & OKb & OK). split; [repeat split; try lia; exact C5 |].
    constructor; [apply bucket_ok_widen; [exact OKb | lia | lia] | exact OK].
  - pose proof (join_scan_spec (a :: b :: rest)) as H.
    destruct (join_scan true (a :: b :: rest)); [exact H |].
    right. constructor; [apply is_empty_false; exact E | exact H].
Qed.

(* every round shortens the table, so [length t] rounds leave nothing to join *)
Lemma join_n_spec n : forall t,
  contacts (join_n true n t) = contacts t /\
  ((length t <= n)%nat -> joined (join_n true n t)) /\
  forall own lo hi, chain lo t hi -> Forall (bucket_ok own) t ->
    chain lo (join_n true n t) hi /\ Forall (bucket_ok own) (join_n true n t).
Proof.
  induction n as [| n IH]; intros t; cbn [join_n].
  - split; [reflexivity |]. split; [intros L; left; lia | auto].
  - pose proof (join_step_spec t) as H. destruct (join_step true t) as [t' |]; [| auto].
    destruct H as (E & L & P). destruct (IH t') as (E' & D' & P').
    split; [rewrite E'; exact E |]. split; [intros Ln; apply D'; lia |].
    intros own lo hi C OK. destruct (P own lo hi C OK). auto.
Qed.

Lemma join_contacts t : contacts (join true t) = contacts t.
Proof. apply join_n_spec. Qed.

Lemma join_wf own t : WF own t -> WF own (join true t).
Proof.
  intros [C OK I Ky]. destruct (join_n_spec (length t) t) as (_ & _ & P). destruct (P own 0 M C OK).
  constructor; try assumption; rewrite join_contacts; assumption.
Qed.

Lemma joined_join t : joined (join true t).
Proof. apply join_n_spec, le_n. Qed.

Lemma joined_replace pre b b' post : joined (pre ++ b :: post) -> bpeers b' <> [] -> joined (pre ++ b' :: post).
Proof. unfold joined. rewrite !app_length, !Forall_mid. cbn [length]. tauto. Qed.

Lemma wf_bucket own pre b post : WF own (pre ++ b :: post) -> bucket_ok own b.
Proof. intros [_ OK _ _]. apply Forall_mid in OK. apply OK. Qed.

(* Every bucket operation rewrites a segment of the table (a bucket loses or gains contacts, is cut in two): the
   table stays well-formed when the new segment spans the same range with buckets that are in order, and no id or
   endpoint comes to occur twice. *)
Lemma wf_splice own pre mid mid' post :
  WF own (pre ++ mid ++ post) ->
  (forall lo hi, chain lo mid hi -> chain lo mid' hi) -> Forall (bucket_ok own) mid' ->
  NoDup (map pid (contacts (pre ++ mid' ++ post))) -> NoDup (map pkey (contacts (pre ++ mid' ++ post))) ->
  WF own (pre ++ mid' ++ post).
Proof.
  intros [C OK _ _] Hc Hok I Ky. constructor; [| | exact I | exact Ky].
  - apply chain_app in C. destruct C as (m1 & C1 & C). apply chain_app in C. destruct C as (m2 & C2 & C3).
    apply chain_app. exists m1. split; [exact C1 |]. apply chain_app. exists m2. auto.
  - rewrite !Forall_app in *. tauto.
Qed.

Lemma wf_sub own pre b post l :
  WF own (pre ++ b :: post) -> sub l (bpeers b) -> WF own (pre ++ mkB (blo b) (bhi b) l :: post).
Proof.
  intros W S. destruct (wf_bucket own pre b post W) as (R & L).
  pose proof (contacts_mid_sub pre b (mkB (blo b) (bhi b) l) post S) as SS.
  apply (wf_splice own pre [b] [_] post W).
  - auto.
  - constructor; [| constructor]. split; [eapply sub_Forall; eauto | apply sub_length in S; cbn [bpeers]; lia].
  - eapply NoDup_map_sub; [exact SS | apply W].
  - eapply NoDup_map_sub; [exact SS | apply W].
Qed.

Lemma remove_peer_spec own t q :
  WF own t -> dist own (pid q) < M ->
  exists t', remove_peer true own t q = Some t' /\ WF own t' /\
             (forall x, In x (contacts t') <-> In x (contacts t) /\ x <> q) /\ (joined t -> joined t').
Proof.
  intros W D. pose proof W as [C OK I _]. unfold remove_peer.
  destruct (find_bucket_chain own (pid q) 0 t M C) as (pre & b & post & -> & R & ->); [lia |].
  destruct (existsb (peer_eqb q) (bpeers b)) eqn:Ex.
  - destruct (remove_first_perm _ _ Ex) as (x & Fx & P). apply peer_eqb_spec in Fx. subst x.
    apply (contacts_mid_perm pre b (bucket_remove b q) post [q]) in P.
    eexists. split; [reflexivity |]. split; [apply join_wf, wf_sub; [exact W | apply remove_first_sub] |].
    split; [| intros _; apply joined_join].
    (* the contacts are distinct: [q] occurred once *)
    apply NoDup_map_inv in I. eapply Permutation_NoDup in I; [| exact P]. apply NoDup_cons_iff in I.
    intros x. rewrite join_contacts. split.
    + intros Hx. split; [eapply Permutation_in; [symmetry; exact P | right; exact Hx] | intros ->; tauto].
    + intros (Hx & Nx). eapply Permutation_in in Hx; [| exact P]. destruct Hx as [<- | Hx]; [congruence | exact Hx].
  - eexists. split; [reflexivity |]. split; [exact W |]. split; [| auto].
    intros x. split; [| tauto]. intros Hx. split; [exact Hx |]. intros ->.
    apply (in_bucket_at own 0 pre b post M q C OK R), existsb_peer_eqb in Hx. congruence.
Qed.
