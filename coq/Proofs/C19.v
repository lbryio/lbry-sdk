(* Three facts carry the file.  A pass removes from the state exactly the hashes it lists
   ([clean_pass_removes]), so what holds of the state after a pass is a fact about [remove_hashes].  The list is
   [pass_rows], and [pass_rows_spec] says how it sits in the candidate list and in the pass's own accounting.  The
   candidate list is, up to order, the rows [blob_rows] that each blob contributes ([cands_perm]), and the usage of a
   class is two sums over the blob table ([used_mb_terms]): a removal filters both. *)
From Coq Require Import NArith ZArith List Bool Lia Permutation.
From LV Require Import Lib.Lists Lib.Isort Model.C19.
Import ListNotations.
Local Open Scope N_scope.

Lemma mem_In h l : mem h l = true <-> In h l.
Proof. apply existsb_eqb, N.eqb_eq. Qed.

Lemma mem_false h l : mem h l = false <-> ~ In h l.
Proof. apply existsb_eqb_false, N.eqb_eq. Qed.

Lemma mb_mono a b : a <= b -> mb a <= mb b.
Proof. intro H. apply N.div_le_mono; [discriminate | exact H]. Qed.

Lemma mb_scale k l : k * mb l <= mb (l * k).
Proof. unfold mb. rewrite (N.mul_comm l k). apply N.div_mul_le. discriminate. Qed.

Lemma mb_small l : l < MiB -> mb l = 0.
Proof. apply N.div_small. Qed.

Lemma mb_superadd a b : mb a + mb b <= mb (a + b).
Proof.
  apply N.div_le_lower_bound; [discriminate|]. rewrite N.mul_add_distr_l.
  apply N.add_le_mono; apply N.mul_div_le; discriminate.
Qed.

Lemma mb_upper l : l < (mb l + 1) * MiB.
Proof. rewrite N.add_1_r, N.mul_comm. apply N.mul_succ_div_gt. discriminate. Qed.

Lemma mb_sub a b : b <= a -> mb (a - b) + mb b <= mb a.
Proof. intro H. pose proof (mb_superadd (a - b) b) as S. rewrite (N.sub_add b a H) in S. exact S. Qed.

Lemma nsum_cons x l : nsum (x :: l) = x + nsum l.
Proof. reflexivity. Qed.

Lemma nsum_app l1 l2 : nsum (l1 ++ l2) = nsum l1 + nsum l2.
Proof. induction l1 as [|x t IH]; simpl; [reflexivity | rewrite IH; lia]. Qed.

Lemma nsum_map_perm {A} (f : A -> N) l l' : Permutation l l' -> nsum (map f l) = nsum (map f l').
Proof. induction 1; simpl; lia. Qed.

Lemma nsum_map_le {A} (f g : A -> N) l : (forall x, In x l -> f x <= g x) -> nsum (map f l) <= nsum (map g l).
Proof.
  induction l as [|x t IH]; intro H; simpl; [lia|].
  pose proof (H x (or_introl eq_refl)). pose proof (IH (fun y Hy => H y (or_intror Hy))). lia.
Qed.

Lemma nsum_zero {A} (f : A -> N) l : (forall x, In x l -> f x = 0) -> nsum (map f l) = 0.
Proof.
  induction l as [|x t IH]; intro H; simpl; [reflexivity|].
  rewrite (H x (or_introl eq_refl)), (IH (fun y Hy => H y (or_intror Hy))). reflexivity.
Qed.

Lemma nsum_flat_map {A B} (g : B -> N) (f : A -> list B) l :
  nsum (map g (flat_map f l)) = nsum (map (fun a => nsum (map g (f a))) l).
Proof. induction l as [|x t IH]; simpl; [reflexivity|]. rewrite map_app, nsum_app, IH. reflexivity. Qed.

Lemma nsum_map_repeat {A} (g : A -> N) x k : nsum (map g (repeat x k)) = N.of_nat k * g x.
Proof.
  induction k as [|k IH]; [reflexivity|]. cbn [repeat map]. rewrite nsum_cons, IH. lia.
Qed.

Lemma nsum_filter_split {A} (p : A -> bool) (f : A -> N) l :
  nsum (map f l) = nsum (map f (filter p l)) + nsum (map f (filter (fun x => negb (p x)) l)).
Proof. induction l as [|x t IH]; simpl; [reflexivity|]. rewrite IH. destruct (p x); simpl; lia. Qed.

Lemma nsum_filter_le {A} (f : A -> N) (p : A -> bool) l : nsum (map f (filter p l)) <= nsum (map f l).
Proof. rewrite (nsum_filter_split p f l). lia. Qed.

Lemma nsum_incl {A} (f : A -> N) l : forall l', NoDup l -> incl l l' -> nsum (map f l) <= nsum (map f l').
Proof.
  induction l as [|a t IH]; intros l' Hn Hi; [apply N.le_0_l|]. inversion Hn as [|? ? Ha Ht]; subst.
  destruct (in_split a l' (Hi a (or_introl eq_refl))) as (l1 & l2 & ->).
  assert (Hi' : incl t (l1 ++ l2)).
  { intros x Hx. specialize (Hi x (or_intror Hx)). rewrite in_app_iff in *. destruct Hi as [|[<-|]]; tauto. }
  specialize (IH _ Ht Hi'). rewrite !map_app, !nsum_app in *. cbn [map]. rewrite !nsum_cons. lia.
Qed.

(* megabytes are truncated per term on the left and once on the right *)
Lemma credit_le_mb_filter {A} (p : A -> bool) (term credit : A -> N) l :
  (forall x, In x l -> credit x <= if p x then mb (term x) else 0) ->
  nsum (map credit l) <= mb (nsum (map term (filter p l))).
Proof.
  induction l as [|x t IH]; intro H; [apply N.le_0_l|].
  pose proof (H x (or_introl eq_refl)) as Hx. specialize (IH (fun y Hy => H y (or_intror Hy))).
  cbn [map filter]. rewrite nsum_cons. destruct (p x); [|lia].
  cbn [map]. rewrite nsum_cons. pose proof (mb_superadd (term x) (nsum (map term (filter p t)))). lia.
Qed.

Lemma filter_length_pos {A} (p : A -> bool) l : (length (filter p l) <> 0)%nat -> exists x, In x l /\ p x = true.
Proof.
  destruct (filter p l) as [|x t] eqn:E; [intros []; reflexivity | intros _].
  exists x. apply filter_In. rewrite E. left. reflexivity.
Qed.

Lemma list_sum_pos {A} (f : A -> nat) l : (list_sum (map f l) <> 0)%nat -> exists x, In x l /\ (f x <> 0)%nat.
Proof.
  induction l as [|x t IH]; simpl; [congruence|]. intro H.
  destruct (Nat.eq_dec (f x) 0) as [E|E]; [|exists x; auto].
  destruct IH as [y [Hy Hf]]; [lia | exists y; auto].
Qed.

Lemma in_repeat {A} (x y : A) k : In y (repeat x k) -> y = x /\ (k <> 0)%nat.
Proof. intro H. split; [eapply repeat_spec; exact H|]. destruct k; [destruct H | discriminate]. Qed.

Lemma nil_of_no_member {A} (l : list A) : (forall x, ~ In x l) -> l = [].
Proof. destruct l as [|x t]; [reflexivity|]. intro H. destruct (H x). left. reflexivity. Qed.

Lemma flat_map_nil {A B} (f : A -> list B) l : (forall x, In x l -> f x = []) -> flat_map f l = [].
Proof.
  induction l as [|x t IH]; intro H; simpl; [reflexivity|].
  rewrite (H x) by (left; reflexivity). simpl. apply IH. intros y Hy. apply H. right. exact Hy.
Qed.

Lemma flat_map_app_perm {A B} (f g : A -> list B) l :
  Permutation (flat_map f l ++ flat_map g l) (flat_map (fun x => f x ++ g x) l).
Proof.
  induction l as [|x t IH]; [apply perm_nil|]. cbn [flat_map]. rewrite <- !app_assoc. apply Permutation_app_head.
  rewrite <- IH. apply Permutation_app_swap_app.
Qed.

Lemma count_le1 {A} (f : A -> N) (v : N) l : NoDup (map f l) -> (length (filter (fun x => N.eqb (f x) v) l) <= 1)%nat.
Proof.
  induction l as [|a t IH]; simpl; intro H; [lia|].
  inversion H as [|? ? Hnot Hn]; subst. specialize (IH Hn).
  destruct (f a =? v) eqn:E; simpl; [|lia]. apply N.eqb_eq in E.
  destruct (Nat.eq_dec (length (filter (fun x => f x =? v) t)) 0) as [Z|Z]; [lia|].
  apply filter_length_pos in Z as [y [Hy Ey]]. apply N.eqb_eq in Ey. destruct Hnot. rewrite E, <- Ey. apply in_map. exact Hy.
Qed.

Lemma isort_perm le l : Permutation (isort le l) l.
Proof. exact (sort_perm le (insert le) (isort le) (fun _ => eq_refl) (fun _ _ _ => eq_refl) eq_refl (fun _ _ => eq_refl) l). Qed.

(* the candidate rows that one blob row contributes; they depend on the other tables only *)
Definition blob_rows (net : bool) (d : db) (b : blob) : list row :=
  if net then net_rows (sblobs d) (streams d) b
  else content_rows (sblobs d) (streams d) (files d) b ++ sd_rows (streams d) (files d) b.

Lemma cands_perm net d : Permutation (cands net d) (flat_map (blob_rows net d) (blobs d)).
Proof.
  unfold cands, blob_rows. destruct net; [apply isort_perm|].
  eapply Permutation_trans; [apply Permutation_app; apply isort_perm|].
  apply (flat_map_app_perm (content_rows (sblobs d) (streams d) (files d)) (sd_rows (streams d) (files d))).
Qed.

Lemma in_cands net d r : In r (cands net d) <-> exists b, In b (blobs d) /\ In r (blob_rows net d b).
Proof.
  rewrite <- in_flat_map. split; apply Permutation_in; [|apply Permutation_sym]; apply cands_perm.
Qed.

Lemma n_streams_pos st sh : (n_streams st sh <> 0)%nat -> In sh (map fst st).
Proof.
  intro H. apply filter_length_pos in H as [x [Hx He]]. apply N.eqb_eq in He. subst. apply in_map. exact Hx.
Qed.

Lemma n_files_pos fl sh : (n_files fl sh <> 0)%nat -> In sh fl.
Proof. intro H. apply filter_length_pos in H as [x [Hx He]]. apply N.eqb_eq in He. subst. exact Hx. Qed.

Lemma blob_rows_origin net d b r : In r (blob_rows net d b) ->
  r = row_of b /\ b_mine b = false /\ in_class net d (b_hash b).
Proof.
  unfold blob_rows, net_rows, content_rows, sd_rows.
  destruct (b_mine b); cbn [negb andb]; [destruct net; intros []|]. destruct net.
  - destruct (b_fin b); cbn [andb]; [|intros []].
    destruct (count_sb (sblobs d) (b_hash b) =? 0)%nat eqn:Ec; cbn [andb]; [|intros []].
    destruct (is_sd (streams d) (b_hash b)) eqn:Es; cbn [negb]; [intros []|intros [<-|[]]].
    apply Nat.eqb_eq in Ec. cbn [in_class]. auto.
  - intro H. apply in_app_or in H as [H|H].
    + destruct (b_fin b); [|destruct H]. apply in_repeat in H as [-> Hk]. repeat split. left.
      apply list_sum_pos in Hk as [[sh h] [Hx Hf]]. cbn [fst snd] in Hf.
      destruct (N.eqb_spec h (b_hash b)) as [->|]; [|congruence].
      exists sh. split; [exact Hx|]. split; [apply n_streams_pos | apply n_files_pos]; intro Z; rewrite Z in Hf; lia.
    + apply in_repeat in H as [-> Hk]. repeat split. right.
      apply list_sum_pos in Hk as [[sh h] [Hx Hf]]. cbn [fst snd] in Hf.
      destruct (N.eqb_spec h (b_hash b)) as [->|]; [|congruence].
      exists sh. split; [exact Hx | apply n_files_pos; exact Hf].
Qed.

Lemma cands_origin net d r : In r (cands net d) ->
  exists b, In b (blobs d) /\ r = row_of b /\ b_mine b = false /\ in_class net d (b_hash b).
Proof. intro H. apply in_cands in H as (b & Hb & Hr). exists b. split; [exact Hb | exact (blob_rows_origin _ _ _ _ Hr)]. Qed.

Lemma credited_cons r l : credited (r :: l) = mb (r_len r) + credited l.
Proof. reflexivity. Qed.

Lemma credited_app l1 l2 : credited (l1 ++ l2) = credited l1 + credited l2.
Proof. unfold credited. rewrite map_app, nsum_app. reflexivity. Qed.

Lemma credited_last l : l <> [] -> credited l = credited (removelast l) + mb (r_len (last l row0)).
Proof.
  intro H. rewrite (app_removelast_last row0 H) at 1. rewrite credited_app, credited_cons.
  change (credited []) with 0. lia.
Qed.

Lemma sweep_spec cs : forall a, exists rest, cs = fst (sweep a cs) ++ rest /\
  ((a < 0)%Z -> (a + Z.of_N (credited (removelast (fst (sweep a cs)))) < 0)%Z) /\
  ((0 <= a + Z.of_N (credited (fst (sweep a cs))))%Z \/ rest = []).
Proof.
  induction cs as [|c r IH]; intro a; cbn [sweep].
  - exists []. split; [reflexivity|]. split; [cbn; lia | right; reflexivity].
  - destruct (0 <=? a + Z.of_N (mb (r_len c)))%Z eqn:E.
    + apply Z.leb_le in E. exists r. split; [reflexivity|]. split; [cbn; lia|].
      left. cbn [fst]. rewrite credited_cons. change (credited []) with 0. lia.
    + apply Z.leb_gt in E. destruct (IH (a + Z.of_N (mb (r_len c)))%Z) as (rest & E1 & E2 & E3).
      destruct (sweep (a + Z.of_N (mb (r_len c))) r) as [dl a']. cbn [fst] in *. exists rest.
      split; [simpl; f_equal; exact E1|]. split.
      * intros _. destruct dl as [|x dl']; [cbn; lia|]. specialize (E2 E).
        change (removelast (c :: x :: dl')) with (c :: removelast (x :: dl')). rewrite credited_cons. lia.
      * destruct E3 as [E3|E3]; [left; rewrite credited_cons; lia | right; exact E3].
Qed.

Lemma sweep_nonempty c r a : fst (sweep a (c :: r)) <> [].
Proof.
  simpl. destruct (0 <=? a + Z.of_N (mb (r_len c)))%Z; simpl; [discriminate|].
  destruct (sweep (a + Z.of_N (mb (r_len c))) r). simpl. discriminate.
Qed.

Lemma in_remove_blobs H d b : In b (blobs (remove_hashes H d)) <-> In b (blobs d) /\ ~ In (b_hash b) H.
Proof. unfold remove_hashes. cbn [blobs]. rewrite filter_In, negb_true_iff, mem_false. reflexivity. Qed.

Lemma in_remove_disk H d h : In h (disk (remove_hashes H d)) <-> In h (disk d) /\ ~ In h H.
Proof. unfold remove_hashes. cbn [disk]. rewrite filter_In, negb_true_iff, mem_false. reflexivity. Qed.

Lemma remove_nil d : remove_hashes [] d = d.
Proof.
  assert (K : forall A (l : list A), filter (fun _ => true) l = l) by (induction l; simpl; congruence).
  destruct d. unfold remove_hashes. simpl. rewrite !K. reflexivity.
Qed.

Lemma remove_unique hs d : hashes_unique d -> hashes_unique (remove_hashes hs d).
Proof. apply NoDup_map_filter. Qed.

Lemma tables_ok_remove H d : tables_ok d -> tables_ok (remove_hashes H d).
Proof.
  intros [Hs [Hf Hsd]]. split; [exact Hs|]. split; [exact Hf|].
  intros b Hb. apply in_remove_blobs in Hb as [Hb _]. apply Hsd. exact Hb.
Qed.

Lemma cands_remove net H d r : In r (cands net (remove_hashes H d)) -> In r (cands net d) /\ ~ In (r_hash r) H.
Proof.
  intro Hin. apply in_cands in Hin as (b & Hb & Hr). apply in_remove_blobs in Hb as [Hb Hn].
  split; [apply in_cands; exists b; split; [exact Hb | exact Hr]|].
  apply blob_rows_origin in Hr as [-> _]. exact Hn.
Qed.

Lemma cands_exhausted net d H : (forall r, In r (cands net d) -> In (r_hash r) H) -> cands net (remove_hashes H d) = [].
Proof.
  intro Hall. apply nil_of_no_member. intros r Hr. apply cands_remove in Hr as [Hr Hn]. apply Hn, Hall, Hr.
Qed.

(* The bytes a blob row is charged to the class of the pass, and the bytes of the user's own rows that the content class
   counts beside them.  Like the candidate rows they read the other tables only, so a removal filters the two sums. *)
Definition charged (net : bool) (d : db) : blob -> N :=
  if net then net_term (sblobs d) (streams d) else content_term (sblobs d) (streams d).
Definition own_term (net : bool) (d : db) : blob -> N :=
  if net then fun _ => 0 else private_term (sblobs d) (streams d).

Lemma used_mb_terms net d :
  used_mb net d = mb (nsum (map (charged net d) (blobs d))) + mb (nsum (map (own_term net d) (blobs d))).
Proof.
  destruct net; [|reflexivity]. rewrite (nsum_zero (own_term true d)) by reflexivity. symmetry. apply N.add_0_r.
Qed.

Lemma unfinished_free net d b : b_fin b = false -> charged net d b = 0 /\ own_term net d b = 0.
Proof.
  intro Hf. destruct net; cbn [charged own_term]; unfold net_term, content_term, private_term, counted; rewrite Hf; split; reflexivity.
Qed.

Lemma used_mb_remove net H d : used_mb net (remove_hashes H d) =
  mb (nsum (map (charged net d) (filter (fun b => negb (mem (b_hash b) H)) (blobs d)))) +
  mb (nsum (map (own_term net d) (filter (fun b => negb (mem (b_hash b) H)) (blobs d)))).
Proof. apply used_mb_terms. Qed.

Lemma usage_antitone net H d : used_mb net (remove_hashes H d) <= used_mb net d.
Proof. rewrite used_mb_remove, used_mb_terms. apply N.add_le_mono; apply mb_mono, nsum_filter_le. Qed.

Lemma skip_false net limit a : skip net limit a = false <-> (a < 0)%Z /\ (net = true \/ limit <> 0%Z).
Proof. unfold skip. rewrite orb_false_iff, andb_false_iff, Z.leb_gt, Z.eqb_neq, negb_false_iff. tauto. Qed.

Lemma clean_pass_fst net limit d : fst (clean_pass net limit d) = map r_hash (pass_rows net limit d).
Proof.
  unfold clean_pass, clean_pass_with, pass_rows. cbv zeta.
  destruct (skip net limit (limit - Z.of_N (used_mb net d))); reflexivity.
Qed.

Lemma clean_pass_removes net limit d : snd (clean_pass net limit d) = remove_hashes (fst (clean_pass net limit d)) d.
Proof.
  unfold clean_pass, clean_pass_with. cbv zeta.
  destruct (skip net limit (limit - Z.of_N (used_mb net d))); cbn [fst snd]; [rewrite remove_nil|]; reflexivity.
Qed.

Lemma clean_pass_snd net limit d :
  pass_rows net limit d <> [] -> snd (clean_pass net limit d) = remove_hashes (map r_hash (pass_rows net limit d)) d.
Proof. intros _. rewrite clean_pass_removes, clean_pass_fst. reflexivity. Qed.

Lemma clean_pass_tables net limit d :
  sblobs (snd (clean_pass net limit d)) = sblobs d /\ streams (snd (clean_pass net limit d)) = streams d /\
  files (snd (clean_pass net limit d)) = files d.
Proof. rewrite clean_pass_removes. repeat split. Qed.

Lemma no_delete_within_limit d net limit :
  (Z.of_N (used_mb net d) <= limit)%Z -> clean_pass net limit d = ([], d).
Proof.
  intro H. unfold clean_pass, clean_pass_with. cbv zeta.
  destruct (skip net limit (limit - Z.of_N (used_mb net d))) eqn:E; [reflexivity|]. apply skip_false in E. lia.
Qed.

Lemma unlimited_content_untouched d : clean_pass false 0 d = ([], d).
Proof. reflexivity. Qed.

(* What a pass deletes, in its own accounting: a prefix of the candidate list; something only if the class is over its
   limit and limited at all, and then every proper prefix of it left the class over the limit; and when the class is
   over its limit the pass stops only when the credited megabytes cover the excess or the list is exhausted. *)
Lemma pass_rows_spec net limit d : exists rest, cands net d = pass_rows net limit d ++ rest /\
  (pass_rows net limit d <> [] -> (limit < Z.of_N (used_mb net d))%Z /\ (net = true \/ limit <> 0%Z) /\
     (Z.of_N (credited (removelast (pass_rows net limit d))) < excess net limit d)%Z) /\
  ((limit < Z.of_N (used_mb net d))%Z -> net = true \/ limit <> 0%Z ->
     (excess net limit d <= Z.of_N (credited (pass_rows net limit d)))%Z \/ rest = []).
Proof.
  unfold pass_rows, excess. cbv zeta. destruct (skip net limit (limit - Z.of_N (used_mb net d))) eqn:E.
  - exists (cands net d). split; [reflexivity|]. split; [congruence|]. intros Ho Hz.
    rewrite (proj2 (skip_false _ _ _)) in E; [discriminate | split; [lia | exact Hz]].
  - apply skip_false in E as [Ha Hz].
    destruct (sweep_spec (cands net d) (limit - Z.of_N (used_mb net d))) as (rest & E1 & E2 & E3).
    exists rest. split; [exact E1|]. split.
    + intros _. specialize (E2 Ha). repeat split; [lia | exact Hz | lia].
    + intros _ _. destruct E3 as [E3|E3]; [left; lia | right; exact E3].
Qed.

Lemma pass_rows_prefix net limit d : exists rest, cands net d = pass_rows net limit d ++ rest.
Proof. destruct (pass_rows_spec net limit d) as (rest & E & _). exists rest. exact E. Qed.

Lemma pass_rows_in_cands net limit d r : In r (pass_rows net limit d) -> In r (cands net d).
Proof. intro H. destruct (pass_rows_prefix net limit d) as [rest E]. rewrite E. apply in_or_app. left. exact H. Qed.

(* its two halves are C19_never_own and C19_only_over_limit_class *)
Lemma deleted_origin net limit d h : In h (fst (clean_pass net limit d)) ->
  (exists b, In b (blobs d) /\ b_hash b = h /\ b_mine b = false) /\
  (limit < Z.of_N (used_mb net d))%Z /\ in_class net d h.
Proof.
  rewrite clean_pass_fst. intro H. apply in_map_iff in H as [r [<- Hr]].
  destruct (pass_rows_spec net limit d) as (_ & _ & Hne & _).
  destruct Hne as [Hov _]; [intro E; rewrite E in Hr; destruct Hr|].
  apply pass_rows_in_cands, cands_origin in Hr as [b [Hb [-> [Hm Hc]]]].
  split; [exists b; auto | auto].
Qed.

Lemma own_hashes_In d h : In h (own_hashes d) <-> exists b, In b (blobs d) /\ b_mine b = true /\ b_hash b = h.
Proof.
  unfold own_hashes. rewrite in_map_iff. split.
  - intros [b [E Hb]]. apply filter_In in Hb as [Hb Hm]. exists b. auto.
  - intros [b [Hb [Hm E]]]. exists b. split; [exact E | apply filter_In; auto].
Qed.

Lemma owned_not_deleted net limit d h : hashes_unique d -> In h (own_hashes d) -> ~ In h (fst (clean_pass net limit d)).
Proof.
  intros Hn Ho H. apply own_hashes_In in Ho as (b & Hb & Hm & <-). apply deleted_origin in H as [(b' & Hb' & Eh & Hm') _].
  rewrite (NoDup_map_inj b_hash _ b' b Hn Hb' Hb Eh) in Hm'. congruence.
Qed.

Lemma unlisted_stays net limit d b : ~ In (b_hash b) (fst (clean_pass net limit d)) ->
  (In b (blobs d) -> In b (blobs (snd (clean_pass net limit d)))) /\
  (In (b_hash b) (disk d) -> In (b_hash b) (disk (snd (clean_pass net limit d)))).
Proof. rewrite clean_pass_removes, in_remove_blobs, in_remove_disk. tauto. Qed.

Lemma own_kept net limit d b : hashes_unique d -> In b (blobs d) -> b_mine b = true ->
  In b (blobs (snd (clean_pass net limit d))) /\
  (In (b_hash b) (disk d) -> In (b_hash b) (disk (snd (clean_pass net limit d)))).
Proof.
  intros Hn Hb Hm. destruct (unlisted_stays net limit d b) as [A B]; [|split; [exact (A Hb) | exact B]].
  apply owned_not_deleted; [exact Hn | apply own_hashes_In; eauto].
Qed.

Lemma clean_pass_unique net limit d : hashes_unique d -> hashes_unique (snd (clean_pass net limit d)).
Proof. rewrite clean_pass_removes. apply remove_unique. Qed.

Lemma tables_ok_pass net limit d : tables_ok d -> tables_ok (snd (clean_pass net limit d)).
Proof. rewrite clean_pass_removes. apply tables_ok_remove. Qed.

Lemma wf_pass net limit d : wf d -> wf (snd (clean_pass net limit d)).
Proof. intros [Hn Ht]. split; [apply clean_pass_unique; exact Hn | apply tables_ok_pass; exact Ht]. Qed.

Lemma usage_never_increases net net' limit d : used_mb net' (snd (clean_pass net limit d)) <= used_mb net' d.
Proof. rewrite clean_pass_removes. apply usage_antitone. Qed.

Lemma bounded_overshoot net limit d : pass_rows net limit d <> [] ->
  (Z.of_N (credited (pass_rows net limit d))
   < excess net limit d + Z.of_N (mb (r_len (last (pass_rows net limit d) row0))))%Z.
Proof.
  intro H. destruct (pass_rows_spec net limit d) as (_ & _ & Hne & _). destruct (Hne H) as (_ & _ & Hp).
  rewrite (credited_last _ H). lia.
Qed.

(* 2 MiB is the protocol's maximum blob size *)
Lemma bounded_overshoot_2mib net limit d :
  (forall b, In b (blobs d) -> b_len b <= 2 * MiB) -> pass_rows net limit d <> [] ->
  (Z.of_N (credited (pass_rows net limit d)) <= excess net limit d + 1)%Z.
Proof.
  intros Hsz H. pose proof (bounded_overshoot net limit d H) as Hb.
  assert (Hl : In (last (pass_rows net limit d) row0) (pass_rows net limit d)).
  { rewrite (app_removelast_last row0 H) at 2. apply in_or_app. right. left. reflexivity. }
  apply pass_rows_in_cands, cands_origin in Hl as [b [Hin [Er _]]].
  rewrite Er in Hb. change (r_len (row_of b)) with (b_len b) in Hb.
  pose proof (mb_mono _ _ (Hsz b Hin)) as Hle. change (mb (2 * MiB)) with 2 in Hle. lia.
Qed.

Lemma rows_bytes_bound l : nsum (map r_len l) + N.of_nat (length l) <= (credited l + N.of_nat (length l)) * MiB.
Proof.
  induction l as [|r t IH]; [simpl; lia|].
  cbn [map length]. rewrite nsum_cons, credited_cons, Nat2N.inj_succ. pose proof (mb_upper (r_len r)). lia.
Qed.

(* the blob rows that go are distinct rows of the list *)
Lemma freed_le_rows net d l : hashes_unique d -> incl l (cands net d) ->
  freed_bytes (map r_hash l) d <= nsum (map r_len l).
Proof.
  intros Hn Hl. unfold freed_bytes. set (F := filter _ (blobs d)).
  replace (map b_len F) with (map r_len (map row_of F)) by (rewrite map_map; reflexivity). apply nsum_incl.
  - apply (NoDup_map_inv r_hash). rewrite map_map. apply NoDup_map_filter, Hn.
  - intros x Hx. apply in_map_iff in Hx as (b & <- & Hin). apply filter_In in Hin as [Hin Hm].
    apply mem_In, in_map_iff in Hm as (r & E & Hr). pose proof (Hl r Hr) as Hc.
    apply cands_origin in Hc as (b' & Hin' & -> & _).
    rewrite (NoDup_map_inj b_hash _ b b' Hn Hin Hin' (eq_sym E)). exact Hr.
Qed.

Lemma real_bytes_bound net limit d : hashes_unique d -> pass_rows net limit d <> [] ->
  (Z.of_N (freed_bytes (fst (clean_pass net limit d)) d)
   < (excess net limit d + Z.of_N (mb (r_len (last (pass_rows net limit d) row0)))
      + Z.of_nat (length (pass_rows net limit d))) * Z.of_N MiB)%Z.
Proof.
  intros Hn H. pose proof (bounded_overshoot net limit d H) as Hb.
  pose proof (rows_bytes_bound (pass_rows net limit d)) as Hr.
  pose proof (freed_le_rows net d _ Hn (pass_rows_in_cands net limit d)) as Hf. rewrite <- clean_pass_fst in Hf.
  assert (Hl : (length (pass_rows net limit d) <> 0)%nat) by (destruct (pass_rows net limit d); [congruence | discriminate]).
  nia.
Qed.

Definition credit_in (H : list N) (r : row) : N := if mem (r_hash r) H then mb (r_len r) else 0.

Lemma credited_le_credit_in dl rest : credited dl <= nsum (map (credit_in (map r_hash dl)) (dl ++ rest)).
Proof.
  rewrite map_app, nsum_app. eapply N.le_trans; [|apply N.le_add_r]. apply nsum_map_le.
  intros r Hr. unfold credit_in. rewrite (proj2 (mem_In _ _) (in_map r_hash _ _ Hr)). apply N.le_refl.
Qed.

Lemma content_mult_le sb st fl h : NoDup (map fst st) -> NoDup fl -> (content_mult sb st fl h <= count_sb sb h)%nat.
Proof.
  intros Hs Hf. unfold content_mult, count_sb. induction sb as [|x t IH]; simpl; [lia|].
  destruct (snd x =? h); simpl; [|exact IH].
  pose proof (count_le1 fst (fst x) st Hs : (n_streams st (fst x) <= 1)%nat).
  rewrite <- (map_id fl) in Hf. pose proof (count_le1 (fun y => y) (fst x) fl Hf : (n_files fl (fst x) <= 1)%nat). nia.
Qed.

Lemma sd_mult_zero st fl h : is_sd st h = false -> sd_mult st fl h = O.
Proof.
  unfold is_sd, sd_mult. induction st as [|x t IH]; simpl; [reflexivity|].
  intro H. apply orb_false_iff in H as [H1 H2]. rewrite H1. simpl. apply IH. exact H2.
Qed.

(* Content class: a descriptor is charged nothing, so it must be credited nothing (below 1 MiB); any other blob has at
   most as many rows as the usage query joins, the tables being keyed by stream_hash.  Network class: descriptors are
   neither charged nor candidates, so nothing is needed. *)
Lemma blob_credit_bound net d b : tables_ok d -> In b (blobs d) -> credited (blob_rows net d b) <= mb (charged net d b).
Proof.
  intros [Hs [Hf Hsd]] Hb.
  assert (E1 : forall (c : bool) (k : nat), credited (if c then repeat (row_of b) k else []) =
                 if c then N.of_nat k * mb (b_len b) else 0).
  { intros c k. destruct c; [apply (nsum_map_repeat (fun r => mb (r_len r))) | reflexivity]. }
  unfold blob_rows, charged. destruct net.
  - unfold net_rows, net_term, counted. rewrite (E1 _ 1%nat).
    destruct (negb (b_mine b) && b_fin b && _ && _) eqn:C; [|apply N.le_0_l].
    apply andb_true_iff in C as [C Cs]. apply andb_true_iff in C as [C Cc]. apply andb_true_iff in C as [_ Cf].
    rewrite Cf, Cs, Cc. apply N.eq_le_incl, N.mul_1_l.
  - unfold content_rows, sd_rows. rewrite credited_app, !E1. clear E1.
    destruct (is_sd (streams d) (b_hash b)) eqn:Esd.
    + rewrite (mb_small (b_len b)) by (apply Hsd; assumption).
      destruct (negb (b_mine b) && b_fin b), (negb (b_mine b)); lia.
    + rewrite (sd_mult_zero _ _ _ Esd). unfold content_term, counted. rewrite Esd.
      destruct (b_mine b), (b_fin b); simpl; try lia.
      pose proof (content_mult_le (sblobs d) (streams d) (files d) (b_hash b) Hs Hf) as Hle.
      pose proof (mb_scale (N.of_nat (count_sb (sblobs d) (b_hash b))) (b_len b)). nia.
Qed.

(* the accounting never over-credits, whatever set of hashes is removed *)
Lemma removal_pays net d H : tables_ok d ->
  used_mb net (remove_hashes H d) + nsum (map (credit_in H) (cands net d)) <= used_mb net d.
Proof.
  intro Hw. rewrite used_mb_remove, used_mb_terms. set (kept := fun b => negb (mem (b_hash b) H)).
  assert (Hcred : nsum (map (credit_in H) (cands net d)) <=
                  mb (nsum (map (charged net d) (filter (fun b => negb (kept b)) (blobs d))))).
  { rewrite (nsum_map_perm _ _ _ (cands_perm net d)), nsum_flat_map. apply credit_le_mb_filter.
    intros b Hb. unfold kept. rewrite negb_involutive.
    (* the rows of b carry b's hash: all of them are credited, or none *)
    destruct (mem (b_hash b) H) eqn:E.
    - eapply N.le_trans; [|apply blob_credit_bound; assumption].
      apply nsum_map_le. intros r _. unfold credit_in. destruct (mem (r_hash r) H); [apply N.le_refl | apply N.le_0_l].
    - apply N.eq_le_incl, nsum_zero. intros r Hr. apply blob_rows_origin in Hr as [-> _].
      unfold credit_in. change (r_hash (row_of b)) with (b_hash b). rewrite E. reflexivity. }
  pose proof (mb_superadd (nsum (map (charged net d) (filter kept (blobs d))))
                          (nsum (map (charged net d) (filter (fun b => negb (kept b)) (blobs d))))) as Hs.
  rewrite <- (nsum_filter_split kept) in Hs.
  pose proof (mb_mono _ _ (nsum_filter_le (own_term net d) kept (blobs d))). lia.
Qed.

(* the loop ends with available >= 0 *)
Lemma reaches_limit_accounting net limit d : net = true \/ limit <> 0%Z -> enough net limit d ->
  (excess net limit d <= Z.of_N (credited (pass_rows net limit d)))%Z \/ (excess net limit d <= 0)%Z.
Proof.
  intros Hz He. destruct (Z_lt_le_dec limit (Z.of_N (used_mb net d))) as [Hov|Hle]; [left | right; unfold excess; lia].
  destruct (pass_rows_spec net limit d) as (rest & E & _ & Hs).
  destruct (Hs Hov Hz) as [Hc| ->]; [exact Hc|]. rewrite app_nil_r in E. rewrite <- E. exact He.
Qed.

Lemma exhausts_when_not_enough net limit d : net = true \/ limit <> 0%Z ->
  (limit < Z.of_N (used_mb net d))%Z -> ~ enough net limit d -> pass_rows net limit d = cands net d.
Proof.
  intros Hz Hov Hne. destruct (pass_rows_spec net limit d) as (rest & E & _ & Hs).
  destruct (Hs Hov Hz) as [Hc| ->]; [|rewrite app_nil_r in E; symmetry; exact E].
  destruct Hne. unfold enough. rewrite E, credited_app. lia.
Qed.

Lemma reaches_limit net limit d : tables_ok d -> net = true \/ limit <> 0%Z -> enough net limit d ->
  (Z.of_N (used_mb net (snd (clean_pass net limit d))) <= limit)%Z.
Proof.
  intros Hw Hz He. destruct (reaches_limit_accounting net limit d Hz He) as [Hc|Hc]; unfold excess in Hc.
  - rewrite clean_pass_removes, clean_pass_fst. destruct (pass_rows_prefix net limit d) as [rest E].
    pose proof (removal_pays net d (map r_hash (pass_rows net limit d)) Hw) as Hp. rewrite E in Hp.
    pose proof (credited_le_credit_in (pass_rows net limit d) rest). lia.
  - rewrite no_delete_within_limit by lia. cbn [snd]. lia.
Qed.

(* a state on which the pass of a class has nothing to do *)
Definition settled (net : bool) (limit : Z) (d : db) : Prop :=
  (Z.of_N (used_mb net d) <= limit)%Z \/ cands net d = [] \/ (net = false /\ limit = 0%Z).

Lemma settled_noop net limit d : settled net limit d -> clean_pass net limit d = ([], d).
Proof.
  intros [Hle|[Hc|[-> ->]]]; [apply no_delete_within_limit, Hle | | reflexivity].
  destruct (pass_rows_prefix net limit d) as [rest Er]. rewrite Hc in Er. symmetry in Er. apply app_eq_nil in Er as [Er _].
  rewrite (surjective_pairing (clean_pass net limit d)), clean_pass_removes, clean_pass_fst, Er. cbn [map].
  rewrite remove_nil. reflexivity.
Qed.

Lemma settled_remove net limit d H : settled net limit d -> settled net limit (remove_hashes H d).
Proof.
  intros [Hle|[Hc|Hz]]; [left | right; left | right; right; exact Hz].
  - pose proof (usage_antitone net H d). lia.
  - apply cands_exhausted. rewrite Hc. intros r [].
Qed.

Lemma after_pass net limit d : tables_ok d -> settled net limit (snd (clean_pass net limit d)).
Proof.
  intro Hw. unfold settled.
  destruct (Z_lt_le_dec limit (Z.of_N (used_mb net d))) as [Hov|Hle];
    [|left; rewrite no_delete_within_limit by exact Hle; exact Hle].
  assert (Hz : (net = false /\ limit = 0%Z) \/ (net = true \/ limit <> 0%Z))
    by (destruct net; [auto | destruct (Z.eq_dec limit 0); auto]).
  destruct Hz as [Hz|Hz]; [right; right; exact Hz|].
  destruct (Z_le_gt_dec (excess net limit d) (Z.of_N (credited (cands net d)))) as [He|Hne].
  - left. apply reaches_limit; assumption.
  - right. left. rewrite clean_pass_removes, clean_pass_fst, exhausts_when_not_enough by (unfold enough; auto with zarith).
    apply cands_exhausted. intros r Hr. apply in_map. exact Hr.
Qed.

Lemma clean_eq cl nl d :
  clean cl nl d = ((fst (clean_pass false cl d), fst (clean_pass true nl (snd (clean_pass false cl d)))),
                   snd (clean_pass true nl (snd (clean_pass false cl d)))).
Proof.
  unfold clean. destruct (clean_pass false cl d) as [dl1 d1]. cbn [fst snd]. destruct (clean_pass true nl d1). reflexivity.
Qed.

Lemma clean_settled cl nl d : settled false cl d -> settled true nl d -> clean cl nl d = (([], []), d).
Proof.
  intros Hc Hn. rewrite clean_eq, (settled_noop _ _ _ Hc). cbn [fst snd]. rewrite (settled_noop _ _ _ Hn). reflexivity.
Qed.

Lemma clean_twice_noop cl nl d : tables_ok d ->
  clean cl nl (snd (clean cl nl d)) = (([], []), snd (clean cl nl d)).
Proof.
  intro Hw. apply clean_settled; rewrite clean_eq; cbn [snd].
  - rewrite clean_pass_removes. apply settled_remove, after_pass, Hw.
  - apply after_pass, tables_ok_pass, Hw.
Qed.

Lemma clean_within_limits cl nl d :
  (Z.of_N (used_mb false d) <= cl)%Z \/ cl = 0%Z -> (Z.of_N (used_mb true d) <= nl)%Z -> clean cl nl d = (([], []), d).
Proof.
  intros Hc Hn. apply clean_settled; [|left; exact Hn].
  destruct Hc as [Hc|Hc]; [left; exact Hc | right; right; split; [reflexivity | exact Hc]].
Qed.

Lemma clean_reaches_both cl nl d : tables_ok d -> cl <> 0%Z -> enough false cl d ->
  enough true nl (snd (clean_pass false cl d)) ->
  (Z.of_N (used_mb false (snd (clean cl nl d))) <= cl)%Z /\ (Z.of_N (used_mb true (snd (clean cl nl d))) <= nl)%Z.
Proof.
  intros Hw Hz He Hn. rewrite clean_eq. cbn [snd]. split.
  - pose proof (reaches_limit false cl d Hw (or_intror Hz) He).
    pose proof (usage_never_increases true false nl (snd (clean_pass false cl d))). lia.
  - apply reaches_limit; [apply tables_ok_pass, Hw | left; reflexivity | exact Hn].
Qed.

Definition keeps (h : N) (d d' : db) : Prop := hashes_unique d -> In h (own_hashes d) ->
  In h (own_hashes d') /\ hashes_unique d' /\ (In h (disk d) -> In h (disk d')).

Lemma keeps_trans h d1 d2 d3 : keeps h d1 d2 -> keeps h d2 d3 -> keeps h d1 d3.
Proof. intros K1 K2 Hn Ho. destruct (K1 Hn Ho) as (A & B & C). destruct (K2 B A) as (A' & B' & C'). auto. Qed.

Lemma keeps_remove hs d h : ~ In h hs -> keeps h d (remove_hashes hs d).
Proof.
  intros Hh Hn Ho. split; [|split; [apply remove_unique; exact Hn | rewrite in_remove_disk; auto]].
  apply own_hashes_In in Ho as (b & Hb & Hm & <-). apply own_hashes_In. exists b. rewrite in_remove_blobs. auto.
Qed.

Lemma keeps_pass net limit d h : keeps h d (snd (clean_pass net limit d)).
Proof. intros Hn Ho. rewrite clean_pass_removes. apply keeps_remove; [apply owned_not_deleted|..]; assumption. Qed.

Lemma add_blob_hashes b d :
  map b_hash (blobs (add_blob b d)) =
  if mem (b_hash b) (map b_hash (blobs d)) then map b_hash (blobs d) else map b_hash (blobs d) ++ [b_hash b].
Proof.
  unfold add_blob. cbn [blobs]. destruct (mem (b_hash b) (map b_hash (blobs d))).
  - rewrite map_map. apply map_ext. intro x. destruct (b_hash x =? b_hash b); reflexivity.
  - rewrite map_app. reflexivity.
Qed.

Lemma keeps_add b d h : keeps h d (add_blob b d).
Proof.
  intros Hn Ho. split; [|split].
  - apply own_hashes_In in Ho as [x [Hx [Hm E]]]. apply own_hashes_In. unfold add_blob. cbn [blobs].
    destruct (mem (b_hash b) (map b_hash (blobs d))).
    + exists (if b_hash x =? b_hash b then mkBlob (b_hash x) (b_len x) (b_added x) (b_mine x) true else x).
      split; [apply in_map_iff; exists x; auto|]. destruct (b_hash x =? b_hash b); auto.
    + exists x. split; [apply in_or_app; left; exact Hx | auto].
  - unfold hashes_unique. rewrite add_blob_hashes. destruct (mem (b_hash b) (map b_hash (blobs d))) eqn:E; [exact Hn|].
    apply mem_false in E. eapply Permutation_NoDup; [apply Permutation_cons_append|]. constructor; assumption.
  - unfold add_blob. cbn [disk]. destruct (mem (b_hash b) (disk d)); [auto | intro; apply in_or_app; left; assumption].
Qed.

Lemma add_orphans_spec now sizes hs : forall bl, NoDup (map b_hash bl) ->
  NoDup (map b_hash (add_orphans now sizes hs bl)) /\ exists extra, add_orphans now sizes hs bl = bl ++ extra.
Proof.
  induction hs as [|h r IH]; intros bl Hn; simpl; [split; [exact Hn | exists []; rewrite app_nil_r; reflexivity]|].
  destruct (mem h (map b_hash bl)) eqn:E; [apply IH; exact Hn|].
  apply mem_false in E.
  destruct (IH (bl ++ [mkBlob h (fsize sizes h) now false true])) as [A [extra B]].
  - rewrite map_app. simpl. eapply Permutation_NoDup; [apply Permutation_cons_append|]. constructor; assumption.
  - split; [exact A|]. exists ([mkBlob h (fsize sizes h) now false true] ++ extra). rewrite B, <- app_assoc. reflexivity.
Qed.

Lemma setup_rows_own dk bl : map b_hash (filter b_mine (map (setup_row dk) bl)) = map b_hash (filter b_mine bl).
Proof. induction bl as [|b t IH]; simpl; [reflexivity|]. destruct (b_mine b); simpl; rewrite IH; reflexivity. Qed.

Lemma keeps_setup now sizes d h : keeps h d (setup now sizes d).
Proof.
  unfold keeps, hashes_unique, own_hashes, setup. cbn [blobs disk]. intros Hn Ho.
  destruct (add_orphans_spec now sizes (disk d) (map (setup_row (disk d)) (blobs d))) as [A [extra B]];
    [rewrite map_map; exact Hn|].
  split; [|split; [exact A | auto]].
  rewrite B, filter_app, map_app, setup_rows_own. apply in_or_app. left. exact Ho.
Qed.

Lemma recover_row_hash sd now ms dk b : b_hash (recover_row sd now ms dk b) = b_hash b.
Proof. unfold recover_row. destruct (b_hash b =? sd); [reflexivity|]. destruct (mem (b_hash b) ms); reflexivity. Qed.

Lemma recover_row_mine sd now ms dk b : b_mine (recover_row sd now ms dk b) = b_mine b.
Proof. unfold recover_row. destruct (b_hash b =? sd); [reflexivity|]. destruct (mem (b_hash b) ms); reflexivity. Qed.

(* C19_recover_keeps_ownership *)
Lemma keeps_recover sd now d h : keeps h d (recover sd now d).
Proof.
  unfold keeps, hashes_unique, own_hashes, recover. cbn [blobs disk]. intros Hn Ho. split; [|split].
  - apply in_map_iff in Ho as [b [E Hb]]. apply filter_In in Hb as [Hb Hm]. apply in_map_iff.
    eexists. split; [|apply filter_In; split; [apply in_map; exact Hb | rewrite recover_row_mine; exact Hm]].
    rewrite recover_row_hash. exact E.
  - rewrite map_map. erewrite map_ext; [exact Hn|]. intro b. apply recover_row_hash.
  - intro Hd. destruct (mem sd (disk d)); [exact Hd | apply in_or_app; left; exact Hd].
Qed.

Lemma keeps_recover_all now sds h : forall d, keeps h d (fold_left (fun acc sd => recover sd now acc) sds d).
Proof.
  induction sds as [|sd r IH]; intro d; [intros Hn Ho; auto|].
  exact (keeps_trans _ _ _ _ (keeps_recover sd now d h) (IH (recover sd now d))).
Qed.

Lemma restore_list_incl hs : forall dk h, In h dk -> In h (restore_list hs dk).
Proof.
  induction hs as [|x r IH]; intros dk h H; simpl; [exact H|]. apply IH.
  destruct (mem x dk); [exact H | apply in_or_app; left; exact H].
Qed.

(* one operation: the deletion lists it produces and the state it leaves *)
Definition op_lists (o : op) (d : db) : list (list N) :=
  match o with
  | OpPass net limit => [fst (clean_pass net limit d)]
  | OpClean cl nl => [fst (clean_pass false cl d); fst (clean_pass true nl (snd (clean_pass false cl d)))]
  | _ => []
  end.
Definition op_state (o : op) (d : db) : db :=
  match o with
  | OpPass net limit => snd (clean_pass net limit d)
  | OpClean cl nl => snd (clean_pass true nl (snd (clean_pass false cl d)))
  | OpAdd b => add_blob b d
  | OpDelete hs => remove_hashes hs d
  | OpHide hs => hide_files hs d
  | OpRestore hs => restore_files hs d
  | OpRecover sds now => fold_left (fun acc sd => recover sd now acc) sds d
  | OpSetup now sizes => setup now sizes d
  | OpStatus => d
  end.

Lemma run_cons o r d : run (o :: r) d = (op_lists o d ++ fst (run r (op_state o d)), snd (run r (op_state o d))).
Proof.
  destruct o as [net limit|cl nl|b|hs|hs|hs|sds now|now sizes|]; cbn [run op_lists op_state app]; try apply surjective_pairing.
  - destruct (clean_pass net limit d) as [dl d1]. cbn [fst snd]. destruct (run r d1). reflexivity.
  - rewrite clean_eq. destruct (run r _). reflexivity.
  - destruct (run r (add_blob b d)). reflexivity.
  - destruct (run r (remove_hashes hs d)). reflexivity.
Qed.

Lemma run_app ops1 : forall ops2 d,
  run (ops1 ++ ops2) d =
  (fst (run ops1 d) ++ fst (run ops2 (snd (run ops1 d))), snd (run ops2 (snd (run ops1 d)))).
Proof.
  induction ops1 as [|o r IH]; intros ops2 d; [apply surjective_pairing|].
  cbn [app]. rewrite !run_cons, IH. cbn [fst snd]. rewrite app_assoc. reflexivity.
Qed.

Lemma op_keeps o d h : hashes_unique d -> In h (own_hashes d) -> ~ In h (user_deleted [o]) ->
  (forall dl, In dl (op_lists o d) -> ~ In h dl) /\
  In h (own_hashes (op_state o d)) /\ hashes_unique (op_state o d) /\
  (In h (disk d) -> ~ In h (hidden [o]) -> In h (disk (op_state o d))).
Proof.
  intros Hn Ho Hu.
  assert (K : forall d', keeps h d d' -> (forall dl : list N, In dl [] -> ~ In h dl) /\
              In h (own_hashes d') /\ hashes_unique d' /\ (In h (disk d) -> ~ In h [] -> In h (disk d'))).
  { intros d' Hk. destruct (Hk Hn Ho) as (A & B & C). split; [intros dl []|]. auto. }
  destruct o as [net limit|cl nl|b|hs|hs|hs|sds now|now sizes|]; cbn [op_lists op_state user_deleted hidden] in Hu |- *.
  - destruct (keeps_pass net limit d h Hn Ho) as (B & C & D).
    split; [intros dl [<-|[]]; apply owned_not_deleted; assumption | auto].
  - destruct (keeps_pass false cl d h Hn Ho) as (B1 & C1 & D1). destruct (keeps_pass true nl _ h C1 B1) as (B2 & C2 & D2).
    split; [intros dl [<-|[<-|[]]]; apply owned_not_deleted; assumption | auto].
  - apply K, keeps_add.
  - rewrite app_nil_r in Hu. apply K, keeps_remove, Hu.
  - split; [intros dl []|]. split; [exact Ho|]. split; [exact Hn|]. rewrite app_nil_r. intros Hd Hh.
    apply filter_In. split; [exact Hd | apply negb_true_iff, mem_false, Hh].
  - apply K. intros _ _. split; [exact Ho|]. split; [exact Hn | apply restore_list_incl].
  - apply K, keeps_recover_all.
  - apply K, keeps_setup.
  - apply K. intros _ _. auto.
Qed.

Lemma in_user_deleted_cons h o r : In h (user_deleted (o :: r)) <-> In h (user_deleted [o]) \/ In h (user_deleted r).
Proof. rewrite <- in_app_iff. destruct o; cbn [user_deleted app]; rewrite ?app_nil_r; reflexivity. Qed.

Lemma in_hidden_cons h o r : In h (hidden (o :: r)) <-> In h (hidden [o]) \/ In h (hidden r).
Proof. rewrite <- in_app_iff. destruct o; cbn [hidden app]; rewrite ?app_nil_r; reflexivity. Qed.

Lemma history_never_own ops : forall d h, hashes_unique d -> In h (own_hashes d) -> ~ In h (user_deleted ops) ->
  (forall dl, In dl (fst (run ops d)) -> ~ In h dl) /\ In h (own_hashes (snd (run ops d))) /\
  (In h (disk d) -> ~ In h (hidden ops) -> In h (disk (snd (run ops d)))).
Proof.
  induction ops as [|o r IH]; intros d h Hn Ho Hu; [simpl; tauto|].
  rewrite run_cons. cbn [fst snd].
  destruct (op_keeps o d h Hn Ho) as (A & B & C & D); [intro X; apply Hu, in_user_deleted_cons; left; exact X|].
  destruct (IH _ h C B) as (I1 & I2 & I3); [intro X; apply Hu, in_user_deleted_cons; right; exact X|].
  split; [intros dl Hin; apply in_app_or in Hin as [Hin|Hin]; auto|]. split; [exact I2|]. intros Hd Hh.
  apply I3; [apply D; [exact Hd|]|]; intro X; apply Hh, in_hidden_cons; [left | right]; exact X.
Qed.

Lemma migrated_own legacy post sb st fl dk r : In r legacy ->
  In (fst (fst r)) (own_hashes (migrated_db legacy post sb st fl dk)).
Proof.
  intro H. apply own_hashes_In. exists (migrate_row r). split; [|split; reflexivity].
  unfold migrated_db. cbn [blobs]. apply in_or_app. left. apply in_map. exact H.
Qed.

Lemma migrated_never_deleted legacy post sb st fl dk ops r :
  hashes_unique (migrated_db legacy post sb st fl dk) -> In r legacy -> ~ In (fst (fst r)) (user_deleted ops) ->
  (forall dl, In dl (fst (run ops (migrated_db legacy post sb st fl dk))) -> ~ In (fst (fst r)) dl) /\
  In (fst (fst r)) (own_hashes (snd (run ops (migrated_db legacy post sb st fl dk)))).
Proof.
  intros Hn Hr Hu. pose proof (history_never_own ops _ _ Hn (migrated_own legacy post sb st fl dk r Hr) Hu) as [A [B _]].
  split; assumption.
Qed.

Lemma add_orphans_fin now sizes hs : forall bl b, In b (add_orphans now sizes hs bl) ->
  In b bl \/ (In (b_hash b) hs /\ b_fin b = true).
Proof.
  induction hs as [|h r IH]; intros bl b H; simpl in H; [left; exact H|].
  apply IH in H as [H|[H1 H2]]; [|right; split; [right; exact H1 | exact H2]].
  destruct (mem h (map b_hash bl)); [left; exact H|].
  apply in_app_or in H as [H|[<-|[]]]; [left; exact H|]. right. split; [left; reflexivity | reflexivity].
Qed.

Lemma setup_only_present now sizes d b : In b (blobs (setup now sizes d)) -> b_fin b = true -> In (b_hash b) (disk d).
Proof.
  unfold setup. cbn [blobs]. intros H Hf. apply add_orphans_fin in H as [H|[H _]]; [|exact H].
  apply in_map_iff in H as [x [<- Hx]]. simpl in *. apply mem_In. exact Hf.
Qed.

Lemma setup_empty_dir_no_usage now sizes d net : disk d = [] -> used_mb net (setup now sizes d) = 0.
Proof.
  intro He. rewrite used_mb_terms, !nsum_zero; [reflexivity|..]; intros b Hb; apply unfinished_free;
    (destruct (b_fin b) eqn:E; [|reflexivity]); apply (setup_only_present now sizes d b Hb) in E; rewrite He in E; destruct E.
Qed.

Lemma assign_effective updating v l : effective (assign updating v l) = v.
Proof. reflexivity. Qed.

Definition total_le (le : row -> row -> bool) := forall a b, le a b = true \/ le b a = true.
Definition trans_le (le : row -> row -> bool) := forall a b c, le a b = true -> le b c = true -> le a c = true.

Lemma isort_sorted le l : total_le le -> trans_le le -> sorted_by le (isort le l).
Proof.
  intros Ht Hr. exact (sort_sorted le (insert le) (isort le) (fun _ => eq_refl) (fun _ _ _ => eq_refl) eq_refl (fun _ _ => eq_refl)
    (sorted_by le) I (fun _ _ => iff_refl _) Ht Hr l).
Qed.

(* the keys are comparisons of numbers: read the booleans as propositions and the rest is linear arithmetic *)
Lemma order_keys : (total_le content_le /\ trans_le content_le) /\ (total_le net_le /\ trans_le net_le) /\
  (total_le sd_le /\ trans_le sd_le).
Proof.
  unfold total_le, trans_le, content_le, net_le, sd_le. repeat split.
  1, 3: intros a b; rewrite !lex_pair_iff; lia.
  1, 2: intros a b c; rewrite !lex_pair_iff; lia.
  - intros a b. destruct (N.le_ge_cases (r_added a) (r_added b)) as [H|H]; [left | right]; apply N.leb_le, H.
  - intros a b c H1 H2. apply N.leb_le in H1, H2. apply N.leb_le. lia.
Qed.

Lemma cands_sorted d :
  sorted_by net_le (cands true d) /\
  exists cb sd, cands false d = cb ++ sd /\ sorted_by content_le cb /\ sorted_by sd_le sd.
Proof.
  split; [apply isort_sorted; apply order_keys|].
  eexists. eexists. split; [reflexivity|]. split; apply isort_sorted; apply order_keys.
Qed.

(* with any non-zero content limit the test before 9764e59 never returned early: one candidate is always deleted *)
Lemma old_always_deletes limit d : limit <> 0%Z -> cands false d <> [] -> fst (clean_pass_old false limit d) <> [].
Proof.
  intros Hz Hc. unfold clean_pass_old, clean_pass_with. cbv zeta. unfold skip_old. simpl negb. cbv iota.
  apply Z.eqb_neq in Hz. rewrite Hz. cbn [fst].
  destruct (cands false d) as [|c r]; [congruence|]. intro E. apply map_eq_nil in E. revert E. apply sweep_nonempty.
Qed.

(* [wf] of a concrete state is decided by evaluation *)
Definition wfb (d : db) : bool :=
  nodupb (map b_hash (blobs d)) && nodupb (map fst (streams d)) && nodupb (files d) &&
  forallb (fun b => negb (is_sd (streams d) (b_hash b)) || (b_len b <? MiB)) (blobs d).

Lemma wfb_wf d : wfb d = true -> wf d.
Proof.
  unfold wfb. rewrite !andb_true_iff, forallb_forall. intros [[[A B] C] D].
  repeat split; try (apply nodupb_NoDup; assumption). intros b Hb Hs.
  specialize (D b Hb). rewrite Hs in D. apply N.ltb_lt. exact D.
Qed.

Lemma old_condition_refuted :
  wf witness_db /\ (Z.of_N (used_mb false witness_db) <= 100)%Z /\ fst (clean_pass_old false 100 witness_db) = [1] /\ clean_pass false 100 witness_db = ([], witness_db).
Proof. split; [apply wfb_wf; reflexivity | vm_compute; repeat split; congruence]. Qed.

Lemma ex_db_wf : wf ex_db.
Proof. apply wfb_wf. reflexivity. Qed.

Lemma sweep_db_wf : wf sweep_db.
Proof. apply wfb_wf. reflexivity. Qed.

Lemma ex_db_own : In 21 (own_hashes ex_db) /\ In 21 (disk ex_db).
Proof. split; vm_compute; tauto. Qed.

Lemma ex_db_enough : enough false 5 ex_db /\ enough true 1 ex_db.
Proof. split; vm_compute; discriminate. Qed.

Lemma ex_db_rows : pass_rows false 5 ex_db <> [] /\ pass_rows true 1 ex_db <> [].
Proof. split; vm_compute; discriminate. Qed.

Lemma sweep_db_not_enough : ~ enough false 1 sweep_db /\ (1 < Z.of_N (used_mb false sweep_db))%Z.
Proof. split; vm_compute; [intro H; apply H; reflexivity | reflexivity]. Qed.
