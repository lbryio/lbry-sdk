(* C08: merkle proofs (lbry/wallet/ledger.py: get_root_of_merkle_tree, maybe_verify_transaction).  The verifier's
   fold over a branch is tied to the tree a block builds one level at a time (level_step, fuel_ind).  Two different
   proofs that fold to the same root yield an explicit hash collision, because a level's hash input splits back
   into sibling and running hash (binding_core); the mutation theorems are instances.  Everything about
   maybe_verify is read off its case analysis (mv_in_range, mv_spec). *)
From Coq Require Import ZArith List Bool Lia.
From Coq.Strings Require Import Byte.
From LV Require Lib.Hex.
From LV Require Import Lib.Bytes Lib.Lists Model.C08.
Import ListNotations.

(* Model/C08.v has hexlify and unhexlify of its own, convertible with those of Lib.Hex: the facts are taken from
   there and stated over the model's names, where rewriting finds them *)
Lemma unhexlify_hexlify b : unhexlify (hexlify b) = Some b.
Proof. exact (Hex.unhexlify_hexlify b). Qed.

Lemma hexlify_inj a b : hexlify a = hexlify b -> a = b.
Proof. exact (Hex.hexlify_inj a b). Qed.

Lemma hexlify_length b : length (hexlify b) = (2 * length b)%nat.
Proof. exact (Hex.hexlify_length b). Qed.

Lemma rev_inj {A} (a b : list A) : rev a = rev b -> a = b.
Proof. intro H. rewrite <- (rev_involutive a), <- (rev_involutive b), H. reflexivity. Qed.

Lemma wire_eqb a b : bytes_eqb (wire a) (wire b) = true <-> a = b.
Proof.
  rewrite bytes_eqb_eq. split; [|congruence]. intro H. apply rev_inj, hexlify_inj, H.
Qed.

Lemma decode_branches_wire br : decode_branches (map wire br) = Some br.
Proof.
  induction br as [|b r IH]; [reflexivity|].
  cbn [map decode_branches]. unfold wire at 1. rewrite unhexlify_hexlify, IH, rev_involutive. reflexivity.
Qed.

Lemma app_inj_len {A} (a b c d : list A) :
  length a = length c \/ length b = length d -> a ++ b = c ++ d -> a = c /\ b = d.
Proof. intros [L|L]; [apply app_inv_len | apply app_inv_len_r]; exact L. Qed.

Lemma combine_length s b w : length (combine s b w) = (length b + length w)%nat.
Proof. destruct s; cbn [combine]; rewrite app_length; lia. Qed.

Lemma combine_inj s b1 b2 w1 w2 : length b1 = length b2 \/ length w1 = length w2 ->
  combine s b1 w1 = combine s b2 w2 -> b1 = b2 /\ w1 = w2.
Proof. intros L H. destruct s; cbn [combine] in H; apply app_inj_len in H; tauto. Qed.

Lemma bytes_eq_dec (a b : bytes) : {a = b} + {a <> b}.
Proof. destruct (bytes_eqb a b) eqn:E; [left; apply bytes_eqb_eq, E | right; apply bytes_eqb_neq, E]. Qed.

Lemma Zodd_of_nat n : Z.odd (Z.of_nat n) = Nat.odd n.
Proof.
  rewrite (Nat.div2_odd n) at 1. rewrite Nat2Z.inj_add, Nat2Z.inj_mul, Z.add_comm, Z.odd_add_mul_2.
  destruct (Nat.odd n); reflexivity.
Qed.

Lemma div2_bound n : (2 * Nat.div2 n <= n <= 2 * Nat.div2 n + 1)%nat.
Proof. pose proof (Nat.div2_odd n). destruct (Nat.odd n); cbn [Nat.b2n] in *; lia. Qed.

Lemma Zdiv2_of_nat n : Z.div2 (Z.of_nat n) = Z.of_nat (Nat.div2 n).
Proof. rewrite Z.div2_div. pose proof (div2_bound n). lia. Qed.

Section Merkle.
Variable dsha : bytes -> bytes.
Notation fold_from := (fold_from dsha).
Notation fold_branch := (fold_branch dsha).
Notation pair_up := (pair_up dsha).
Notation root_fuel := (root_fuel dsha).
Notation merkle_root := (merkle_root dsha).
Notation branch_fuel := (branch_fuel dsha).
Notation branch := (branch dsha).
Notation collision_from := (collision_from dsha).
Notation collision := (collision dsha).
Notation get_root_of_merkle_tree := (get_root_of_merkle_tree dsha).
Notation maybe_verify := (maybe_verify dsha).

Lemma fold_from_app a : forall i b p w,
  fold_from i (a ++ b) p w = fold_from (i + length a) b p (fold_from i a p w).
Proof.
  induction a as [|x a IH]; intros i b p w; cbn [app fold_from length].
  - f_equal. lia.
  - rewrite IH. f_equal. lia.
Qed.

(* two positions name the same sides on the n levels from level i on *)
Definition same_sides (i n : nat) (p1 p2 : Z) : Prop :=
  forall j, (i <= j < i + n)%nat -> Z.testbit p1 (Z.of_nat j) = Z.testbit p2 (Z.of_nat j).

Lemma same_sides_S i n p1 p2 : same_sides i (S n) p1 p2 ->
  Z.testbit p1 (Z.of_nat i) = Z.testbit p2 (Z.of_nat i) /\ same_sides (S i) n p1 p2.
Proof. intro H. split; [apply H; lia | intros j Hj; apply H; lia]. Qed.

Lemma mod_same_sides p1 p2 n : (p1 mod 2 ^ Z.of_nat n = p2 mod 2 ^ Z.of_nat n)%Z -> same_sides 0 n p1 p2.
Proof.
  intros H j Hj. rewrite <- (Z.mod_pow2_bits_low p1 (Z.of_nat n)), H by lia.
  apply Z.mod_pow2_bits_low. lia.
Qed.

Lemma fold_from_ext br : forall i p1 p2 w, same_sides i (length br) p1 p2 -> fold_from i br p1 w = fold_from i br p2 w.
Proof.
  induction br as [|b r IH]; intros i p1 p2 w H; cbn [fold_from]; [reflexivity|].
  apply same_sides_S in H as [-> H]. apply IH, H.
Qed.

(* bits at or above the branch length do not matter (what Bitcoin's own check does too) *)
Lemma fold_branch_mod br p1 p2 w :
  (p1 mod 2 ^ Z.of_nat (length br) = p2 mod 2 ^ Z.of_nat (length br))%Z ->
  fold_branch br p1 w = fold_branch br p2 w.
Proof. intro H. apply fold_from_ext, mod_same_sides, H. Qed.

Lemma get_root_wire br p w : get_root_of_merkle_tree (map wire br) p w = Some (wire (fold_branch br p w)).
Proof. unfold C08.get_root_of_merkle_tree. now rewrite decode_branches_wire. Qed.

Lemma pair_ind (P : list bytes -> Prop) :
  P [] -> (forall a, P [a]) -> (forall a b r, P r -> P (a :: b :: r)) -> forall l, P l.
Proof.
  intros H0 H1 H2.
  assert (H : forall l, P l /\ forall a, P (a :: l)).
  { induction l as [|x l [IHa IHb]]; split; auto. }
  intro l. apply H.
Qed.

Lemma pair_up_length l : (length l <= 2 * length (pair_up l) <= length l + 1)%nat.
Proof. induction l as [| a | a b r IH] using pair_ind; cbn [C08.pair_up length]; lia. Qed.

Lemma sibling_SS a b r i : sibling (a :: b :: r) (S (S i)) = sibling r i.
Proof. destruct i; reflexivity. Qed.

(* one level: the parent of node idx is the hash the verifier's loop computes from it *)
Lemma level_step l : forall idx, (idx < length l)%nat ->
  nth (Nat.div2 idx) (pair_up l) [] = dsha (combine (Nat.odd idx) (sibling l idx) (nth idx l [])).
Proof.
  induction l as [| a | a b r IH] using pair_ind; cbn [length]; intros idx H.
  - lia.
  - replace idx with 0%nat by lia. reflexivity.
  - destruct idx as [|[|i]]; [reflexivity..|].
    rewrite sibling_SS. cbn [Nat.div2 C08.pair_up nth]. rewrite IH by lia. reflexivity.
Qed.

(* [root_fuel] and [branch_fuel] go up one level per unit of fuel, and a level halves the number of nodes:
   [fuel_ind] is the induction over levels for lists that fuel [f] is enough for *)
Lemma root_fuel_step f l : (2 <= length l)%nat -> root_fuel (S f) l = root_fuel f (pair_up l).
Proof. destruct l as [|a [|b t]]; cbn [length]; (lia || reflexivity). Qed.

Lemma branch_fuel_step f l idx : (2 <= length l)%nat ->
  branch_fuel (S f) l idx = sibling l idx :: branch_fuel f (pair_up l) (Nat.div2 idx).
Proof. destruct l as [|a [|b t]]; cbn [length]; (lia || reflexivity). Qed.

Lemma fuel_ind (P : nat -> list bytes -> Prop) :
  (forall f, P f []) -> (forall f a, P f [a]) ->
  (forall f l, (2 <= length l <= S (S f))%nat -> P f (pair_up l) -> P (S f) l) ->
  forall f l, (length l <= S f)%nat -> P f l.
Proof.
  intros H0 H1 H2. induction f as [|f IH]; intros [|a [|b t]] H; auto; cbn [length] in H; [lia|].
  apply H2; [cbn [length]; lia|]. apply IH. pose proof (pair_up_length (a :: b :: t)). cbn [length] in *. lia.
Qed.

(* all levels: folding the generated branch from leaf idx reaches the root, for any position whose bits
   from i on spell idx *)
Lemma genuine_fuel : forall fuel l, (length l <= S fuel)%nat ->
  forall idx i p, (idx < length l)%nat -> Z.shiftr p (Z.of_nat i) = Z.of_nat idx ->
  root_fuel fuel l = Some (fold_from i (branch_fuel fuel l idx) p (nth idx l [])).
Proof.
  apply (fuel_ind (fun fuel l => forall idx i p, (idx < length l)%nat -> _ -> root_fuel fuel l = Some _)).
  - cbn [length]. lia.
  - intros [|f] a idx i p H _; cbn [length] in H; replace idx with 0%nat by lia; reflexivity.
  - intros f l Hl IH idx i p H Hp.
    rewrite root_fuel_step, branch_fuel_step by lia. cbn [C08.fold_from].
    rewrite Z.testbit_odd, Hp, Zodd_of_nat, <- level_step by exact H.
    apply IH.
    + pose proof (pair_up_length l). pose proof (div2_bound idx). lia.
    + rewrite Nat2Z.inj_succ, <- Z.add_1_r, <- Z.shiftr_shiftr, Hp, <- Z.div2_spec by lia. apply Zdiv2_of_nat.
Qed.

Lemma genuine_root l idx : (idx < length l)%nat ->
  merkle_root l = Some (fold_branch (branch l idx) (Z.of_nat idx) (nth idx l [])).
Proof. intro H. apply genuine_fuel; [lia | exact H | apply Z.shiftr_0_r]. Qed.

Lemma genuine l idx : (idx < length l)%nat ->
  exists r, merkle_root l = Some r /\ fold_branch (branch l idx) (Z.of_nat idx) (nth idx l []) = r.
Proof. intro H. exact (ex_intro _ _ (conj (genuine_root l idx H) eq_refl)). Qed.

Lemma genuine_wire l idx : (idx < length l)%nat ->
  exists r, merkle_root l = Some r /\
    get_root_of_merkle_tree (map wire (branch l idx)) (Z.of_nat idx) (nth idx l []) = Some (wire r).
Proof. intro H. eexists. split; [apply genuine_root, H | apply get_root_wire]. Qed.

Lemma branch_fuel_length : forall fuel l, (length l <= S fuel)%nat ->
  forall idx, (length l <= 2 ^ length (branch_fuel fuel l idx))%nat.
Proof.
  apply (fuel_ind (fun fuel l => forall idx, (length l <= 2 ^ length (branch_fuel fuel l idx))%nat)).
  - intros [|f] idx; cbn; lia.
  - intros [|f] a idx; cbn; lia.
  - intros f l Hl IH idx. rewrite branch_fuel_step by lia. cbn [length]. rewrite Nat.pow_succ_r'.
    specialize (IH (Nat.div2 idx)). pose proof (pair_up_length l). lia.
Qed.

Lemma branch_length_covers l idx : (length l <= 2 ^ length (branch l idx))%nat.
Proof. apply branch_fuel_length. lia. Qed.

Lemma branch_fuel_length_indep : forall fuel l i j, length (branch_fuel fuel l i) = length (branch_fuel fuel l j).
Proof.
  induction fuel as [|f IH]; intros [|a [|b t]] i j; try reflexivity.
  cbn [C08.branch_fuel length]. f_equal. apply IH.
Qed.

Lemma idx_fits l idx : (idx < length l)%nat ->
  (0 <= Z.of_nat idx < 2 ^ Z.of_nat (length (branch l idx)))%Z.
Proof.
  intro H. pose proof (branch_length_covers l idx). rewrite <- (Nat2Z.inj_pow 2). lia.
Qed.

Lemma genuine_any_high_bits l idx pos : (idx < length l)%nat ->
  (pos mod 2 ^ Z.of_nat (length (branch l idx)) = Z.of_nat idx)%Z ->
  exists r, merkle_root l = Some r /\ fold_branch (branch l idx) pos (nth idx l []) = r.
Proof.
  intros H Hp. eexists. split; [apply genuine_root, H|].
  apply fold_branch_mod. rewrite Hp. symmetry. apply Z.mod_small, idx_fits, H.
Qed.

Lemma root_fuel_indep : forall f1 l, (length l <= S f1)%nat -> forall f2, (length l <= S f2)%nat ->
  root_fuel f1 l = root_fuel f2 l.
Proof.
  apply (fuel_ind (fun f1 l => forall f2, (length l <= S f2)%nat -> root_fuel f1 l = root_fuel f2 l)).
  - intros [|f1] [|f2] _; reflexivity.
  - intros [|f1] a [|f2] _; reflexivity.
  - intros f1 l Hl IH [|f2] H2; [lia|]. rewrite !root_fuel_step by lia.
    apply IH. pose proof (pair_up_length l). lia.
Qed.

Lemma pair_up_dup_last (l : list bytes) : Nat.odd (length l) = true -> pair_up (l ++ [last l []]) = pair_up l.
Proof.
  induction l as [| a | a b r IH] using pair_ind; intro H; [discriminate | reflexivity |].
  cbn [app C08.pair_up]. f_equal. destruct r; [discriminate | exact (IH H)].
Qed.

(* Bitcoin's duplicated last node: l and l ++ [last l] have the same root *)
Theorem dup_last_same_root (l : list bytes) : Nat.odd (length l) = true -> (3 <= length l)%nat ->
  merkle_root (l ++ [last l []]) = merkle_root l.
Proof.
  intros Ho H3. unfold C08.merkle_root. rewrite app_length, Nat.add_1_r.
  rewrite (root_fuel_indep (length l) l) with (f2 := S (length l)) by lia.
  rewrite !root_fuel_step by (rewrite ?app_length; lia). now rewrite pair_up_dup_last.
Qed.

Definition same_widths (br1 br2 : list bytes) : Prop := Forall2 (fun a b : bytes => length a = length b) br1 br2.

Lemma same_widths_refl br : same_widths br br.
Proof. induction br; constructor; auto. Qed.

Lemma same_widths_length br1 br2 : same_widths br1 br2 -> length br1 = length br2.
Proof. induction 1; cbn [length]; congruence. Qed.

Definition is_collision (o : option (bytes * bytes)) : Prop :=
  exists x y, o = Some (x, y) /\ x <> y /\ dsha x = dsha y.

(* one level of [collision_from]: the search goes on below only if this level's two inputs are the
   same or their hashes differ *)
Lemma collision_step c1 c2 rest :
  (c1 = c2 \/ dsha c1 <> dsha c2 -> is_collision rest) ->
  is_collision (if negb (bytes_eqb c1 c2) && bytes_eqb (dsha c1) (dsha c2) then Some (c1, c2) else rest).
Proof.
  intro H. destruct (bytes_eqb c1 c2) eqn:E; cbn [negb andb].
  - apply H. left. apply bytes_eqb_eq, E.
  - destruct (bytes_eqb (dsha c1) (dsha c2)) eqn:D.
    + exists c1, c2. split; [reflexivity|]. split; [apply bytes_eqb_neq, E | apply bytes_eqb_eq, D].
    + apply H. right. apply bytes_eqb_neq, D.
Qed.

(* The core: same sides on the levels the branch spans, different (branch, start) but the same end: some
   level hashes two different inputs to the same value, and [collision_from] returns that pair.
   What makes it go through is that a level's input splits back into sibling and running hash; [R]
   (on siblings) and [Q] (on running hashes) are whatever guarantees that.  No assumption on dsha. *)
Section Core.
Variables R Q : bytes -> bytes -> Prop.
Hypothesis splits : forall s b1 b2 w1 w2, R b1 b2 -> Q w1 w2 ->
  combine s b1 w1 = combine s b2 w2 -> b1 = b2 /\ w1 = w2.
Hypothesis Q_hash : forall x y, Q (dsha x) (dsha y).

Lemma binding_core br1 br2 p1 p2 : Forall2 R br1 br2 -> forall i w1 w2, Q w1 w2 ->
  same_sides i (length br1) p1 p2 ->
  (br1, w1) <> (br2, w2) ->
  fold_from i br1 p1 w1 = fold_from i br2 p2 w2 ->
  is_collision (collision_from i br1 br2 p1 p2 w1 w2).
Proof.
  induction 1 as [|b1 b2 r1 r2 HR _ IH]; intros i w1 w2 HQ Hb Hne Hf; cbn [C08.fold_from] in Hf.
  - congruence.
  - cbn [C08.collision_from]. apply same_sides_S in Hb as [Hi Hb]. rewrite <- Hi in *.
    apply collision_step. intro Hc. apply IH; auto.
    intro E. injection E as -> Ed. destruct Hc as [Hc|Hc]; [|contradiction].
    apply splits in Hc as [-> ->]; auto.
Qed.
End Core.

Lemma binding_from br1 br2 i p1 p2 w1 w2 :
  same_widths br1 br2 -> same_sides i (length br1) p1 p2 ->
  (br1, w1) <> (br2, w2) ->
  fold_from i br1 p1 w1 = fold_from i br2 p2 w2 ->
  is_collision (collision_from i br1 br2 p1 p2 w1 w2).
Proof.
  intro Hw. apply (binding_core (fun a b => length a = length b) (fun _ _ => True)); auto.
  intros s b1 b2 w1' w2' L _. apply combine_inj. left. exact L.
Qed.

Theorem binding br1 br2 p1 p2 leaf1 leaf2 :
  same_widths br1 br2 ->
  (p1 mod 2 ^ Z.of_nat (length br1) = p2 mod 2 ^ Z.of_nat (length br1))%Z ->
  (br1, leaf1) <> (br2, leaf2) ->
  fold_branch br1 p1 leaf1 = fold_branch br2 p2 leaf2 ->
  exists x y, collision br1 br2 p1 p2 leaf1 leaf2 = Some (x, y) /\ x <> y /\ dsha x = dsha y.
Proof.
  intros Hw Hp. apply binding_from; [exact Hw | apply mod_same_sides, Hp].
Qed.

Lemma Forall2_True {A} (l1 : list A) : forall l2 : list A, length l1 = length l2 -> Forall2 (fun _ _ => True) l1 l2.
Proof. induction l1; intros [|] L; try discriminate; constructor; auto. Qed.

(* variant for siblings of arbitrary widths (the code does not check them): it needs the hash to
   have a fixed output length and the two leaves to have equal length *)
Theorem binding_fixed_out br1 br2 p1 p2 leaf1 leaf2 :
  (forall x y, length (dsha x) = length (dsha y)) ->
  length br1 = length br2 -> length leaf1 = length leaf2 ->
  (p1 mod 2 ^ Z.of_nat (length br1) = p2 mod 2 ^ Z.of_nat (length br1))%Z ->
  (br1, leaf1) <> (br2, leaf2) ->
  fold_branch br1 p1 leaf1 = fold_branch br2 p2 leaf2 ->
  is_collision (collision br1 br2 p1 p2 leaf1 leaf2).
Proof.
  intros Hout Hl Hw Hp.
  apply (binding_core (fun _ _ => True) (fun a b => length a = length b)); auto using Forall2_True.
  - intros s b1 b2 w1 w2 _ L. apply combine_inj. right. exact L.
  - apply mod_same_sides, Hp.
Qed.

Lemma collision_from_length n :
  (forall x, length (dsha x) = n) ->
  forall br1 br2 i p1 p2 w1 w2 x y,
  Forall (fun b : bytes => length b = n) br1 -> Forall (fun b : bytes => length b = n) br2 ->
  length w1 = n -> length w2 = n ->
  collision_from i br1 br2 p1 p2 w1 w2 = Some (x, y) -> length x = (n + n)%nat /\ length y = (n + n)%nat.
Proof.
  intro Hout.
  induction br1 as [|b1 r1 IH]; intros [|b2 r2] i p1 p2 w1 w2 x y H1 H2 L1 L2 Hc; try discriminate.
  inversion H1; inversion H2; subst. cbn [C08.collision_from] in Hc.
  destruct (_ && _) in Hc.
  - injection Hc as <- <-. rewrite !combine_length. lia.
  - eapply IH; [| | | | exact Hc]; auto.
Qed.

Theorem binding_64 br1 br2 p1 p2 leaf1 leaf2 :
  (forall x, length (dsha x) = 32%nat) ->
  length br1 = length br2 ->
  Forall (fun b : bytes => length b = 32%nat) br1 -> Forall (fun b : bytes => length b = 32%nat) br2 ->
  length leaf1 = 32%nat -> length leaf2 = 32%nat ->
  (p1 mod 2 ^ Z.of_nat (length br1) = p2 mod 2 ^ Z.of_nat (length br1))%Z ->
  (br1, leaf1) <> (br2, leaf2) ->
  fold_branch br1 p1 leaf1 = fold_branch br2 p2 leaf2 ->
  exists x y, collision br1 br2 p1 p2 leaf1 leaf2 = Some (x, y) /\ x <> y /\ dsha x = dsha y /\
              length x = 64%nat /\ length y = 64%nat.
Proof.
  intros Hout Hl H1 H2 L1 L2 Hp Hne Hf.
  destruct (binding_fixed_out br1 br2 p1 p2 leaf1 leaf2) as (x & y & Hc & Hxy & Hd); auto; try congruence.
  exists x, y. repeat split; auto; apply (collision_from_length 32 Hout _ _ _ _ _ _ _ _ _ H1 H2 L1 L2 Hc).
Qed.

(* SPV soundness against the block's own tree: a proof that folds to the root of the tree built from leaf list l,
   presented with a position whose low bits name index j of the block and with the branch length of that tree,
   carries exactly the j-th leaf and the genuine branch -- or [collision] returns an explicit collision *)
Theorem verified_member l br pos leaf r j :
  merkle_root l = Some r -> (j < length l)%nat ->
  (pos mod 2 ^ Z.of_nat (length br) = Z.of_nat j)%Z ->
  same_widths br (branch l j) ->
  fold_branch br pos leaf = r ->
  (leaf = nth j l [] /\ br = branch l j) \/ is_collision (collision br (branch l j) pos (Z.of_nat j) leaf (nth j l [])).
Proof.
  intros Hr Hj Hp Hw Hf. pose proof (genuine_root l j Hj) as Hg.
  destruct (list_eq_dec bytes_eq_dec (leaf :: br) (nth j l [] :: branch l j)) as [E|E].
  - left. injection E as -> ->. auto.
  - right. apply binding; [exact Hw | | congruence..].
    rewrite Hp, (same_widths_length _ _ Hw). symmetry. apply Z.mod_small, idx_fits, Hj.
Qed.

Theorem tx_mutation br pos raw1 raw2 :
  raw1 <> raw2 ->
  fold_branch br pos (dsha raw1) = fold_branch br pos (dsha raw2) ->
  exists x y, x <> y /\ dsha x = dsha y /\
    ((x, y) = (raw1, raw2) \/ collision br br pos pos (dsha raw1) (dsha raw2) = Some (x, y)).
Proof.
  intros Hne Hf.
  destruct (bytes_eq_dec (dsha raw1) (dsha raw2)) as [E|E].
  - exists raw1, raw2. auto.
  - destruct (binding br br pos pos (dsha raw1) (dsha raw2)) as (x & y & Hc & Hxy & Hd);
      auto using same_widths_refl; [congruence|].
    exists x, y. auto.
Qed.

(* One position bit flipped at level k.  The levels below see the same bits and hash the same inputs; at
   level k sibling and running hash change sides: either both orders give the same string, or the two
   hashes collide there, or they differ and the levels above (same bits, same siblings) are binding. *)
Lemma flip_core : forall k br i p' p w,
  (k < length br)%nat ->
  Z.testbit p' (Z.of_nat (i + k)) = negb (Z.testbit p (Z.of_nat (i + k))) ->
  (forall j, (i <= j < i + length br)%nat -> j <> (i + k)%nat -> Z.testbit p' (Z.of_nat j) = Z.testbit p (Z.of_nat j)) ->
  fold_from i br p' w = fold_from i br p w ->
  (nth k br [] ++ fold_from i (firstn k br) p w = fold_from i (firstn k br) p w ++ nth k br []) \/
  is_collision (collision_from i br br p' p w w).
Proof.
  induction k as [|k IH]; intros [|b r] i p' p w Hk Hflip Hsame Hf; cbn [length] in Hk; try lia;
    cbn [firstn nth C08.fold_from C08.collision_from] in *.
  - rewrite Nat.add_0_r in Hflip. rewrite Hflip in *.
    destruct (bytes_eq_dec (combine (negb (Z.testbit p (Z.of_nat i))) b w)
                           (combine (Z.testbit p (Z.of_nat i)) b w)) as [Ec|Ec].
    + left. destruct (Z.testbit p (Z.of_nat i)); cbn [negb combine] in Ec; auto.
    + right. apply collision_step. intros [Hc|Hc]; [contradiction|].
      apply binding_from; auto using same_widths_refl; [|congruence].
      intros j Hj. apply Hsame; cbn [length]; lia.
  - rewrite (Hsame i) in * by (cbn [length]; lia). rewrite bytes_eqb_refl. cbn [negb andb].
    rewrite <- Nat.add_succ_comm in Hflip.
    apply IH; auto; [lia|]. intros j Hj Hjk. apply Hsame; cbn [length]; lia.
Qed.

Theorem position_bit_mutation br pos' pos leaf k :
  (k < length br)%nat ->
  Z.testbit pos' (Z.of_nat k) = negb (Z.testbit pos (Z.of_nat k)) ->
  (forall j, (j < length br)%nat -> j <> k -> Z.testbit pos' (Z.of_nat j) = Z.testbit pos (Z.of_nat j)) ->
  fold_branch br pos' leaf = fold_branch br pos leaf ->
  (nth k br [] ++ fold_branch (firstn k br) pos leaf = fold_branch (firstn k br) pos leaf ++ nth k br []) \/
  is_collision (collision br br pos' pos leaf leaf).
Proof.
  intros Hk Hflip Hsame. apply (flip_core k br 0); [exact Hk | exact Hflip|].
  intros j Hj. apply Hsame, Hj.
Qed.

Lemma lxor_pow2_flip pos k j :
  Z.testbit (Z.lxor pos (2 ^ Z.of_nat k)) (Z.of_nat j) =
  if Nat.eqb j k then negb (Z.testbit pos (Z.of_nat j)) else Z.testbit pos (Z.of_nat j).
Proof.
  rewrite Z.lxor_spec, Z.pow2_bits_eqb by lia.
  destruct (Nat.eqb_spec j k) as [->|E].
  - rewrite Z.eqb_refl. apply xorb_true_r.
  - rewrite (proj2 (Z.eqb_neq _ _)) by lia. apply xorb_false_r.
Qed.

Definition in_range (headers : list bytes) (h : Z) : Prop := (0 < h < Z.of_nat (length headers))%Z.

Lemma in_range_spec headers h :
  reflect (in_range headers h) ((0 <? h) && (h <? Z.of_nat (length headers)))%Z.
Proof. apply iff_reflect. unfold in_range. rewrite andb_true_iff, !Z.ltb_lt. tauto. Qed.

(* the proof carried by the dict folds to the root stored in the header at height h *)
Definition proof_checks (headers : list bytes) (raw_tx : bytes) (h : Z) (m : merkle_resp) : Prop :=
  exists brs pos br, m_merkle m = Some brs /\ m_pos m = Some pos /\ decode_branches brs = Some br /\
     fold_branch br pos (dsha raw_tx) = header_root_raw (nth (Z.to_nat h) headers []) /\
     pos_fits brs pos = true.

Lemma root_eqb_iff x hdr : bytes_eqb (hexlify (rev x)) (header_merkle_root hdr) = true <-> x = header_root_raw hdr.
Proof. exact (wire_eqb x (header_root_raw hdr)). Qed.

Lemma pos_fits_iff {A} (brs : list A) pos :
  pos_fits brs pos = true <-> (0 <= pos < 2 ^ Z.of_nat (length brs))%Z.
Proof. unfold pos_fits. rewrite andb_true_iff, Z.leb_le, Z.ltb_lt. tauto. Qed.

Lemma nth_map_hash raws j : (j < length raws)%nat -> nth j (map dsha raws) [] = dsha (nth j raws []).
Proof. intro H. rewrite (nth_indep _ [] (dsha [])) by now rewrite map_length. apply map_nth. Qed.

Lemma mv_out_of_range headers st raw h arg net :
  ~ in_range headers h ->
  maybe_verify headers st raw h arg net =
  ({| t_height := h; t_position := t_position st; t_verified := t_verified st |}, RetTx, false).
Proof. intro H. unfold C08.maybe_verify. destruct (in_range_spec headers h); [contradiction | reflexivity]. Qed.

Lemma mv_in_range headers st raw h arg net :
  in_range headers h ->
  maybe_verify headers st raw h arg net =
  let m := effective arg net in
  let fetched := match arg with Some _ => false | None => true end in
  let st1 := {| t_height := h; t_position := t_position st; t_verified := t_verified st |} in
  match m_merkle m with
  | None => (st1, RetNone, fetched)
  | Some brs =>
      match m_pos m with
      | None => (st1, RaiseKeyError, fetched)
      | Some pos =>
          if negb (pos_fits brs pos)
          then ({| t_height := h; t_position := t_position st; t_verified := false |}, RetTx, fetched) else
          match get_root_of_merkle_tree brs pos (dsha raw) with
          | None => (st1, RaiseHexError, fetched)
          | Some root =>
              ({| t_height := h; t_position := pos;
                  t_verified := bytes_eqb root (header_merkle_root (nth (Z.to_nat h) headers [])) |},
               RetTx, fetched)
          end
      end
  end.
Proof. intro H. unfold C08.maybe_verify. destruct (in_range_spec headers h); [reflexivity | contradiction]. Qed.

(* A call at a height that has a header, by the way it ends.  After looking at a proof it ends normally and
   overwrites the flag with the result of the comparison, and the position with the supplied one if the
   branch can address it (if not, that is no proof: fix 3419b3f); every other ending leaves the flag, and then
   the dict held no proof that checks. *)
Lemma mv_spec headers st raw h arg net : in_range headers h ->
  let r := maybe_verify headers st raw h arg net in
  t_height (mv_state r) = h /\
  match mv_outcome r with
  | RetTx =>
      (t_verified (mv_state r) = true <-> proof_checks headers raw h (effective arg net)) /\
      exists brs pos, m_merkle (effective arg net) = Some brs /\ m_pos (effective arg net) = Some pos /\
        (if pos_fits brs pos then t_position (mv_state r) = pos
         else t_position (mv_state r) = t_position st /\ t_verified (mv_state r) = false)
  | _ => t_verified (mv_state r) = t_verified st /\ ~ proof_checks headers raw h (effective arg net)
  end.
Proof.
  intro Hr. rewrite (mv_in_range _ _ _ _ _ _ Hr). cbv zeta. unfold proof_checks.
  destruct (m_merkle (effective arg net)) as [brs|] eqn:Em; [destruct (m_pos (effective arg net)) as [pos|] eqn:Ep|];
    [destruct (pos_fits brs pos) eqn:Ef; cbn [negb];
       [unfold C08.get_root_of_merkle_tree; destruct (decode_branches brs) as [br|] eqn:Ed|]|..];
    unfold mv_outcome, mv_state; cbn [fst snd t_height t_position t_verified]; (split; [reflexivity|]);
    (* a sibling is not hex or a key is missing: each contradicts [proof_checks] *)
    try (split; [reflexivity|]; intros (?&?&?&?&?&?&?&?); congruence);
    (split; [|exists brs, pos; rewrite Ef; auto]).
  - rewrite root_eqb_iff. split.
    + intro H. exists brs, pos, br. auto.
    + intros (?&?&?&?&?&?&?&?). congruence.
  - split; [discriminate|]. intros (?&?&?&?&?&?&?&?). congruence.
Qed.

Theorem height_recorded headers st raw h arg net :
  t_height (mv_state (maybe_verify headers st raw h arg net)) = h.
Proof.
  destruct (in_range_spec headers h) as [Hr|Hr]; [apply (mv_spec _ _ _ _ _ _ Hr) | now rewrite mv_out_of_range].
Qed.

(* the new value of the flag, for every previous state *)
Theorem verified_char headers st raw h arg net :
  let r := maybe_verify headers st raw h arg net in
  (in_range headers h /\ mv_outcome r = RetTx ->
     (t_verified (mv_state r) = true <-> proof_checks headers raw h (effective arg net))) /\
  (~ (in_range headers h /\ mv_outcome r = RetTx) -> t_verified (mv_state r) = t_verified st).
Proof.
  cbv zeta. destruct (in_range_spec headers h) as [Hr|Hr].
  - destruct (mv_spec headers st raw h arg net Hr) as [_ F]. split.
    + intros [_ Ho]. rewrite Ho in F. apply F.
    + intro N. destruct (mv_outcome _); [tauto | apply F..].
  - rewrite mv_out_of_range by exact Hr. split; [tauto | reflexivity].
Qed.

(* for a transaction not yet verified, the flag is set iff the height has a header (0 < h < len headers) and the
   proof folds to that header's root *)
Theorem verified_iff headers st raw h arg net :
  t_verified st = false ->
  (t_verified (mv_state (maybe_verify headers st raw h arg net)) = true <->
   in_range headers h /\ proof_checks headers raw h (effective arg net)).
Proof.
  intro Hst. destruct (in_range_spec headers h) as [Hr|Hr].
  - destruct (mv_spec headers st raw h arg net Hr) as [_ F].
    destruct (mv_outcome _); [tauto | destruct F as [-> F]; rewrite Hst; intuition discriminate..].
  - rewrite mv_out_of_range by exact Hr. unfold mv_state. cbn [fst t_verified]. rewrite Hst.
    intuition discriminate.
Qed.

Theorem unknown_height_never_verified headers st raw h arg net :
  ~ in_range headers h ->
  let r := maybe_verify headers st raw h arg net in
  t_verified (mv_state r) = t_verified st /\ t_position (mv_state r) = t_position st /\
  mv_outcome r = RetTx /\ mv_fetched r = false.
Proof. intro H. cbv zeta. rewrite mv_out_of_range by exact H. repeat split. Qed.

(* the supplied position is recorded whenever the proof was evaluated (it fits the branch); a position
   the branch cannot address is NOT recorded (fix 3419b3f) *)
Theorem position_recorded headers st raw h arg net :
  let r := maybe_verify headers st raw h arg net in
  in_range headers h -> mv_outcome r = RetTx ->
  exists brs pos, m_merkle (effective arg net) = Some brs /\ m_pos (effective arg net) = Some pos /\
    (if pos_fits brs pos then t_position (mv_state r) = pos
     else t_position (mv_state r) = t_position st /\ t_verified (mv_state r) = false).
Proof.
  cbv zeta. intros Hr Ho. destruct (mv_spec headers st raw h arg net Hr) as [_ F]. rewrite Ho in F. apply F.
Qed.

(* a verified transaction's recorded position fits the branch: 0 <= position < 2^len(branch) *)
Theorem verified_position_fits headers st raw h arg net :
  t_verified st = false ->
  t_verified (mv_state (maybe_verify headers st raw h arg net)) = true ->
  exists brs, m_merkle (effective arg net) = Some brs /\
    m_pos (effective arg net) = Some (t_position (mv_state (maybe_verify headers st raw h arg net))) /\
    (0 <= t_position (mv_state (maybe_verify headers st raw h arg net)) < 2 ^ Z.of_nat (length brs))%Z.
Proof.
  intros Hst V. destruct (proj1 (verified_iff _ _ _ _ _ _ Hst) V) as [Hr _].
  destruct (mv_spec headers st raw h arg net Hr) as [_ F].
  destruct (mv_outcome _); [|destruct F as [F _]; congruence..].
  destruct F as (_ & brs & pos & E1 & E2 & F). exists brs. split; [exact E1|].
  destruct (pos_fits brs pos) eqn:Ef; [|destruct F; congruence].
  rewrite F. split; [exact E2 | apply pos_fits_iff, Ef].
Qed.

(* end to end: the genuine proof of transaction idx of a block whose root sits in the header at
   height h is accepted, whatever the previous state of the transaction *)
Theorem genuine_verified headers st raws idx h arg net r :
  (idx < length raws)%nat -> in_range headers h ->
  merkle_root (map dsha raws) = Some r ->
  header_root_raw (nth (Z.to_nat h) headers []) = r ->
  effective arg net = {| m_merkle := Some (map wire (branch (map dsha raws) idx));
                         m_pos := Some (Z.of_nat idx) |} ->
  let res := maybe_verify headers st (nth idx raws []) h arg net in
  t_verified (mv_state res) = true /\ t_position (mv_state res) = Z.of_nat idx /\
  t_height (mv_state res) = h /\ mv_outcome res = RetTx.
Proof.
  intros Hi Hr Hroot Hh He. cbv zeta.
  rewrite (mv_in_range _ _ _ _ _ _ Hr). cbv zeta. rewrite He. cbn [m_merkle m_pos].
  assert (Hi' : (idx < length (map dsha raws))%nat) by now rewrite map_length.
  rewrite (proj2 (pos_fits_iff _ _)) by (rewrite map_length; apply idx_fits, Hi'). cbn [negb].
  rewrite <- nth_map_hash, get_root_wire by exact Hi. unfold mv_state, mv_outcome. cbn [fst snd t_verified t_position t_height].
  repeat split. apply root_eqb_iff. pose proof (genuine_root _ _ Hi'). congruence.
Qed.

(* presenting the same proof for another height can only succeed if that header has the same root *)
Theorem height_mutation headers st raw h h' arg net :
  t_verified st = false ->
  t_verified (mv_state (maybe_verify headers st raw h arg net)) = true ->
  t_verified (mv_state (maybe_verify headers st raw h' arg net)) = true ->
  in_range headers h' /\
  header_root_raw (nth (Z.to_nat h') headers []) = header_root_raw (nth (Z.to_nat h) headers []).
Proof.
  intros Hst H1 H2.
  apply verified_iff in H1 as (_ & ? & ? & ? & ? & ? & ? & ? & _); [|exact Hst].
  apply verified_iff in H2 as (R & ? & ? & ? & ? & ? & ? & ? & _); [|exact Hst].
  split; [exact R | congruence].
Qed.

(* a verified transaction is the block's transaction at that index, or a collision is exhibited *)
Theorem verified_tx_in_block headers st raw h arg net raws r :
  t_verified st = false ->
  t_verified (mv_state (maybe_verify headers st raw h arg net)) = true ->
  merkle_root (map dsha raws) = Some r ->
  header_root_raw (nth (Z.to_nat h) headers []) = r ->
  exists brs pos br,
    m_merkle (effective arg net) = Some brs /\ m_pos (effective arg net) = Some pos /\
    decode_branches brs = Some br /\
    forall j, (j < length raws)%nat ->
      (pos mod 2 ^ Z.of_nat (length br) = Z.of_nat j)%Z ->
      same_widths br (branch (map dsha raws) j) ->
      (dsha raw = dsha (nth j raws []) /\ br = branch (map dsha raws) j) \/
      is_collision (collision br (branch (map dsha raws) j) pos (Z.of_nat j) (dsha raw) (dsha (nth j raws []))).
Proof.
  intros Hst Hv Hroot Hh.
  apply verified_iff in Hv as (_ & brs & pos & br & E1 & E2 & E3 & E4 & _); [|exact Hst].
  exists brs, pos, br. repeat split; try assumption.
  intros j Hj Hp Hw. rewrite <- nth_map_hash by exact Hj.
  apply (verified_member (map dsha raws) br pos (dsha raw) r j); try assumption; [|congruence].
  now rewrite map_length.
Qed.

End Merkle.

(* toy hashes for the examples of Proofs/C08_Toy.v and Props/C08.v *)
(* 32 bytes that depend on every byte of the input (a polynomial checksum) *)
Definition toy_hash (x : bytes) : bytes :=
  le_encode 32 (fold_left (fun a b => (a * 257 + N_of_byte b + 1) mod 2 ^ 200)%N x 7%N).
(* a constant "hash": everything collides *)
Definition const_hash (_ : bytes) : bytes := repeat x00 32.
(* the identity: no collisions at all *)
Definition id_hash (x : bytes) : bytes := x.
Definition leaf_n (n : N) : bytes := repeat (byte_of_N n) 32.
Definition header_with_root (r : bytes) : bytes := repeat x00 36 ++ r ++ repeat x00 44.
