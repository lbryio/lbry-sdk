(* The download coroutine ends within two timeouts of the request, whatever the peer does: the deadline it waits for
   is bounded ([Bound]) and has not passed ([Live]). *)
From Coq Require Import NArith ZArith List Bool Lia.
From Coq.Strings Require Import Byte.
From LV Require Import Lib.Bytes Lib.Lists Model.C10 Proofs.C10Client.
Import ListNotations.
Local Open Scope Z_scope.

Section Time.
Variable H : bytes -> bytes.
Variable json_loads : bytes -> jres.

(* a download requested at t0 waits for the response until t0 + T at the latest, then for the writer until one more
   T after that; a deadline that is still waited for has not passed (Live), because every clock move fires timers *)
Definition Bound (t0 T : Z) (c : client) : Prop :=
  c_T c = T /\ c_phase c <> PhIdle /\
  match c_phase c with
  | PhAwaitResp d => d <= t0 + T
  | PhAwaitFin d => d <= t0 + T + T
  | _ => True
  end.
Definition Live (c : client) : Prop :=
  match c_phase c with PhAwaitResp d | PhAwaitFin d => c_now c < d | _ => True end.
(* after a loop run the coroutine waits for a response only while the future is pending *)
Definition Drained (c : client) : Prop := forall d, c_phase c = PhAwaitResp d -> c_fut c = FutPending.
Definition TI (t0 T : Z) (c : client) : Prop := 0 < T /\ Bound t0 T c /\ Live c.

Lemma TI_finish t0 T res c : 0 < T -> c_T c = T -> TI t0 T (finish res c).
Proof.
  intros HT Ht. destruct (keeps_finish res c) as (_ & A & _).
  unfold TI, Bound, Live. rewrite A. cbn. repeat split; auto; discriminate.
Qed.

Lemma TI_loop t0 T c : TI t0 T c -> TI t0 T (drain c) /\ TI t0 T (fire_timeouts c) /\ TI t0 T (cancel_download c).
Proof.
  apply (loop_inv (TI t0 T)).
  - intros c1 Hti. exact Hti.
  - intros res c1 (HT & (B1 & _) & _). apply TI_finish; assumption.
  - intros c1 Hti. rewrite run_callbacks_eq. exact Hti.
  - (* the new deadline is one timeout after a moment that lies before the old one *)
    intros c1 d (HT & (B1 & B2 & B3) & L) Ep. unfold TI, Bound, Live in *. cbn. rewrite Ep in *.
    repeat split; auto; try discriminate; lia.
  - intros c1 Hti. exact Hti.
  - intros c1 Hti. exact Hti.
  - intros c1 Hti. exact Hti.
Qed.

Lemma Drained_finish res c : Drained (finish res c).
Proof. unfold finish. destruct (c_has_w c && _); intros d [=]. Qed.

Lemma Drained_drain c : Drained (drain c).
Proof.
  assert (Hfin : forall x d, c_phase x = PhAwaitFin d -> Drained (co_await_fin x)).
  { intros x d Ep. unfold co_await_fin. destruct (w_fin (c_w x)); try apply Drained_finish. intros d' E. congruence. }
  assert (Hs : forall x, Drained (co_step x)).
  { intro x. unfold co_step. destruct (c_phase x) as [|d|d|res] eqn:Ep; try (intros d' E; congruence); [|eauto].
    destruct (c_fut x) eqn:Ef; try apply Drained_finish; [intros d' _; exact Ef|].
    destruct (c_closed_ev x); [apply Drained_finish|]. destruct (acceptable _ _ _); [|apply Drained_finish].
    apply (Hfin _ (c_now x + c_T x)). reflexivity. }
  unfold drain. destruct (c_lost _); apply Hs.
Qed.

Lemma TI_fire t0 T c : 0 < T -> Bound t0 T c -> Drained c -> TI t0 T (fire_timeouts c).
Proof.
  intros HT (B1 & B2 & B3) Hd. unfold fire_timeouts.
  assert (Hstay : forall d, c_phase c = PhAwaitResp d \/ c_phase c = PhAwaitFin d -> (d <=? c_now c) = false -> TI t0 T c).
  { intros d Hp E. unfold TI, Bound, Live. destruct Hp as [Hp|Hp]; rewrite Hp in *; repeat split; auto; lia. }
  destruct (c_phase c) as [|d|d|res] eqn:Ep; [congruence| | |unfold TI, Bound, Live; rewrite Ep; auto];
    (destruct (d <=? c_now c) eqn:E; [|eauto]).
  - rewrite (Hd d Ep). apply TI_finish; auto.
  - apply TI_finish; auto.
Qed.

Lemma TI_step t0 T c e : TI t0 T c -> TI t0 T (step H json_loads c e).
Proof.
  revert c e. apply step_with_inv; auto.
  - intros c d. destruct (frame_data_received H json_loads c d) as (A & B & C & _).
    unfold TI, Bound, Live. rewrite A, B, C. auto.
  - intros c. apply TI_loop.
  - intros c t Hti. destruct (TI_loop t0 T c Hti) as [(HT & Bd & _) _]. apply TI_fire; [assumption..|apply Drained_drain].
  - intros c. apply TI_loop.
Qed.

(* the clock only moves by the advances *)
Fixpoint elapsed (evs : list event) : Z :=
  match evs with
  | [] => 0
  | EvAdvance dt :: r => Z.max dt 0 + elapsed r
  | _ :: r => elapsed r
  end.

Lemma now_run : forall evs c, c_now (run H json_loads c evs) = c_now c + elapsed evs.
Proof.
  induction evs as [|e evs IH]; intro c; [cbn; lia|].
  unfold run in *. cbn [fold_left]. rewrite IH, (proj1 (proj2 (proj2 (step_keeps H json_loads c e)))).
  destruct e; cbn [elapsed]; lia.
Qed.

Theorem bounded_wait c0 hash known evs :
  0 < c_T c0 -> 2 * c_T c0 <= elapsed evs ->
  exists res, c_phase (run H json_loads (request hash known c0) evs) = PhDone res.
Proof.
  intros HT He.
  assert (H0 : TI (c_now c0) (c_T c0) (request hash known c0)).
  { unfold request. destruct (c_open c0); unfold TI, Bound, Live; cbn; repeat split; auto; try discriminate; lia. }
  assert (Hti : TI (c_now c0) (c_T c0) (run H json_loads (request hash known c0) evs))
    by apply (fold_left_inv _ _ (TI_step _ _)), H0.
  destruct Hti as (_ & (B1 & B2 & B3) & L).
  pose proof (now_run evs (request hash known c0)) as Hn.
  assert (Hn0 : c_now (request hash known c0) = c_now c0) by (unfold request; destruct (c_open c0); reflexivity).
  unfold Live in L.
  destruct (c_phase (run H json_loads (request hash known c0) evs)) as [|d|d|res]; [congruence|lia|lia|eauto].
Qed.

End Time.
