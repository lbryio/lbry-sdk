(* In the order of Model/C12.v.  The data store, a list of lists, refines a partial map (key, peer) -> time stored.
   Against an honest storing node the client's walk delivers a prefix of the stored list, so completeness of paging is
   arithmetic on the announced page count.  For the finder, [reach] says once what an event can do to the state, as a
   sequence of primitive changes with the facts that hold when the code makes each; every such change keeps [finv]
   (each probe is paid for by a seed, a first contact or one of at most c further pages) and [jinv] (a pending result
   owns its running_probes entry).  The code before fac7223 and before 8221320 is refuted by one trace each. *)
From Coq Require Import NArith ZArith List Bool Arith Lia Permutation.
From Coq.Strings Require Import Byte.
From LV Require Import Lib.Bytes Lib.Lists Lib.Alist Model.C12.
Import ListNotations.

(* The model writes lookup and update-or-append on lists keyed by N at four value types (store, entries, page
   counters and task ids, ping queue); they are instances of those of Lib.Alist. *)

Lemma ds_find_alook s k : ds_find s k = alook N.eqb s k.
Proof. reflexivity. Qed.
Lemma pq_get_alook q p : pq_get q p = alook N.eqb q p.
Proof. reflexivity. Qed.
Lemma assoc_opt_alook k l : assoc_opt k l = alook N.eqb l k.
Proof. induction l as [|[k' v] l IH]; simpl; [|rewrite IH]; reflexivity. Qed.
Lemma assoc_set_nat_aupd k v l : assoc_set_nat k v l = aupd N.eqb (fun _ => v) k l.
Proof. induction l as [|[k' v'] l IH]; simpl; [|rewrite IH]; reflexivity. Qed.
Lemma ent_set_aupd es p now : ent_set es p now = aupd N.eqb (fun _ => now) p es.
Proof. induction es as [|[k' v'] l IH]; simpl; [|rewrite IH]; reflexivity. Qed.
Lemma ds_add_aupd s k p now :
  ds_add s k p now = aupd N.eqb (fun o => match o with Some es => ent_set es p now | None => [(p, now)] end) k s.
Proof. induction s as [|[k' v'] l IH]; simpl; [|rewrite IH]; reflexivity. Qed.
Lemma pq_enqueue_aupd q p a :
  pq_enqueue q p a = aupd N.eqb (fun o => match o with Some t => if (a <? t)%Z then a else t | None => a end) p q.
Proof. induction q as [|[k' v'] l IH]; simpl; [|rewrite IH]; reflexivity. Qed.

Definition ts_of (s : store) (k p : N) : option Z :=
  match ds_find s k with Some es => alook N.eqb es p | None => None end.

Definition wf_store (s : store) : Prop :=
  NoDup (map fst s) /\ forall k es, In (k, es) s -> NoDup (map fst es).

Lemma wf_find s k es : wf_store s -> ds_find s k = Some es -> NoDup (map fst es).
Proof. intros [H1 H2] E. apply (H2 k). now apply (alook_In _ N.eqb_spec). Qed.

Lemma ds_add_wf s k p now : wf_store s -> wf_store (ds_add s k p now).
Proof.
  intros Hwf. pose proof Hwf as [H1 H2]. rewrite ds_add_aupd. split; [now apply (aupd_NoDup _ N.eqb_spec)|].
  intros k0 es0 Hin. apply (aupd_vals _ N.eqb_spec) in Hin. destruct Hin as [[-> ->]|Hin]; [|eauto].
  destruct (alook N.eqb s k) as [es|] eqn:E.
  - rewrite ent_set_aupd. apply (aupd_NoDup _ N.eqb_spec). now apply (wf_find s k).
  - repeat constructor. intros [].
Qed.

Lemma ts_of_add s k p now k' p' :
  ts_of (ds_add s k p now) k' p' = if N.eqb k' k && N.eqb p' p then Some now else ts_of s k' p'.
Proof.
  unfold ts_of. rewrite ds_add_aupd, (ds_find_alook (aupd N.eqb _ k s)), (alook_aupd _ N.eqb_spec), <- ds_find_alook.
  destruct (N.eqb_spec k' k) as [->|Nk]; simpl; auto.
  destruct (ds_find s k) as [es|]; [now rewrite ent_set_aupd, (alook_aupd _ N.eqb_spec)|].
  simpl. rewrite (N.eqb_sym p p'). now destruct (p' =? p)%N.
Qed.

Definition keep_of now bad : N * Z -> bool := fun e => negb (doomed now bad e).

Lemma ds_expire_find s now bad k : NoDup (map fst s) ->
  ds_find (ds_expire s now bad) k =
  match ds_find s k with
  | Some es => if is_nil (filter (keep_of now bad) es) then None else Some (filter (keep_of now bad) es)
  | None => None
  end.
Proof.
  intro H. unfold ds_expire. fold (keep_of now bad).
  rewrite ds_find_alook, (alook_filter _ N.eqb_spec), (alook_map N.eqb (filter (keep_of now bad) : entries -> entries))
    by (rewrite map_map; exact H).
  rewrite <- ds_find_alook. destruct (ds_find s k); cbn; auto. now destruct (is_nil _).
Qed.

Lemma ds_expire_wf s now bad : wf_store s -> wf_store (ds_expire s now bad).
Proof.
  intros [H1 H2]. unfold ds_expire. fold (keep_of now bad). split.
  - apply NoDup_map_filter. rewrite map_map. cbn [fst]. exact H1.
  - intros k es Hin. apply filter_In in Hin. destruct Hin as (Hin & _).
    apply in_map_iff in Hin. destruct Hin as ([k' es'] & E & Hin). cbn [fst snd] in E.
    inversion E; subst. apply NoDup_map_filter. eapply H2; eauto.
Qed.

Lemma ts_of_expire s now bad k p : wf_store s ->
  ts_of (ds_expire s now bad) k p =
  match ts_of s k p with Some ts => if doomed now bad (p, ts) then None else Some ts | None => None end.
Proof.
  intros Hwf. unfold ts_of. rewrite ds_expire_find by apply Hwf.
  destruct (ds_find s k) as [es|] eqn:Ef; auto.
  (* an entry list that the cleanup has emptied answers as the missing key does *)
  transitivity (alook N.eqb (filter (keep_of now bad) es) p); [now destruct (filter _ es)|].
  rewrite (alook_filter _ N.eqb_spec) by exact (wf_find s k es Hwf Ef).
  unfold keep_of. destruct (alook N.eqb es p) as [ts|]; auto. now destruct (doomed now bad (p, ts)).
Qed.

Lemma ds_get_spec s k now bad p : wf_store s ->
  (In p (ds_get s k now bad) <-> exists ts, ts_of s k p = Some ts /\ visible now bad (p, ts) = true).
Proof.
  intros Hwf. unfold ds_get, ts_of. destruct (ds_find s k) as [es|] eqn:Ef.
  - pose proof (wf_find s k es Hwf Ef) as Hnd. rewrite in_map_iff. split.
    + intros ([q ts] & <- & Hi). apply filter_In in Hi. destruct Hi as (Hi & Hv).
      exists ts. split; auto. now apply (alook_In _ N.eqb_spec).
    + intros (ts & Ht & Hv). exists (p, ts). split; auto. apply filter_In. split; auto. now apply (alook_In _ N.eqb_spec).
  - split; [intros []|intros (ts & Ht & _); discriminate].
Qed.

Lemma ds_get_NoDup s k now bad : wf_store s -> NoDup (ds_get s k now bad).
Proof.
  intros Hwf. unfold ds_get. destruct (ds_find s k) as [es|] eqn:Ef; [|constructor].
  apply NoDup_map_filter. now apply (wf_find s k).
Qed.

Definition amap := N -> N -> option Z.
Definition a_step (m : amap) (o : dop) : amap :=
  match o with
  | DAdd k p now => fun k' p' => if N.eqb k' k && N.eqb p' p then Some now else m k' p'
  | DExpire now bad => fun k' p' =>
      match m k' p' with
      | Some ts => if doomed now (bad_of bad) (p', ts) then None else Some ts
      | None => None
      end
  end.
Definition a_run (ops : list dop) : amap := fold_left a_step ops (fun _ _ => None).

Lemma wf_nil : wf_store [].
Proof. split; [constructor|intros ? ? []]. Qed.

Lemma ds_step_wf s o : wf_store s -> wf_store (ds_step s o).
Proof. destruct o; simpl; [apply ds_add_wf|apply ds_expire_wf]. Qed.

Lemma ds_steps_refine ops : forall s m, wf_store s -> (forall k p, ts_of s k p = m k p) ->
  wf_store (fold_left ds_step ops s) /\
  forall k p, ts_of (fold_left ds_step ops s) k p = fold_left a_step ops m k p.
Proof.
  induction ops as [|o ops IH]; intros s m Hwf Heq; cbn [fold_left]; auto.
  apply IH; [now apply ds_step_wf|].
  intros k p. destruct o; cbn [ds_step a_step].
  - rewrite ts_of_add. now rewrite Heq.
  - rewrite ts_of_expire by auto. now rewrite Heq.
Qed.

Theorem store_refines ops : wf_store (ds_run ops) /\ forall k p, ts_of (ds_run ops) k p = a_run ops k p.
Proof. apply ds_steps_refine; [apply wf_nil|reflexivity]. Qed.

Theorem store_visible_until_expiry ops k p now bad :
  In p (ds_get (ds_run ops) k now bad) <->
  exists ts, a_run ops k p = Some ts /\ (now < ts + 86400)%Z /\ bad p = false.
Proof.
  destruct (store_refines ops) as (Hwf & Href). rewrite ds_get_spec by auto. setoid_rewrite Href.
  unfold visible, EXPIRY. cbn [fst snd].
  split; intros (ts & Ht & Hv); exists ts; split; auto.
  - apply andb_prop in Hv. destruct Hv as (Hv1 & Hv2). apply Z.ltb_lt in Hv1. apply negb_true_iff in Hv2. auto.
  - destruct Hv as (Hv1 & Hv2). apply andb_true_intro. split; [now apply Z.ltb_lt|now apply negb_true_iff].
Qed.

Lemma a_run_app ops o : forall k p, a_run (ops ++ [o]) k p = a_step (a_run ops) o k p.
Proof. intros. unfold a_run. now rewrite fold_left_app. Qed.

(* refresh: a repeated announcement overwrites the timestamp, whatever happened before *)
Theorem store_refresh ops k p t now bad :
  In p (ds_get (ds_run (ops ++ [DAdd k p t])) k now bad) <-> (now < t + 86400)%Z /\ bad p = false.
Proof.
  rewrite store_visible_until_expiry. rewrite a_run_app. cbn [a_step]. rewrite !N.eqb_refl. cbn [andb].
  split.
  - intros (ts & E & H). inversion E; subst. exact H.
  - intros H. exists t. split; auto.
Qed.

Ltac divfacts x d := pose proof (Nat.div_mod x d); pose proof (Nat.mod_upper_bound x d).

Lemma pages_announced_le n : pages_announced n <= n.
Proof. unfold pages_announced, K. divfacts (n + 8 - 1) 8. lia. Qed.

Lemma pages_announced_old_le n : pages_announced_old n <= n.
Proof.
  unfold pages_announced_old, K. destruct (Nat.eqb_spec n 0); [lia|].
  change (8 + 1) with 9. divfacts n 9. lia.
Qed.

(* the page count before bd444d0 announces enough pages exactly for these n *)
Lemma good_count_old_spec n : good_count_old n = true <-> n <= K * (pages_announced_old n + 1).
Proof.
  unfold good_count_old, pages_announced_old, K. rewrite Nat.leb_le. change (8 + 1) with 9. divfacts n 9.
  destruct (Nat.eqb_spec n 0) as [->|]; [cbn|]; lia.
Qed.

Section PagingProofs.
  Context {A : Type}.
  Variable eqb : A -> A -> bool.

  (* [eqb] need not decide equality (the finder's [eqc] ignores the port): it is enough that what it identifies
     has the same key *)
  Lemma union_set_keys {B} (f : A -> B) : (forall x y, eqb x y = true -> f x = f y) -> forall items l,
    NoDup (map f items) -> (forall x y, In x items -> In y l -> eqb x y = false) -> union_set eqb l items = l ++ items.
  Proof.
    intro Hf. unfold union_set. induction items as [|x items IH]; intros l Hnd Hfr; cbn [fold_left map] in *.
    - now rewrite app_nil_r.
    - inversion Hnd as [|? ? Hx Hnd']; subst. unfold add_set at 2.
      assert (Hm : mem eqb x l = false).
      { destruct (mem eqb x l) eqn:E; auto. apply existsb_exists in E. destruct E as (y & Hy & E).
        rewrite Hfr in E; auto. now left. }
      rewrite Hm, IH, <- app_assoc; auto.
      (* once x is appended, the remaining items are still fresh *)
      intros y z Hy Hz. apply in_app_or in Hz. destruct Hz as [Hz|[<-|[]]]; [apply Hfr; auto; now right|].
      destruct (eqb y x) eqn:E; auto. destruct Hx. rewrite <- (Hf y x E). now apply in_map.
  Qed.

  Lemma yield_new_fst seen items : fst (yield_new eqb seen items) = union_set eqb seen items.
  Proof.
    unfold yield_new, union_set. generalize (@nil A) at 3. revert seen.
    induction items as [|x items IH]; intros seen out; cbn [fold_left fst snd]; auto.
    unfold add_set. destruct (mem eqb x seen); apply IH.
  Qed.

  Lemma serve_page_spec (l : list A) p : firstn (p * K) l ++ serve_page l p = firstn (p * K + K) l.
  Proof. unfold serve_page. symmetry. apply firstn_add. Qed.

  Lemma serve_page_fresh (l : list A) p :
    NoDup l -> NoDup (serve_page l p) /\ (forall x, In x (serve_page l p) -> ~ In x (firstn (p * K) l)).
  Proof.
    intro Hnd. pose proof (NoDup_firstn (p * K + K) l Hnd) as H. rewrite <- serve_page_spec in H.
    apply NoDup_app_inv in H. destruct H as (_ & Hb & Hab). split; auto.
    intros x Hx Hin. exact (Hab x Hin Hx).
  Qed.

  Lemma serve_page_length (l : list A) p : length (serve_page l p) = Nat.min K (length l - p * K).
  Proof. unfold serve_page. now rewrite firstn_length, skipn_length. Qed.

  (* the empty page, which the code tests for first, is not full: it needs no case of its own *)
  Lemma page_step_eq cap (st : pstate) items pages :
    page_step eqb cap st items pages =
    let d := union_set eqb (disc st) items in
    let again := (K <=? length items) && (length d =? length (disc st) + length items)
                 && (pg st <? page_limit cap pages) in
    ({| pg := if again then S (pg st) else pg st; disc := d |}, again).
  Proof.
    unfold page_step. destruct st as [p d], items as [|x items]; [reflexivity|]. cbn [is_nil pg disc].
    destruct (K <=? _), (_ =? _), (p <? _); reflexivity.
  Qed.

  (* with the cap, whatever the storing node answers, the client stops by itself after at most c + 1 - pg st
     further requests *)
  Theorem walk_capped_terminates c (srv : nat -> list A * nat) : forall fuel st acc asked,
    pg st <= c -> c + 2 - pg st <= fuel ->
    let r := walk eqb (Some c) fuel srv st acc asked in
    snd r = true /\ length (snd (fst r)) <= length asked + (c + 1 - pg st).
  Proof.
    induction fuel as [|fuel IH]; intros st acc asked Hp Hf; [lia|].
    cbn [walk]. destruct (srv (pg st)) as [items pages]. rewrite page_step_eq. cbv zeta.
    destruct (_ && _ && _) eqn:E.
    - apply andb_prop in E. destruct E as [_ E]. apply Nat.ltb_lt in E. cbn [page_limit] in E.
      specialize (IH {| pg := S (pg st); disc := union_set eqb (disc st) items |}
                     (fst (yield_new eqb acc items)) (asked ++ [pg st])).
      cbv zeta in IH. rewrite app_length in IH. cbn [pg length] in IH.
      destruct IH as (I1 & I2); [lia|lia|]. split; auto. lia.
    - cbn [fst snd]. split; auto. rewrite app_length. simpl. lia.
  Qed.

  (* the loop before fac7223: a full page all of which is new and that announces one more page always makes it
     ask again *)
  Lemma page_step_uncapped_again (st : pstate) items pages :
    union_set eqb (disc st) items = disc st ++ items -> K <= length items -> pg st < pages ->
    page_step eqb None st items pages = ({| pg := S (pg st); disc := disc st ++ items |}, true).
  Proof.
    intros Hu Hk Hp. rewrite page_step_eq, Hu. cbv zeta.
    apply Nat.leb_le in Hk. apply Nat.ltb_lt in Hp. cbn [page_limit]. now rewrite app_length, Nat.eqb_refl, Hk, Hp.
  Qed.

  Lemma page_step_capped_stops c (st : pstate) items pages :
    c <= pg st -> snd (page_step eqb (Some c) st items pages) = false.
  Proof.
    intro Hc. rewrite page_step_eq. cbn [snd page_limit].
    assert (E : pg st <? Nat.min pages c = false) by (apply Nat.ltb_ge; lia). rewrite E. apply andb_false_r.
  Qed.

  Hypothesis eqb_spec : forall x y, eqb x y = true <-> x = y.

  Lemma mem_In x l : mem eqb x l = true <-> In x l.
  Proof. apply existsb_eqb, eqb_spec. Qed.

  Lemma mem_notIn x l : mem eqb x l = false <-> ~ In x l.
  Proof. apply existsb_eqb_false, eqb_spec. Qed.

  Lemma union_set_fresh l items :
    NoDup items -> (forall x, In x items -> ~ In x l) -> union_set eqb l items = l ++ items.
  Proof.
    intros Hnd Hfr. apply (union_set_keys (fun x => x)); [apply eqb_spec|now rewrite map_id|].
    intros x y Hx Hy. destruct (eqb x y) eqn:E; auto. apply eqb_spec in E. subst. now destruct (Hfr y).
  Qed.

  Lemma walk_honest cap pf (l : list A) : NoDup l ->
    forall fuel p asked, let lim := page_limit cap (pf (length l)) in
    p <= lim -> lim + 2 <= fuel + p ->
    let r := walk eqb cap fuel (honest_with pf l) {| pg := p; disc := firstn (p * K) l |} (firstn (p * K) l) asked in
    fst (fst r) = firstn (K * (lim + 1)) l /\ snd r = true.
  Proof.
    intros Hnd fuel. induction fuel as [|fuel IH]; intros p asked lim Hp Hf; [lia|].
    destruct (serve_page_fresh l p Hnd) as (Hnd_it & Hfresh).
    pose proof (serve_page_length l p) as Hlen.
    cbn [walk honest_with]. rewrite page_step_eq, yield_new_fst. cbn [pg disc].
    rewrite union_set_fresh by auto. rewrite app_length, Nat.eqb_refl, serve_page_spec. fold lim.
    destruct (K <=? length (serve_page l p)) eqn:Efull; cbn [andb].
    - destruct (p <? lim) eqn:Elt.
      + apply Nat.ltb_lt in Elt. replace (p * K + K) with (S p * K) by lia. apply IH; lia.
      + apply Nat.ltb_ge in Elt. cbn [fst snd]. split; auto. assert (p = lim) by lia. subst p. f_equal. lia.
    - (* a short page is the last of the list *)
      apply Nat.leb_gt in Efull. cbn [fst snd]. split; auto.
      rewrite !firstn_all2; auto; unfold K in *; nia.
  Qed.

  Theorem delivered_with_firstn cap pf (l : list A) :
    NoDup l -> page_limit cap (pf (length l)) <= length l ->
    delivered_with eqb cap pf l = firstn (K * (page_limit cap (pf (length l)) + 1)) l.
  Proof.
    intros Hnd Hle. unfold delivered_with.
    pose proof (walk_honest cap pf l Hnd (S (S (length l))) 0 []) as H. cbn zeta in H.
    simpl firstn in H. apply H; lia.
  Qed.

  (* the repaired code hands over the first K * (MAX_VALUE_PAGES + 1) = 264 stored peers *)
  Lemma delivered_firstn (l : list A) : NoDup l -> delivered eqb l = firstn (K * (MAX_VALUE_PAGES + 1)) l.
  Proof.
    intro Hnd. pose proof (pages_announced_le (length l)) as Hle. unfold delivered, real_cap.
    rewrite delivered_with_firstn by (cbn [page_limit]; auto; lia). cbn [page_limit].
    unfold pages_announced, MAX_VALUE_PAGES, K in *. change (4 * 8) with 32. divfacts (length l + 8 - 1) 8.
    (* below the cap the announced pages cover the whole list *)
    destruct (Nat.min_spec ((length l + 8 - 1) / 8) 32) as [[Hlt ->]|[_ ->]]; [|reflexivity].
    rewrite !firstn_all2; auto; lia.
  Qed.

  Theorem paging_complete (l : list A) :
    NoDup l -> length l <= K * (MAX_VALUE_PAGES + 1) -> delivered eqb l = l.
  Proof. intros Hnd Hle. rewrite delivered_firstn by auto. now apply firstn_all2. Qed.

  Lemma delivered_length (l : list A) :
    NoDup l -> length (delivered eqb l) = Nat.min (length l) (K * (MAX_VALUE_PAGES + 1)).
  Proof. intros Hnd. rewrite delivered_firstn, firstn_length by auto. apply Nat.min_comm. Qed.

  Theorem paging_cap_exceeded (l : list A) :
    NoDup l -> K * (MAX_VALUE_PAGES + 1) < length l -> length (delivered eqb l) = K * (MAX_VALUE_PAGES + 1).
  Proof. intros Hnd Hlt. rewrite delivered_length by auto. apply Nat.min_r. lia. Qed.

  Theorem paging_complete_shuffled (stored shuffled : list A) :
    NoDup stored -> Permutation shuffled stored -> length stored <= K * (MAX_VALUE_PAGES + 1) ->
    Permutation (delivered eqb shuffled) stored /\ NoDup (delivered eqb shuffled).
  Proof.
    intros Hnd Hp Hle.
    assert (Hnd' : NoDup shuffled) by (eapply Permutation_NoDup; [apply Permutation_sym; eauto|auto]).
    rewrite paging_complete; auto. rewrite (Permutation_length Hp). auto.
  Qed.

  Lemma delivered_old_firstn (l : list A) : NoDup l ->
    delivered_old eqb l = firstn (K * (pages_announced_old (length l) + 1)) l.
  Proof.
    intro Hnd. unfold delivered_old. rewrite delivered_with_firstn; auto.
    unfold page_limit. apply pages_announced_old_le.
  Qed.

  (* the code before bd444d0: complete iff n/9 + n mod 9 <= 16 *)
  Theorem paging_old_refuted (l : list A) :
    NoDup l -> (delivered_old eqb l = l <-> good_count_old (length l) = true).
  Proof.
    intro Hnd. rewrite delivered_old_firstn, good_count_old_spec by auto. split; [|apply firstn_all2].
    intro Hq. apply (f_equal (@length A)) in Hq. rewrite firstn_length in Hq. lia.
  Qed.

  Theorem paging_old_withholds (l : list A) :
    NoDup l -> good_count_old (length l) = false -> length (delivered_old eqb l) < length l.
  Proof.
    intros Hnd Hg. rewrite delivered_old_firstn, firstn_length by auto.
    destruct (Nat.le_gt_cases (length l) (K * (pages_announced_old (length l) + 1))) as [H|H]; [|lia].
    apply good_count_old_spec in H. congruence.
  Qed.
End PagingProofs.

Definition seqN (n : nat) : list N := map N.of_nat (seq 0 n).

Lemma seqN_NoDup n : NoDup (seqN n).
Proof.
  unfold seqN. generalize (seq_NoDup n 0). induction 1 as [|x l Hx _ IH]; simpl; constructor; auto.
  rewrite in_map_iff. intros (y & E & Hy). apply Nat2N.inj in E. now subst.
Qed.

Lemma delivered_seqN n : length (delivered N.eqb (seqN n)) = Nat.min n (K * (MAX_VALUE_PAGES + 1)).
Proof.
  rewrite (delivered_length N.eqb N.eqb_eq) by apply seqN_NoDup. unfold seqN. now rewrite map_length, seq_length.
Qed.

(* what "well-formed public peer address" means for a compact address *)
Lemma valid_compact_iff bs : valid_compact bs = true <->
  length bs = 54 /\ (1024 <= be_decode (firstn 2 (skipn 4 bs)) < 65536)%N /\
  public_ip (nthN bs 0) (nthN bs 1) (nthN bs 2) (nthN bs 3) = true.
Proof.
  unfold valid_compact, decode_compact. rewrite skipn_length.
  destruct (Nat.ltb_spec (length bs) 4); [split; [discriminate|lia]|].
  destruct (N.eqb_spec (be_decode (firstn 2 (skipn 4 bs))) 0); [split; [discriminate|lia]|].
  destruct (Nat.eqb_spec (length bs - 6) 48); cbn [negb]; [|split; [discriminate|lia]].
  destruct (N.ltb_spec (be_decode (firstn 2 (skipn 4 bs))) 1024); [split; [discriminate|lia]|].
  destruct (public_ip _ _ _ _); cbn [negb]; [|split; [discriminate|intros (_ & _ & E); discriminate E]].
  split; [intros _|reflexivity]. assert (Hl : length bs = 54) by lia.
  split; [exact Hl|]. split; [split; [assumption|]|reflexivity].
  (* two bytes decode below 2^16 *)
  pose proof (be_decode_lt (firstn 2 (skipn 4 bs))) as Hlt. rewrite firstn_length, skipn_length, Hl in Hlt. exact Hlt.
Qed.

Lemma nthN_app_l (a b : bytes) i : i < length a -> nthN (a ++ b) i = nthN a i.
Proof. intro H. unfold nthN. now rewrite nth_error_app1. Qed.

(* [eqc] compares ip and node id, not the port *)
Lemma eqc_key a b : eqc a b = true -> nthN a 0 = nthN b 0 /\ nthN a 1 = nthN b 1.
Proof.
  intro H. apply bytes_eqb_eq in H. unfold nthN.
  destruct a as [|? [|? ?]], b as [|? [|? ?]]; cbn in *; split; congruence.
Qed.

(* a peer whose store request is accepted has a compact address every searcher decodes as well-formed *)
Theorem stored_peer_compact_valid (ip id : bytes) (port : N) :
  length ip = 4 -> length id = 48 ->
  public_ip (nthN ip 0) (nthN ip 1) (nthN ip 2) (nthN ip 3) = true -> store_port_ok port = true ->
  valid_compact (mk_compact_addr ip port id) = true.
Proof.
  intros Hip Hid Hpub Hp. unfold store_port_ok in Hp. apply andb_prop in Hp. destruct Hp as (H1 & H2).
  apply N.leb_le in H1, H2. apply valid_compact_iff. unfold mk_compact_addr. split; [|split].
  - rewrite !app_length, be_encode_length. lia.
  - rewrite (skipn_app_exact' 4 ip) by auto.
    rewrite (firstn_app_exact' 2 (be_encode 2 port) id) by (now rewrite be_encode_length).
    rewrite be_decode_encode by (change (256 ^ N.of_nat 2)%N with 65536%N; lia). lia.
  - rewrite !nthN_app_l by lia. exact Hpub.
Qed.

Lemma memN_In x l : memN x l = true <-> In x l.
Proof. apply (mem_In N.eqb). intros; apply N.eqb_eq. Qed.
Lemma memN_notIn x l : memN x l = false <-> ~ In x l.
Proof. apply (mem_notIn N.eqb). intros; apply N.eqb_eq. Qed.

Lemma addN_cases x l : In x l /\ addN x l = l \/ ~ In x l /\ addN x l = l ++ [x].
Proof.
  unfold addN, add_set. fold (memN x l). destruct (memN x l) eqn:E; [left|right]; split; auto.
  - now apply memN_In.
  - now apply memN_notIn.
Qed.
Lemma addN_In x y l : In y (addN x l) <-> y = x \/ In y l.
Proof.
  destruct (addN_cases x l) as [[H ->]|[H ->]]; [|rewrite in_app_iff; simpl]; intuition (subst; auto).
Qed.
Lemma addN_NoDup x l : NoDup l -> NoDup (addN x l).
Proof.
  intro Hl. destruct (addN_cases x l) as [[H ->]|[H ->]]; auto.
  apply NoDup_app_intro; auto.
  - repeat constructor. intros [].
  - intros y Hy [->|[]]. contradiction.
Qed.
Lemma addN_length x l :
  length l <= length (addN x l) <= S (length l) /\ (~ In x l -> length (addN x l) = S (length l)).
Proof.
  destruct (addN_cases x l) as [[H ->]|[H ->]]; rewrite ?app_length; simpl; split; try lia; intro; try contradiction; lia.
Qed.
Lemma addN_nonempty x l : addN x l <> [].
Proof. destruct (addN_cases x l) as [[H ->]|[_ ->]]; destruct l; try discriminate. destruct H. Qed.

Lemma removeN_In x y l : In y (removeN x l) <-> In y l /\ y <> x.
Proof.
  unfold removeN, remove_set. rewrite filter_In, negb_true_iff, N.eqb_neq. intuition congruence.
Qed.
Lemma removeN_length x l : NoDup l -> length l <= S (length (removeN x l)).
Proof.
  intro H. apply (NoDup_incl_length (l' := x :: removeN x l) H). intros y Hy.
  destruct (N.eq_dec y x); [now left|right]. now apply removeN_In.
Qed.

Lemma ins_active_In p q l : In q (ins_active p l) <-> q = p \/ In q l.
Proof.
  induction l as [|r l IH]; simpl.
  - intuition.
  - destruct (pdist p <? pdist r)%N; simpl; [intuition|]. rewrite IH. intuition.
Qed.

Lemma total_pages_set k l :
  fold_right (fun kv a => snd kv + a) 0 (assoc_set_nat k (S (assoc_nat k l)) l)
  = S (fold_right (fun kv a => snd kv + a) 0 l).
Proof.
  induction l as [|[k' v] l IH]; simpl; auto.
  destruct (N.eqb_spec k' k); simpl; auto. rewrite IH. lia.
Qed.

Lemma total_pages_le c l : (forall k v, In (k, v) l -> v <= c) ->
  fold_right (fun (kv : N * nat) a => snd kv + a) 0 l <= c * length l.
Proof.
  induction l as [|[k v] l IH]; intro H; simpl; [lia|].
  assert (v <= c) by (apply (H k); now left).
  assert (fold_right (fun (kv : N * nat) a => snd kv + a) 0 l <= c * length l)
    by (apply IH; intros; eapply H; right; eauto).
  nia.
Qed.

Lemma assoc_opt_set k v l q : assoc_opt q (assoc_set_nat k v l) = if N.eqb q k then Some v else assoc_opt q l.
Proof. now rewrite !assoc_opt_alook, assoc_set_nat_aupd, (alook_aupd _ N.eqb_spec). Qed.

Lemma assoc_opt_del k l q : assoc_opt q (assoc_del k l) = if N.eqb q k then None else assoc_opt q l.
Proof. rewrite !assoc_opt_alook. exact (alook_adel _ N.eqb_spec l k q). Qed.

Lemma assoc_opt_nil l : (forall q, assoc_opt q l = None) -> l = [].
Proof.
  destruct l as [|[k v] l]; auto. intro H. specialize (H k). simpl in H. rewrite N.eqb_refl in H. discriminate.
Qed.

Ltac fcbn := cbn [f_active f_contacted f_running f_on f_yielded f_blob f_pages f_disc f_sched f_seeds f_task f_pending
                  fst snd schedule set_active set_on_running set_paging set_blob set_tasks].

(* add_active, add_contacts and reset_closest touch f_active only; put_result touches f_yielded only.
   Saying so by an equation lets every other field be read off by computation. *)
Lemma add_active_eq st p f b : exists a, add_active st p f b = set_active st a /\
  forall q, In q a -> q = p \/ In q (f_active st).
Proof.
  assert (Hsame : exists a, st = set_active st a /\ forall q, In q a -> q = p \/ In q (f_active st)).
  { exists (f_active st). destruct st. split; auto. }
  unfold add_active. destruct (negb f && b); auto. destruct (memN _ _); auto. destruct (_ && _ && _); auto.
  exists (ins_active p (f_active st)). split; auto. intros q Hq. now apply ins_active_In.
Qed.

Definition replied (st : fstate) (p : peer) (sb : bool) (cs : list (peer * bool)) : fstate :=
  add_contacts (add_active st p false sb) cs.

Lemma add_contacts_eq cs : forall st, exists a, add_contacts st cs = set_active st a /\
  forall q, In q a -> In (pid q) (peers_of_contacts cs) \/ In q (f_active st).
Proof.
  unfold add_contacts. induction cs as [|[c b] cs IH]; intro st; cbn [fold_left fst snd].
  - exists (f_active st). destruct st. split; auto.
  - destruct (add_active_eq st c false b) as (a1 & -> & O1).
    destruct (IH (set_active st a1)) as (a2 & -> & O2). exists a2. cbn in O2. split; auto.
    intros q Hq. destruct (O2 q Hq) as [H|H]; [left; now right|].
    destruct (O1 q H) as [->|]; auto. left; now left.
Qed.

Lemma replied_eq st p sb cs : exists a, replied st p sb cs = set_active st a /\
  forall q, In q a -> In (pid q) (pid p :: peers_of_contacts cs) \/ In q (f_active st).
Proof. exact (add_contacts_eq ((p, sb) :: cs) st). Qed.

(* the fields no invariant below reads *)
Definition set_inert (st : fstate) (on : bool) (y : list N) (b : list bytes) (d : list (N * list bytes)) : fstate :=
  {| f_active := f_active st; f_contacted := f_contacted st; f_running := f_running st; f_on := on;
     f_yielded := y; f_blob := b; f_pages := f_pages st; f_disc := d;
     f_sched := f_sched st; f_seeds := f_seeds st; f_task := f_task st; f_pending := f_pending st |}.

Definition set_yielded (st : fstate) (y : list N) : fstate := set_inert st (f_on st) y (f_blob st) (f_disc st).

(* a yielded node was reported good, was not yielded before and is an active record other than the searcher;
   nothing else but scheduling and the finish marker comes out of a node step *)
Definition yield_ok (good yl : list N) (al : list peer) (o : fout) : Prop :=
  match o with
  | OYield ps => forall x, In x ps ->
      In x good /\ ~ In x yl /\ exists q, In q al /\ pid q = x /\ self_id q = false
  | OVYield _ => False
  | _ => True
  end.

Lemma put_result_spec prm st good fin st' outs :
  put_result prm st good fin = (st', outs) ->
  (exists y, st' = set_yielded st y) /\ (fin = true -> In OFinish outs) /\
  forall o, In o outs -> yield_ok good (f_yielded st) (f_active st) o.
Proof.
  unfold put_result. cbv zeta. intro H. inversion H; subst; clear H. repeat split.
  - destruct (is_nil _); [exists (f_yielded st); now destruct st|eexists; reflexivity].
  - intros ->. apply in_or_app. right. now left.
  - intros o Ho. apply in_app_or in Ho. destruct Ho as [Ho|Ho].
    2:{ destruct fin; [destruct Ho as [<-|[]]; exact I|destruct Ho]. }
    destruct (is_nil _); [destruct Ho|]. destruct Ho as [<-|[]]. intros x Hx.
    apply in_map_iff in Hx. destruct Hx as (q & <- & Hq). apply In_firstn, filter_In in Hq.
    destruct Hq as (Hq & Hc). rewrite !andb_true_iff, !negb_true_iff in Hc. destruct Hc as ((Hy & Hs) & Hg).
    apply memN_In in Hg. apply memN_notIn in Hy. eauto 8.
Qed.

Lemma exhausted_spec prm st good st' outs :
  exhausted prm st good = (st', outs) ->
  (exists y, st' = set_yielded st y) /\ In OFinish outs /\
  forall o, In o outs -> yield_ok good (f_yielded st) (f_active st) o.
Proof.
  unfold exhausted. destruct (fp_kind prm); intro H.
  - apply put_result_spec in H. destruct H as (A & B & C). auto.
  - inversion H; subst. repeat split; [exists (f_yielded st'); now destruct st'|now left|].
    intros o [<-|[]]. exact I.
Qed.

(* the constructor's loop over the shortlist *)
Definition seed_step (so : fstate * list fout) (p : peer) : fstate * list fout :=
  if has_id p then (add_active (fst so) p true false, snd so)
  else (schedule (fst so) (pid p) true, snd so ++ [OSched (pid p)]).

(* the page bookkeeping of a value reply that decoded to [items] *)
Definition paged (prm : fparams) (st : fstate) (p : N) (items : list bytes) (pages : nat) : fstate :=
  if negb (is_nil items) then
    let cur := {| pg := assoc_nat p (f_pages st); disc := assoc_bl p (f_disc st) |} in
    let '(nxt, again) := page_step eqc (fp_cap prm) cur items pages in
    set_paging st (if again then removeN p (f_contacted st) else f_contacted st)
               (if again then assoc_set_nat p (pg nxt) (f_pages st) else f_pages st)
               (assoc_set_bl p (disc nxt) (f_disc st))
  else st.

Definition seeds_ev (ev : fev) : nat :=
  match ev with EInit sl => length (filter (fun p => negb (has_id p)) sl) | _ => 0 end.
Definition is_vreply (ev : fev) : bool :=
  match ev with EValueReply _ _ _ _ _ _ => true | _ => false end.
Definition good_of (ev : fev) : list N :=
  match ev with
  | EStart g => g | EDone _ _ g => g | ENodeReply _ _ _ _ _ g => g | _ => []
  end.

Lemma scan_values_ok raw : forall acc v items,
  scan_values raw acc = (v, items) ->
  forall c, In c items -> In c acc \/ (In (VB c) raw /\ valid_compact c = true).
Proof.
  induction raw as [|it raw IH]; intros acc v items H; cbn [scan_values] in H.
  - inversion H; subst. auto.
  - destruct it as [bs|]; [|inversion H; subst; intros ? []].
    destruct (decode_compact bs) eqn:Ed; try (inversion H; subst; intros ? []).
    intros c Hc. destruct (IH _ _ _ H c Hc) as [Hi|(Hi & Hvc)].
    + apply in_app_or in Hi. destruct Hi as [Hi|[<-|[]]]; auto.
      right. split; [now left|]. unfold valid_compact. now rewrite Ed.
    + right. split; auto. now right.
Qed.

Lemma scan_values_valid cs : forall acc, (forall c, In c cs -> valid_compact c = true) ->
  scan_values (map VB cs) acc = (DOk, acc ++ cs).
Proof.
  induction cs as [|c cs IH]; intros acc H; cbn [map scan_values]; [now rewrite app_nil_r|].
  assert (Hc := H c (or_introl eq_refl)). unfold valid_compact in Hc. destruct (decode_compact c); try discriminate.
  rewrite IH, <- app_assoc; auto. intros; apply H; now right.
Qed.

Lemma yield_new_sub (seen items s fresh : list bytes) : yield_new eqc seen items = (s, fresh) -> incl fresh items.
Proof.
  unfold yield_new. intro H. change fresh with (snd (s, fresh)). rewrite <- H.
  apply (fold_left_inv_In (fun sa => incl (snd sa) items)); [|intros ? []].
  intros sa x Hx Hsa. destruct (mem eqc x (fst sa)); cbn [snd]; auto.
  intros c Hc. apply in_app_or in Hc. destruct Hc as [Hc|[<-|[]]]; auto.
Qed.

(* what each event does, with the pattern matching of fstep_core done once *)
Lemma fstep_core_cases prm st ev st' outs tag :
  fstep_core prm st ev = (st', outs, tag) ->
  match ev with
  | EInit sl => fold_left seed_step sl (st, []) = (st', outs)
  | EStart good => search_round prm (set_on_running st true (f_running st)) good = (st', outs)
  | EDone p tid good =>
      if f_on st then search_round prm (done_state prm st p tid) good = (st', outs)
      else st' = done_state prm st p tid /\ outs = []
  | EFail p => st' = reset_closest st p /\ outs = []
  | ECrash _ => st' = st /\ outs = []
  | ENotConnected _ | EClose => st' = set_tasks (set_on_running st false []) [] [] /\ outs = [OFinish]
  | ENodeReply p sb cs _ _ good =>
      put_result prm (replied st p sb cs) good true = (st', outs) \/ st' = replied st p sb cs /\ outs = []
  | EValueReply p sb raw pages cs _ =>
      st' = st /\ outs = [] \/
      exists items seen fresh, (forall c, In c items -> In (VB c) raw /\ valid_compact c = true) /\
        st' = set_blob (replied (paged prm st (pid p) items pages) p sb cs) seen /\
        incl fresh items /\ (outs = [] \/ outs = [OVYield fresh])
  end.
Proof.
  intro H. destruct ev; cbn [fstep_core] in H.
  - destruct (fold_left _ shortlist (st, [])) as [s1 o1] eqn:Ef. now inversion H; subst.
  - destruct (search_round prm _ good) as [s1 o1] eqn:Es. now inversion H; subst.
  - destruct (f_on st); [|now inversion H; subst].
    destruct (search_round prm _ good) as [s1 o1] eqn:Es. now inversion H; subst.
  - now inversion H; subst.
  - now inversion H; subst.
  - now inversion H; subst.
  - fold (replied st p selfbad contacts) in H. destruct checked; [|right; now inversion H; subst].
    destruct (_ && _); [|right; now inversion H; subst].
    destruct (put_result prm _ good true) as [s1 o1] eqn:Ep. inversion H; subst. now left.
  - destruct (if is_nil raw then (DOk, []) else scan_values raw []) as [verdict items] eqn:Esc.
    fold (paged prm st (pid p) items pages) in H.
    fold (replied (paged prm st (pid p) items pages) p selfbad contacts) in H.
    set (s2 := replied _ p selfbad contacts) in H |- *.
    assert (Hit : forall c, In c items -> In (VB c) raw /\ valid_compact c = true).
    { destruct (is_nil raw); [inversion Esc; subst; intros ? []|].
      intros c Hc. destruct (scan_values_ok _ _ _ _ Esc c Hc) as [[]|]; auto. }
    (* a reply that yields nothing leaves blob_peers as it is *)
    assert (Hno : forall s, s = set_blob s (f_blob s) /\ incl [] items /\ (@nil fout = [] \/ [] = [OVYield []]))
      by (intros []; auto using incl_nil_l).
    (* the invalid and the valid verdict differ in the tag only *)
    destruct verdict; [left; now inversion H; subst| |];
      (right; exists items;
       destruct checked; [|exists (f_blob s2), []; inversion H; subst; split; [exact Hit|apply Hno] ];
       destruct (negb (is_nil items)); [|exists (f_blob s2), []; inversion H; subst; split; [exact Hit|apply Hno] ];
       destruct (yield_new eqc _ items) as [seen fresh] eqn:Ey; apply yield_new_sub in Ey;
       inversion H; subst; exists seen, fresh; split; [exact Hit|]; repeat split; auto; destruct (is_nil fresh); auto).
  - now inversion H; subst.
Qed.

Lemma fstep_unfold prm st ev st' outs tag :
  fstep prm st ev = (st', outs, tag) ->
  exists s1, fstep_core prm st ev = (s1, outs, tag) /\ st' = settle_pending s1 ev.
Proof.
  unfold fstep. destruct (fstep_core prm st ev) as [[s1 o1] t1]. intro H. inversion H; subst. eauto.
Qed.

Lemma settle_eq st ev : exists pd, settle_pending st ev = set_tasks st (f_task st) pd.
Proof. destruct ev; cbn; eauto; exists (f_pending st); now destruct st. Qed.

(* a value reply all of whose items decode is not dropped: the case that [fstep_core_cases] leaves open *)
Lemma fstep_vreply_valid prm st p sb cs pages cts : cs <> [] -> (forall c, In c cs -> valid_compact c = true) ->
  exists seen, fst (fst (fstep prm st (EValueReply p sb (map VB cs) pages cts true))) =
    let s := set_blob (replied (paged prm st (pid p) cs pages) p sb cts) seen in
    set_tasks s (f_task s) (assoc_del (pid p) (f_pending s)).
Proof.
  intros Hne Hv. unfold fstep, fstep_core. rewrite (scan_values_valid cs [] Hv). cbn [app].
  fold (paged prm st (pid p) cs pages). fold (replied (paged prm st (pid p) cs pages) p sb cts).
  destruct cs; [contradiction|]. cbn [is_nil map negb].
  destruct (yield_new eqc _ _) as [seen fresh]. exists seen. reflexivity.
Qed.

(* without the cap, a full page of new addresses that announces one more takes the peer out of `contacted` *)
Lemma paged_again prm st p items pages : fp_cap prm = None ->
  union_set eqc (assoc_bl p (f_disc st)) items = assoc_bl p (f_disc st) ++ items ->
  K <= length items -> assoc_nat p (f_pages st) < pages ->
  paged prm st p items pages =
  set_paging st (removeN p (f_contacted st)) (assoc_set_nat p (S (assoc_nat p (f_pages st))) (f_pages st))
             (assoc_set_bl p (assoc_bl p (f_disc st) ++ items) (f_disc st)).
Proof.
  intros Hc Hu Hk Hp. unfold paged. rewrite Hc, page_step_uncapped_again by auto.
  destruct items; [inversion Hk|reflexivity].
Qed.

Lemma frun_cons prm st e r : fst (frun prm st (e :: r)) = fst (frun prm (fst (fst (fstep prm st e))) r).
Proof. cbn [frun]. destruct (fstep prm st e) as [[s o] t]. cbn [fst]. now destruct (frun prm s r). Qed.

Lemma frun_app prm a : forall st b, fst (frun prm st (a ++ b)) = fst (frun prm (fst (frun prm st a)) b).
Proof. induction a as [|e a IH]; intros st b; [reflexivity|]. cbn [app]. rewrite !frun_cons. apply IH. Qed.

Lemma done_state_cases prm st p tid :
  done_state prm st p tid = st \/
  (fp_stalepop prm = false -> assoc_opt p (f_task st) = Some tid) /\
  done_state prm st p tid =
    set_tasks (set_on_running st (f_on st) (removeN p (f_running st))) (assoc_del p (f_task st)) (f_pending st).
Proof.
  unfold done_state. cbv zeta. destruct (_ || _) eqn:E; auto. right. split; auto.
  intro Hs. rewrite Hs, orb_false_r in E. destruct (assoc_opt p (f_task st)); [|discriminate].
  apply Nat.eqb_eq in E. now subst.
Qed.

Section Reach.
  Variables (prm : fparams) (ev : fev) (st0 : fstate).

  (* What event ev can make of state st0: a sequence of primitive changes, each with the facts that hold when the
     code makes it; the index counts the seeds probed.  The done-callback's removal comes first because
     [ev_wf] speaks of the state the event arrives in. *)
  Inductive reach : nat -> fstate -> Prop :=
  | r_start : reach 0 st0
  | r_done p tid g : ev = EDone p tid g -> (fp_stalepop prm = false -> assoc_opt p (f_task st0) = Some tid) ->
      reach 0 (set_tasks (set_on_running st0 (f_on st0) (removeN p (f_running st0)))
                         (assoc_del p (f_task st0)) (f_pending st0))
  | r_inert n s on y b d : reach n s -> reach n (set_inert s on y b d)
  | r_active n s a : reach n s -> (forall q, In q a -> In (pid q) (mentioned_ev ev) \/ In q (f_active s)) ->
      reach n (set_active s a)
  | r_seed n s p : reach n s -> In p (mentioned_ev ev) -> reach (S n) (schedule s p true)
  | r_probe n s q : reach n s ->
      In q (f_active s) -> ~ In (pid q) (f_contacted s) -> length (f_running s) < ALPHA ->
      reach n (schedule s (pid q) false)
  | r_page n s p d : reach n s -> is_vreply ev = true -> In p (mentioned_ev ev) ->
      (forall c, fp_cap prm = Some c -> assoc_nat p (f_pages s) < c) ->
      reach n (set_paging s (removeN p (f_contacted s))
                          (assoc_set_nat p (S (assoc_nat p (f_pages s))) (f_pages s)) d)
  | r_close n s : reach n s -> reach n (set_tasks (set_on_running s false []) [] [])
  | r_settle n s p : reach n s -> reach n (set_tasks s (f_task s) (assoc_del p (f_pending s))).

  Lemma reach_done p tid g : ev = EDone p tid g -> reach 0 (done_state prm st0 p tid).
  Proof.
    intro He. destruct (done_state_cases prm st0 p tid) as [->|(Ho & ->)]; [apply r_start|exact (r_done p tid g He Ho)].
  Qed.

  Lemma reach_replied n s p sb cs :
    incl (pid p :: peers_of_contacts cs) (mentioned_ev ev) -> reach n s -> reach n (replied s p sb cs).
  Proof.
    intros Hm H. destruct (replied_eq s p sb cs) as (a & -> & Ha). apply r_active; auto.
    intros q Hq. destruct (Ha q Hq); auto.
  Qed.

  Lemma reach_paged n s p items pages :
    is_vreply ev = true -> In p (mentioned_ev ev) -> reach n s -> reach n (paged prm s p items pages).
  Proof.
    intros Hv Hp H. unfold paged. destruct (negb (is_nil items)); auto.
    rewrite page_step_eq. cbn [pg disc]. destruct (_ && _ && _) eqn:E; [|now apply r_inert].
    apply r_page; auto. intros c Hc. apply andb_prop in E. destruct E as [_ E]. apply Nat.ltb_lt in E.
    rewrite Hc in E. cbn [page_limit] in E. lia.
  Qed.

  Lemma seed_fold_reach sl : forall n s o s' o', incl (map pid sl) (mentioned_ev ev) ->
    fold_left seed_step sl (s, o) = (s', o') -> reach n s ->
    reach (length (filter (fun p => negb (has_id p)) sl) + n) s' /\
    forall x, In x o' -> In x o \/ exists p, x = OSched p.
  Proof.
    induction sl as [|p sl IH]; intros n s o s' o' Hm H Hr; cbn [fold_left] in H.
    - inversion H; subst. auto.
    - cbn [map] in Hm. apply incl_cons_inv in Hm. destruct Hm as [Hp Hm].
      unfold seed_step at 2 in H. cbn [fst snd filter] in H |- *. destruct (has_id p); cbn [negb length].
      + destruct (add_active_eq s p true false) as (a & E & Ha). rewrite E in H.
        apply (IH n _ _ _ _ Hm H). apply r_active; auto. intros q Hq. destruct (Ha q Hq) as [->|]; auto.
      + destruct (IH (S n) _ _ _ _ Hm H (r_seed n s (pid p) Hr Hp)) as (I1 & I2). rewrite <- plus_n_Sm in I1.
        split; auto. intros x Hx. destruct (I2 x Hx) as [Hi|]; auto.
        apply in_app_or in Hi. destruct Hi as [|[<-|[]]]; eauto.
  Qed.
End Reach.

(* the loop of _search_round *)
Lemma round_loop_ind (P : fstate -> nat -> list fout -> Prop) l :
  (forall st a o p, In p l -> ~ In (pid p) (f_contacted st) -> length (f_running st) < ALPHA ->
     P st a o -> P (schedule st (pid p) false) (S a) (o ++ [OSched (pid p)])) ->
  forall idx st a o st' a' o', round_loop l idx st a o = (st', a', o') -> P st a o -> P st' a' o'.
Proof.
  induction l as [|p l IH]; intros Hs idx st a o st' a' o' H HP; cbn [round_loop] in H.
  - now inversion H; subst.
  - assert (IH' := IH (fun st a o q Hq => Hs st a o q (or_intror Hq))).
    destruct (memN _ _) eqn:Ec; [eapply IH'; eauto|].
    destruct (ALPHA <=? _) eqn:Ea; [now inversion H; subst|].
    destruct (K + _ <? idx); [now inversion H; subst|].
    destruct (self_id p); [eapply IH'; eauto|]. destruct (self_addr p); [eapply IH'; eauto|].
    eapply IH'; [exact H|]. apply Hs; auto; [now left|now apply memN_notIn|now apply Nat.leb_gt].
Qed.

Lemma search_round_spec prm st good st' outs :
  search_round prm st good = (st', outs) ->
  (f_running st' = [] -> In OFinish outs) /\
  (forall o, In o outs -> yield_ok good (f_yielded st) (f_active st') o) /\
  forall ev st0 n, reach prm ev st0 n st -> reach prm ev st0 n st'.
Proof.
  unfold search_round. intro H.
  destruct (round_loop (f_active st) 0 st 0 []) as [[s1 a1] o1] eqn:Er.
  (* the loop keeps the active and the yielded list, leaves a probe running if it does anything, puts out
     schedulings only and stays within what the event can reach *)
  apply (round_loop_ind (fun s a o => f_active s = f_active st /\ f_yielded s = f_yielded st /\
           (a = 0 \/ f_running s <> []) /\ (forall x, In x o -> exists p, x = OSched p) /\
           forall ev st0 n, reach prm ev st0 n st -> reach prm ev st0 n s)) in Er.
  2:{ intros s a o p Hp Hc Hr (H1 & H2 & _ & H4 & H5). fcbn. repeat split; auto.
      - right. apply addN_nonempty.
      - intros x Hx. apply in_app_or in Hx. destruct Hx as [Hx|[<-|[]]]; eauto.
      - intros ev st0 n Hs. apply r_probe; auto. now rewrite H1. }
  2:{ repeat split; auto. intros x []. }
  destruct Er as (_ & E2 & E4 & E5 & Hr).
  assert (Ho : forall al o, In o o1 -> yield_ok good (f_yielded st) al o).
  { intros al o Ho. destruct (E5 o Ho) as (p & ->). exact I. }
  destruct (Nat.eqb a1 0 && is_nil (f_running s1)) eqn:Ex.
  - destruct (exhausted prm s1 good) as [s2 o2] eqn:Ee. inversion H; subst; clear H.
    destruct (exhausted_spec _ _ _ _ _ Ee) as ((y & ->) & Hf & Hy). rewrite E2 in Hy. repeat split; auto.
    + intros _. apply in_or_app. now right.
    + intros o Hi. apply in_app_or in Hi. destruct Hi; auto.
    + intros ev st0 n Hs. apply r_inert, Hr, Hs.
  - inversion H; subst; clear H. repeat split; auto. intro Hn.
    destruct E4 as [->|Hne]; [|contradiction]. rewrite Hn in Ex. discriminate.
Qed.

Theorem fstep_reach prm st ev st' outs tag :
  fstep prm st ev = (st', outs, tag) -> reach prm ev st (seeds_ev ev) st'.
Proof.
  intro H. apply fstep_unfold in H. destruct H as (s1 & H & ->).
  enough (Hr : reach prm ev st (seeds_ev ev) s1) by (destruct ev; cbn [settle_pending]; auto using r_settle).
  apply fstep_core_cases in H. destruct ev; cbn [seeds_ev].
  - rewrite (plus_n_O (length _)).
    eapply seed_fold_reach; [apply incl_refl|exact H|apply r_start].
  - apply (search_round_spec _ _ _ _ _ H), r_inert, r_start.
  - pose proof (reach_done prm _ st p tid good eq_refl) as Hd.
    destruct (f_on st); [now apply (search_round_spec _ _ _ _ _ H)|now destruct H as [-> _]].
  - destruct H as [-> _]. apply r_active; [apply r_start|].
    intros q Hq. right. apply filter_In in Hq. apply Hq.
  - destruct H as [-> _]. apply r_start.
  - destruct H as [-> _]. apply r_close, r_start.
  - destruct H as [H|[-> _]]; [apply put_result_spec in H; destruct H as ((y & ->) & _); apply r_inert|];
      (apply reach_replied; [apply incl_refl|apply r_start]).
  - destruct H as [[-> _]|(items & seen & fresh & _ & -> & _)]; [apply r_start|].
    apply r_inert, reach_replied; [apply incl_refl|apply reach_paged; [reflexivity|now left|apply r_start]].
  - destruct H as [-> _]. apply r_close, r_start.
Qed.

Section FinderInv.
  Variable prm : fparams.
  Variable c : nat.
  Hypothesis Hcap : fp_cap prm = Some c.

  (* U: the peers mentioned so far.  Every probe is paid for by a seed, by a peer's first contact or by one of
     its at most c further pages. *)
  Record finv (st : fstate) (U : list N) : Prop := {
    inv_nd : NoDup (f_contacted st);
    inv_cU : incl (f_contacted st) U;
    inv_aU : forall q, In q (f_active st) -> In (pid q) U;
    inv_sched : f_sched st <= f_seeds st + length (f_contacted st) + total_pages st;
    inv_pk : NoDup (map fst (f_pages st));
    inv_pU : incl (map fst (f_pages st)) U;
    inv_pc : forall k v, In (k, v) (f_pages st) -> v <= c;
    inv_run : length (f_running st) <= ALPHA + f_seeds st
  }.

  Lemma finv_mono st U U' : incl U U' -> finv st U -> finv st U'.
  Proof. intros Hi [a b d e f g h i]. constructor; auto; eapply incl_tran; eauto. Qed.

  (* the invariant reads six fields only *)
  Lemma finv_ext a b U : finv b U ->
    f_contacted a = f_contacted b -> f_pages a = f_pages b -> f_sched a = f_sched b -> f_seeds a = f_seeds b ->
    length (f_running a) <= length (f_running b) -> (forall q, In q (f_active a) -> In (pid q) U) -> finv a U.
  Proof.
    intros [n cu _ s pk pu pc r] E1 E2 E3 E4 E5 Ha.
    constructor; unfold total_pages in *; rewrite ?E1, ?E2, ?E3, ?E4; auto. lia.
  Qed.

  Lemma finv_frame a b U : finv b U ->
    f_contacted a = f_contacted b -> f_pages a = f_pages b -> f_sched a = f_sched b -> f_seeds a = f_seeds b ->
    length (f_running a) <= length (f_running b) -> f_active a = f_active b -> finv a U.
  Proof. intros H E1 E2 E3 E4 E5 E6. apply (finv_ext a b U); auto. rewrite E6. apply (inv_aU _ _ H). Qed.

  (* a probe of a seed is paid for by the seed; any other needs a peer not contacted and a free slot *)
  Lemma finv_schedule st U p seed :
    In p U -> (seed = false -> ~ In p (f_contacted st) /\ length (f_running st) < ALPHA) ->
    finv st U -> finv (schedule st p seed) U.
  Proof.
    intros Hp Hns [a b d e f g h i]. pose proof (addN_length p (f_contacted st)) as (Hc & Hcf).
    pose proof (addN_length p (f_running st)) as (Hr & _).
    constructor; unfold total_pages in *; fcbn; auto.
    - now apply addN_NoDup.
    - intros x Hx. apply addN_In in Hx. destruct Hx as [->|Hx]; auto.
    - destruct seed; [lia|]. destruct (Hns eq_refl) as (Hn & _). rewrite (Hcf Hn). lia.
    - destruct seed; [lia|]. destruct (Hns eq_refl). lia.
  Qed.

  Theorem reach_finv ev st U n s : finv st U -> reach prm ev st n s -> finv s (U ++ mentioned_ev ev).
  Proof.
    intros Hinv H. apply (finv_mono _ U (U ++ mentioned_ev ev)) in Hinv; [|apply incl_appl, incl_refl].
    assert (HM : incl (mentioned_ev ev) (U ++ mentioned_ev ev)) by apply incl_appr, incl_refl.
    revert HM Hinv. generalize (U ++ mentioned_ev ev). intros V HM Hinv.
    induction H as [|p tid g _ _|n s on y b d _ IH|n s a _ IH Ha|n s p _ IH Hp|n s q _ IH Hq Hc Hr
                    |n s p d _ IH _ Hp Hlt|n s _ IH|n s p _ IH].
    - exact Hinv.
    - apply (finv_frame _ st); auto. apply filter_length_le.
    - apply (finv_frame _ s); auto.
    - apply (finv_ext _ s); auto. intros q Hq. destruct (Ha q Hq) as [Hm|Hi]; [auto|apply (inv_aU _ _ IH _ Hi)].
    - apply finv_schedule; auto. discriminate.
    - apply finv_schedule; auto. apply (inv_aU _ _ IH _ Hq).
    - (* the one place where the cap is needed: a peer leaves `contacted` only with its page counter raised,
         and the counter is raised only below the cap *)
      specialize (Hlt c Hcap). destruct IH as [a b d' e f g h i].
      constructor; unfold total_pages in *; fcbn; auto.
      + now apply NoDup_filter.
      + intros x Hx. apply b. now apply removeN_In in Hx.
      + rewrite total_pages_set. pose proof (removeN_length p _ a). lia.
      + rewrite assoc_set_nat_aupd. now apply (aupd_NoDup _ N.eqb_spec).
      + intros x Hx. rewrite assoc_set_nat_aupd, (aupd_keys _ N.eqb_spec) in Hx. destruct Hx as [->|Hx]; auto.
      + intros k v Hkv. rewrite assoc_set_nat_aupd in Hkv. apply (aupd_vals _ N.eqb_spec) in Hkv.
        destruct Hkv as [[-> ->]|Hkv]; [lia|eauto].
    - apply (finv_frame _ s); auto. cbn; lia.
    - apply (finv_frame _ s); auto.
  Qed.
End FinderInv.

Theorem reach_frame prm ev st n s : reach prm ev st n s ->
  f_seeds s = n + f_seeds st /\
  (is_vreply ev = false -> f_pages s = f_pages st /\ incl (f_contacted st) (f_contacted s)).
Proof.
  induction 1 as [|p tid g _ _|n s on y b d _ IH|n s a _ IH _|n s p _ IH _|n s q _ IH _ _ _
                  |n s p d _ IH Hv _ _|n s _ IH|n s p _ IH]; auto using incl_refl.
  1,2: destruct IH as (I1 & I2); split; [cbn; lia|]; intro Hv; destruct (I2 Hv) as (I3 & I4); split; auto;
    intros x Hx; apply addN_In; auto.
  destruct IH as (I1 & _). split; auto. intro Hf. congruence.
Qed.

Definition seeds_of (evs : list fev) : nat := fold_right (fun e a => seeds_ev e + a) 0 evs.

Lemma finv_init c : finv c f_init [].
Proof. constructor; cbn; auto using NoDup_nil, incl_nil_l with arith; intros ? ? []. Qed.

Lemma frun_inv prm c (Hcap : fp_cap prm = Some c) evs : forall st U,
  finv c st U ->
  finv c (fst (frun prm st evs)) (U ++ mentioned evs) /\
  f_seeds (fst (frun prm st evs)) = f_seeds st + seeds_of evs /\
  (forallb (fun e => negb (is_vreply e)) evs = true -> f_pages (fst (frun prm st evs)) = f_pages st).
Proof.
  induction evs as [|e evs IH]; intros st U Hinv; [|rewrite frun_cons];
    cbn [frun mentioned flat_map seeds_of fold_right forallb].
  - rewrite app_nil_r. auto.
  - destruct (fstep prm st e) as [[st1 o1] t1] eqn:Es. apply fstep_reach in Es. cbn [fst].
    pose proof (reach_finv prm c Hcap _ _ _ _ _ Hinv Es) as H1. apply reach_frame in Es. destruct Es as (Q1 & Q2).
    destruct (IH st1 _ H1) as (I1 & I2 & I3). fold (mentioned evs) in *. fold (seeds_of evs) in *.
    rewrite <- app_assoc in I1. split; [exact I1|split; [lia|]].
    intro Hb. apply andb_prop in Hb. destruct Hb as [Hb1 Hb2]. apply negb_true_iff in Hb1.
    rewrite (I3 Hb2). apply (Q2 Hb1).
Qed.

Lemma reachable_inv prm c evs : fp_cap prm = Some c ->
  finv c (final_state prm evs) (mentioned evs) /\ f_seeds (final_state prm evs) = seeds_of evs /\
  (forallb (fun e => negb (is_vreply e)) evs = true -> f_pages (final_state prm evs) = []).
Proof. intro Hcap. exact (frun_inv prm c Hcap evs f_init [] (finv_init c)). Qed.

Lemma nodup_bound (l U : list N) : NoDup l -> incl l U -> length l <= length (nodup N.eq_dec U).
Proof. intros Hn Hi. apply NoDup_incl_length; auto. intros x Hx. apply nodup_In. auto. Qed.

(* the number of probes ever scheduled is bounded by the seeds plus (1 + page cap) per distinct peer learned *)
Theorem finder_probe_bound prm c evs : fp_cap prm = Some c ->
  f_sched (final_state prm evs) <= seeds_of evs + (1 + c) * length (nodup N.eq_dec (mentioned evs)).
Proof.
  intro Hcap. destruct (reachable_inv prm c evs Hcap) as ([a b d e f g h i] & Hs & _).
  pose proof (nodup_bound _ _ a b) as Hc. pose proof (nodup_bound _ _ f g) as Hp. rewrite map_length in Hp.
  pose proof (total_pages_le c _ h) as Ht. unfold total_pages in e. nia.
Qed.

(* without value replies (every node lookup): one probe per distinct peer learned *)
Theorem finder_probe_bound_node prm c evs : fp_cap prm = Some c ->
  forallb (fun e => negb (is_vreply e)) evs = true ->
  f_sched (final_state prm evs) <= seeds_of evs + length (nodup N.eq_dec (mentioned evs)).
Proof.
  intros Hcap Hnv. destruct (reachable_inv prm c evs Hcap) as ([a b d e f g h i] & Hs & Hp).
  pose proof (nodup_bound _ _ a b) as Hc. unfold total_pages in e. rewrite (Hp Hnv) in e. cbn in e. lia.
Qed.

Theorem finder_alpha prm c evs : fp_cap prm = Some c ->
  length (f_running (final_state prm evs)) <= ALPHA + seeds_of evs.
Proof. intro Hcap. destruct (reachable_inv prm c evs Hcap) as ([a b d e f g h i] & Hs & _). lia. Qed.

Theorem finder_pages_capped prm c evs k v : fp_cap prm = Some c ->
  In (k, v) (f_pages (final_state prm evs)) -> v <= c.
Proof. intro Hcap. apply (inv_pc _ _ _ (proj1 (reachable_inv prm c evs Hcap))). Qed.

Theorem contacted_monotone prm st ev st' outs tag : is_vreply ev = false ->
  fstep prm st ev = (st', outs, tag) -> forall x, In x (f_contacted st) -> In x (f_contacted st').
Proof. intros Hv Hs. apply fstep_reach, reach_frame in Hs. apply (proj2 Hs Hv). Qed.

(* after every search round either a probe is still running or the finish marker has been queued *)
Theorem round_progress prm st ev st' outs tag :
  (exists good, ev = EStart good) \/ (exists p tid good, ev = EDone p tid good /\ f_on st = true) ->
  fstep prm st ev = (st', outs, tag) -> f_running st' <> [] \/ In OFinish outs.
Proof.
  intros Hev Hs. apply fstep_unfold in Hs. destruct Hs as (s1 & Hs & ->). destruct (settle_eq s1 ev) as (pd & ->).
  apply fstep_core_cases in Hs. fcbn.
  destruct Hev as [(good & ->)|(p & tid & good & -> & Hon)]; [|rewrite Hon in Hs];
    apply search_round_spec in Hs; destruct Hs as (E4 & _);
    (destruct (f_running s1); [right; auto|left; discriminate]).
Qed.

(* what an event may put out: on the node side what [yield_ok] allows, on the value side only well-formed public
   addresses that the reply carried *)
Definition out_ok (st : fstate) (ev : fev) (st' : fstate) (o : fout) : Prop :=
  match o with
  | OVYield cs => forall c, In c cs ->
      valid_compact c = true /\ exists p sb raw pages cts chk, ev = EValueReply p sb raw pages cts chk /\ In (VB c) raw
  | _ => yield_ok (good_of ev) (f_yielded st) (f_active st') o
  end.

Theorem fstep_outs prm st ev st' outs tag :
  fstep prm st ev = (st', outs, tag) -> forall o, In o outs -> out_ok st ev st' o.
Proof.
  intros H o Ho. apply fstep_unfold in H. destruct H as (s1 & H & ->). destruct (settle_eq s1 ev) as (pd & ->).
  change (out_ok st ev s1 o).
  assert (Hy : yield_ok (good_of ev) (f_yielded st) (f_active s1) o -> out_ok st ev s1 o)
    by (destruct o; try exact (fun h => h); intros []).
  (* nodes are yielded by a search round or by put_result only; the state either runs in still has the yielded
     list the event found, and neither changes the active list after it *)
  apply fstep_core_cases in H. destruct ev; cbn [good_of] in Hy.
  - destruct (seed_fold_reach prm (EInit shortlist) st _ 0 _ _ _ _ (incl_refl _) H (r_start _ _ _)) as (_ & Hs).
    destruct (Hs o Ho) as [[]|(p & ->)]. exact I.
  - apply search_round_spec in H. destruct H as (_ & Hs & _). exact (Hy (Hs o Ho)).
  - destruct (f_on st); [|destruct H as [_ ->]; destruct Ho].
    apply search_round_spec in H. destruct H as (_ & Hs & _). apply Hy. specialize (Hs o Ho).
    destruct (done_state_cases prm st p tid) as [E|(_ & E)]; rewrite E in Hs; exact Hs.
  - destruct H as [_ ->]. destruct Ho.
  - destruct H as [_ ->]. destruct Ho.
  - destruct H as [_ ->]. destruct Ho as [<-|[]]. exact I.
  - destruct H as [H|[_ ->]]; [|destruct Ho]. apply put_result_spec in H. destruct H as ((y & ->) & _ & Hs).
    apply Hy. specialize (Hs o Ho). destruct (replied_eq st p selfbad contacts) as (a & E & _).
    rewrite E in Hs |- *. exact Hs.
  - destruct H as [[_ ->]|(items & seen & fresh & Hit & _ & Hf & [->| ->])]; try destruct Ho as [<-|[]]; try destruct Ho.
    intros c Hc. destruct (Hit c (Hf c Hc)). eauto 10.
  - destruct H as [_ ->]. destruct Ho as [<-|[]]. exact I.
Qed.

(* every probe whose result is still pending owns its peer's running_probes entry *)
Definition jinv (st : fstate) : Prop :=
  forall p tid, assoc_opt p (f_pending st) = Some tid -> assoc_opt p (f_task st) = Some tid /\ In p (f_running st).

Lemma jinv_schedule st p seed : jinv st -> jinv (schedule st p seed).
Proof.
  intros H q tid. unfold schedule. cbn [f_pending f_task f_running]. rewrite !assoc_opt_set.
  destruct (N.eqb_spec q p) as [->|Ne]; intro E.
  - split; auto. apply addN_In. now left.
  - destruct (H q tid E) as (H1 & H2). split; auto. apply addN_In. now right.
Qed.

Lemma jinv_empty st : f_pending st = [] -> jinv st.
Proof. intros E p tid H. rewrite E in H. discriminate. Qed.

Theorem reach_jinv prm ev st n s :
  fp_stalepop prm = false -> ev_wf st ev -> jinv st -> reach prm ev st n s -> jinv s.
Proof.
  intros Hs Hwf Hj.
  induction 1 as [|p tid g -> Hown|n s on y b d _ IH|n s a _ IH _|n s p _ IH _|n s q _ IH _ _ _
                  |n s p d _ IH _ _ _|n s _ IH|n s p _ IH]; auto using jinv_schedule.
  - (* the finished task owns the entry it removes, and by [ev_wf] its own result is not pending *)
    intros q tq E. cbn [f_pending set_tasks] in E. destruct (Hj q tq E) as (H1 & H2). fcbn. rewrite assoc_opt_del.
    destruct (N.eqb_spec q p) as [->|Nq]; [|split; auto; apply removeN_In; auto].
    exfalso. apply Hwf. rewrite (Hown Hs) in H1. congruence.
  - intros q tq E. discriminate E.
  - intros q tq E. cbn [f_pending set_tasks] in E. rewrite assoc_opt_del in E. destruct (q =? p)%N; [discriminate|auto].
Qed.

(* every done-callback comes after its task's result *)
Fixpoint run_wf (prm : fparams) (st : fstate) (evs : list fev) : Prop :=
  match evs with
  | [] => True
  | e :: r => ev_wf st e /\ run_wf prm (fst (fst (fstep prm st e))) r
  end.

Lemma frun_jinv prm evs : fp_stalepop prm = false -> forall st, run_wf prm st evs -> jinv st ->
  jinv (fst (frun prm st evs)).
Proof.
  intro Hs. induction evs as [|e evs IH]; intros st Hwf Hj; [exact Hj|].
  destruct Hwf as (Hw & Hr). rewrite frun_cons. apply IH; [exact Hr|].
  destruct (fstep prm st e) as [[st1 o1] t1] eqn:Es.
  exact (reach_jinv prm _ _ _ _ Hs Hw Hj (fstep_reach _ _ _ _ _ _ Es)).
Qed.

(* with the repaired callback, whenever no probe is tracked as running, no probe result is pending:
   the end of the search is never declared while a page is still on its way *)
Theorem exhaustion_sound prm evs : fp_stalepop prm = false -> run_wf prm f_init evs ->
  f_running (final_state prm evs) = [] -> f_pending (final_state prm evs) = [].
Proof.
  intros Hs Hwf Hr. pose proof (frun_jinv prm evs Hs f_init Hwf (jinv_empty f_init eq_refl)) as Hj.
  unfold final_state in *. apply assoc_opt_nil. intro q.
  destruct (assoc_opt q (f_pending (fst (frun prm f_init evs)))) as [t|] eqn:E; auto.
  destruct (Hj q t E) as (_ & Hin). rewrite Hr in Hin. destruct Hin.
Qed.

Definition pager_peer : peer := {| pid := 1; pdist := 5; has_id := true; self_id := false; self_addr := false |}.

(* a hostile storing node: page j holds eight fresh valid addresses and announces j+2 pages.
   Page and position are the first two bytes of an address, which [eqc] compares: every page is new. *)
Definition pager_addr (j t : nat) : bytes :=
  [byte_of_N (11 + N.of_nat j); byte_of_N (N.of_nat t); x03; x04; x0d; x05] ++ repeat x00 48.

Definition pager_page (j : nat) : list bytes := map (pager_addr j) (seq 0 8).

Definition pager_reply (j : nat) : fev := EValueReply pager_peer false (map VB (pager_page j)) (j + 2) [] true.

Definition pager_round_evs (j : nat) : list fev := [pager_reply j; EDone 1 j []].

Definition pager_evs (rounds : nat) : list fev :=
  EInit [pager_peer] :: EStart [] :: flat_map pager_round_evs (seq 0 rounds).

Definition prm_value (cap : option nat) : fparams :=
  {| fp_kind := KValue; fp_key_is_self := false; fp_maxres := 8; fp_cap := cap; fp_stalepop := false |}.

(* t stays a variable under the evaluation: for no first byte in 11..44 does [public_ip] look at the second *)
Lemma pager_valid j t : j < 34 -> valid_compact (pager_addr j t) = true.
Proof.
  intro Hj. apply (proj1 (forallb_forall (fun j => valid_compact (pager_addr j t)) (seq 0 34)));
    [vm_compute; reflexivity|apply in_seq; lia].
Qed.

Lemma pager_first j c : j < 34 -> In c (pager_page j) -> nthN c 0 = (11 + N.of_nat j)%N.
Proof.
  intros Hj Hc. apply in_map_iff in Hc. destruct Hc as (t & <- & _). unfold nthN. cbn [pager_addr app nth_error].
  apply byte_of_N_small. lia.
Qed.

(* the peer has shown first bytes lower than those of page j only *)
Definition shown_below (j : nat) (d : list bytes) : Prop := forall c, In c d -> (nthN c 0 < 11 + N.of_nat j)%N.

Lemma shown_below_page j d : j < 34 -> shown_below j d -> shown_below (S j) (d ++ pager_page j).
Proof.
  intros Hj Hd c [Hc|Hc]%in_app_or.
  - specialize (Hd c Hc). lia.
  - rewrite (pager_first j c Hj Hc). lia.
Qed.

(* page j is new to such a peer; within the page the second bytes differ *)
Lemma pager_fresh j d : j < 34 -> shown_below j d -> union_set eqc d (pager_page j) = d ++ pager_page j.
Proof.
  intros Hj Hd. apply (union_set_keys eqc (fun c => nthN c 1)).
  - intros x y E. apply (eqc_key x y E).
  - apply nodupb_NoDup. vm_compute. reflexivity.
  - intros x y Hx Hy. destruct (eqc x y) eqn:E; [exfalso|reflexivity]. apply eqc_key in E. destruct E as [E _].
    rewrite (pager_first j x) in E by assumption. specialize (Hd y Hy). lia.
Qed.

(* the uncapped finder after j >= 1 rounds: the peer, having shown the addresses d, is contacted and running again
   under task j, and j + 1 probes have been scheduled *)
Definition pager_state (j : nat) (d b : list bytes) : fstate :=
  {| f_active := [pager_peer]; f_contacted := [1%N]; f_running := [1%N]; f_on := true; f_yielded := []; f_blob := b;
     f_pages := [(1%N, j)]; f_disc := [(1%N, d)]; f_sched := S j; f_seeds := 0; f_task := [(1%N, j)];
     f_pending := [(1%N, j)] |}.

(* a round: the reply is a full page of new addresses and announces more, so the peer leaves `contacted` with its
   page counter raised; the done-callback frees its slot and the search round it starts probes the peer again *)
Lemma pager_round j d b r : j < 34 -> shown_below j d ->
  exists b', fst (frun (prm_value None) (pager_state j d b) (pager_reply j :: EDone 1 j [] :: r)) =
             fst (frun (prm_value None) (pager_state (S j) (d ++ pager_page j) b') r).
Proof.
  intros Hj Hd. rewrite !frun_cons. unfold pager_reply.
  destruct (fstep_vreply_valid (prm_value None) (pager_state j d b) pager_peer false (pager_page j) (j + 2) [])
    as (seen & ->); [discriminate| |].
  { intros c Hc. apply in_map_iff in Hc. destruct Hc as (t & <- & _). now apply pager_valid. }
  cbv zeta. rewrite paged_again; [|reflexivity|now apply pager_fresh|apply le_n|cbn; lia].
  exists seen. generalize (pager_page j). intro e. cbn. unfold fstep, fstep_core, done_state. cbn.
  rewrite Nat.eqb_refl. reflexivity.
Qed.

Lemma pager_rounds n : forall j d b, j + n <= 34 -> shown_below j d ->
  f_sched (fst (frun (prm_value None) (pager_state j d b) (flat_map pager_round_evs (seq j n)))) = S (j + n).
Proof.
  induction n as [|n IH]; intros j d b Hn Hd; cbn [seq flat_map app pager_round_evs]; [cbn; lia|].
  destruct (pager_round j d b (flat_map pager_round_evs (seq (S j) n))) as (b' & ->); [lia|exact Hd|].
  rewrite IH; [lia|lia|apply shown_below_page; [lia|exact Hd]].
Qed.

(* before fac7223 (no cap) the probe bound of finder_probe_bound fails: one peer, 35 probes > 33, the first round
   by evaluation (the page table is still empty), the others by [pager_rounds].
   With the cap the bound holds on these events because it holds on all. *)
Lemma uncapped_pager_refuted :
  exists evs, length (nodup N.eq_dec (mentioned evs)) = 1 /\ seeds_of evs = 0 /\
    f_sched (final_state (prm_value None) evs) > (1 + MAX_VALUE_PAGES) * 1 /\
    f_sched (final_state (prm_value real_cap) evs) <= (1 + MAX_VALUE_PAGES) * 1.
Proof.
  exists (pager_evs 34).
  assert (Hm : length (nodup N.eq_dec (mentioned (pager_evs 34))) = 1) by (vm_compute; reflexivity).
  assert (Hs : seeds_of (pager_evs 34) = 0) by (vm_compute; reflexivity).
  pose proof (finder_probe_bound (prm_value real_cap) MAX_VALUE_PAGES (pager_evs 34) eq_refl) as Hb.
  rewrite Hm, Hs in Hb. split; [exact Hm|]. split; [exact Hs|]. split; [|exact Hb].
  assert (E : fst (frun (prm_value None) f_init [EInit [pager_peer]; EStart []; pager_reply 0; EDone 1 0 []])
              = pager_state 1 (pager_page 0) (pager_page 0)) by (vm_compute; reflexivity).
  unfold final_state.
  change (pager_evs 34) with ([EInit [pager_peer]; EStart []; pager_reply 0; EDone 1 0 []] ++
                              flat_map pager_round_evs (seq 1 33)).
  rewrite frun_app, E, pager_rounds; [cbn; lia|lia|apply (shown_below_page 0 []); [lia|intros c []]].
Qed.

(* a valid compact address (1.2.3.4, tcp port 3333 = 0x0d05) with node id i *)
Definition mk_compact (i : N) : bytes :=
  [x01; x02; x03; x04; x0d; x05] ++ be_encode 48 i.

(* the callback before 8221320: Q (closer, nothing stored) and P (a full page, more announced) answer in the same
   loop iteration; Q's callback re-schedules P, P's stale callback removes the new entry and the end is declared
   while P's next page is pending *)
Definition race_q : peer := {| pid := 1; pdist := 3; has_id := true; self_id := false; self_addr := false |}.
Definition race_p : peer := {| pid := 2; pdist := 9; has_id := true; self_id := false; self_addr := false |}.
Definition race_evs : list fev :=
  [EInit [race_q; race_p]; EStart [];
   EValueReply race_q false [] 0 [] true;
   EValueReply race_p false (map (fun t => VB (mk_compact (N.of_nat t))) (seq 0 8)) 3 [] true;
   EDone 1 0 []; EDone 2 1 []].
Definition prm_race (stale : bool) : fparams :=
  {| fp_kind := KValue; fp_key_is_self := false; fp_maxres := 8; fp_cap := real_cap; fp_stalepop := stale |}.

Lemma stale_pop_refuted :
  run_wf (prm_race true) f_init race_evs /\
  f_running (final_state (prm_race true) race_evs) = [] /\
  f_pending (final_state (prm_race true) race_evs) = [(2%N, 2)] /\
  In OFinish (fst (last (snd (frun (prm_race true) f_init race_evs)) ([], 0%N))) /\
  f_running (final_state (prm_race false) race_evs) = [2%N] /\
  ~ In OFinish (fst (last (snd (frun (prm_race false) f_init race_evs)) ([], 0%N))).
Proof.
  vm_compute. repeat split; try (intros [H|[]]; discriminate); try congruence; auto.
Qed.

Lemma guess_udp_supported (udp tcp : N) : guess_udp tcp = udp <-> port_layout_supported udp tcp.
Proof.
  unfold guess_udp, port_layout_supported.
  destruct (3332 <? tcp)%N eqn:E1; destruct (tcp <? 3400)%N eqn:E2; cbn [andb];
    try apply N.ltb_lt in E1; try apply N.ltb_ge in E1; try apply N.ltb_lt in E2; try apply N.ltb_ge in E2; lia.
Qed.

(* a peer that is not this node and not known bad, whose ports follow a supported layout, is handed out at once
   or pinged on its REAL udp port *)
Lemma producer_action_reaches (good : option bool) (known : option N) (udp tcp : N) :
  good <> Some false -> port_layout_supported udp tcp -> (known = None \/ known = Some udp) -> udp <> 0%N ->
  producer_action false good known tcp = APut \/ producer_action false good known tcp = APing udp.
Proof.
  intros Hg Hs Hk Hu. unfold producer_action.
  destruct good as [[|]|]; [now left|congruence|]. right.
  apply guess_udp_supported in Hs. destruct Hk as [->| ->]; [now rewrite Hs|].
  destruct (N.eqb_spec udp 0); [contradiction|reflexivity].
Qed.

Lemma ndigits_le (n : N) : ndigits n <= 7 /\ 1 <= ndigits n.
Proof. unfold ndigits. repeat (destruct (_ <? _)%N); lia. Qed.

Lemma ndigits_small (n : N) k : (n < 10 ^ k)%N -> (1 <= k <= 6)%N -> ndigits n <= N.to_nat k.
Proof.
  intros Hn Hk. unfold ndigits.
  assert (Hk' : (k = 1 \/ k = 2 \/ k = 3 \/ k = 4 \/ k = 5 \/ k = 6)%N) by lia.
  repeat match goal with |- context [(?a <? ?b)%N] => destruct (N.ltb_spec a b) end;
    destruct Hk' as [E|[E|[E|[E|[E|E] ] ] ] ]; subst k;
    match type of Hn with (_ < 10 ^ ?k)%N =>
      let v := eval vm_compute in (10 ^ k)%N in change (10 ^ k)%N with v in Hn;
      let w := eval vm_compute in (N.to_nat k) in change (N.to_nat k) with w end; lia.
Qed.

Lemma sz_bytes_text len : len <= 15 -> sz_bytes len <= 18.
Proof.
  intro H. unfold sz_bytes. assert (ndigits (N.of_nat len) <= 2); [|lia].
  apply (ndigits_small _ 2); [change (10 ^ 2)%N with 100%N; lia|lia].
Qed.

Lemma sz_int_port p : (p < 65536)%N -> sz_int p <= 7.
Proof.
  intro H. unfold sz_int. assert (ndigits p <= 5); [|lia].
  apply (ndigits_small _ 5); [change (10 ^ 5)%N with 100000%N; lia|lia].
Qed.

Lemma sum_triples cs : Forall (fun c => fst c <= 15 /\ (snd c < 65536)%N) cs ->
  sum_nat (map sz_triple cs) <= 78 * length cs.
Proof.
  induction 1 as [|c cs [H1 H2] _ IH]; cbn [map sum_nat fold_right length]; [lia|].
  fold (sum_nat (map sz_triple cs)). unfold sz_triple at 1.
  pose proof (sz_bytes_text _ H1). pose proof (sz_int_port _ H2).
  change (sz_bytes 48) with 51. lia.
Qed.

(* K contacts with the longest dotted quads and 5-digit ports, a full page of K peers and any page count below
   10^6: the largest first findValue page fits one datagram *)
Theorem first_page_fits (cs : list (nat * N)) (c : nat) (pages : N) :
  length cs <= K -> Forall (fun x => fst x <= 15 /\ (snd x < 65536)%N) cs -> c <= K -> (pages < 1000000)%N ->
  find_value_reply_size (Some cs) (Some c) pages <= MSG_SIZE_LIMIT.
Proof.
  intros Hl Hf Hc Hp. unfold find_value_reply_size, MSG_SIZE_LIMIT, K in *.
  pose proof (sum_triples cs Hf) as Hs.
  assert (Hpg : sz_int pages <= 8).
  { unfold sz_int. assert (ndigits pages <= 6); [|lia]. apply (ndigits_small _ 6); [exact Hp|lia]. }
  change (sz_bytes 5) with 7. change (sz_bytes 48) with 51. change (sz_bytes 8) with 10.
  change (sz_bytes 15) with 18. change (sz_bytes 54) with 57. change (sz_bytes 1) with 3. change (sz_bytes 20) with 23.
  change (sz_int 0) with 3. change (sz_int 1) with 3. change (sz_int 2) with 3. change (sz_int 3) with 3.
  nia.
Qed.

Lemma pq_enqueue_get q p a x :
  pq_get (pq_enqueue q p a) x =
  if N.eqb x p then Some (match pq_get q p with Some t => Z.min t a | None => a end) else pq_get q x.
Proof.
  rewrite pq_enqueue_aupd, (pq_get_alook (aupd N.eqb _ p q)), (alook_aupd _ N.eqb_spec), <- pq_get_alook. destruct (x =? p)%N; auto.
  destruct (pq_get q p) as [t|]; auto. f_equal. destruct (Z.ltb_spec a t); lia.
Qed.

(* once a contact is queued for time a, no sequence of further enqueues (of anybody) moves its ping later *)
Theorem pq_never_postponed (ops : list (N * Z)) : forall q p a,
  pq_get q p = Some a ->
  exists t, pq_get (fold_left (fun s o => pq_enqueue s (fst o) (snd o)) ops q) p = Some t /\ (t <= a)%Z.
Proof.
  intros q p a H. apply (fold_left_inv _ (fun s => exists t, pq_get s p = Some t /\ (t <= a)%Z)).
  - intros s [k b] (t & Ht & Hle). cbn [fst snd]. rewrite pq_enqueue_get. destruct (N.eqb_spec p k) as [->|Ne].
    + rewrite Ht. eexists. split; eauto. lia.
    + eauto.
  - exists a. split; auto. lia.
Qed.
