(* The code-shaped preimage equals the declarative SIGHASH_ALL preimage; equal preimages bind every signed
   field, because the preimage is the prefix-free encoding (Wire/Tx.v) of the blanked transaction; the channel
   digest pieces are injective under their fixed widths. *)
From Coq Require Import NArith ZArith List Lia.
From Coq.Strings Require Import Byte.
From LV Require Import Lib.Bytes Lib.Lists Wire.CompactSize Wire.Tx Model.C04.
Import ListNotations.
Local Open Scope N_scope.

Lemma sig_ins_length ins : forall i s, length (sig_ins ins i s) = length ins.
Proof.
  induction ins as [|x r IH]; intros i s; [reflexivity|].
  destruct i; cbn [sig_ins length]; [rewrite map_length; reflexivity | rewrite IH; reflexivity].
Qed.

Lemma spec_inputs_cons x r j i s :
  spec_inputs (x :: r) j i s = ser_in (set_script x (if Nat.eqb j i then s else [])) ++ spec_inputs r (S j) i s.
Proof. unfold ser_in. cbn [spec_inputs set_script ti_hash ti_index ti_script ti_seq]. rewrite <- !app_assoc. reflexivity. Qed.

Lemma spec_inputs_blank r : forall j i s, (j > i)%nat ->
  spec_inputs r j i s = concat (map ser_in (map (fun y => set_script y []) r)).
Proof.
  induction r as [|x r IH]; intros j i s H; [reflexivity|].
  rewrite spec_inputs_cons, (proj2 (Nat.eqb_neq j i)), (IH (S j) i s) by lia. reflexivity.
Qed.

Lemma spec_inputs_sig ins : forall j i s,
  spec_inputs ins j (j + i) s = concat (map ser_in (sig_ins ins i s)).
Proof.
  induction ins as [|x r IH]; intros j i s; [reflexivity|]. rewrite spec_inputs_cons. destruct i as [|i'].
  - rewrite Nat.add_0_r, Nat.eqb_refl, (spec_inputs_blank r (S j) j s) by lia. reflexivity.
  - rewrite (proj2 (Nat.eqb_neq j (j + S i'))), <- Nat.add_succ_comm, IH by lia. reflexivity.
Qed.

Theorem preimage_is_spec t i s : sighash_preimage t i s = sighash_spec t i s.
Proof.
  unfold sighash_preimage, sighash_spec, serialize, sig_tx, ser_ins.
  cbn [tx_version tx_ins tx_outs tx_locktime].
  rewrite sig_ins_length. rewrite <- (spec_inputs_sig (tx_ins t) 0 i s). cbn [Nat.add].
  rewrite <- !app_assoc. reflexivity.
Qed.

Lemma wf_set_script x s : wf_in x -> N.of_nat (length s) < MAXSIZE1 -> wf_in (set_script x s).
Proof. unfold wf_in, set_script. cbn. intros (A & B & C & D) H. repeat split; assumption. Qed.

Lemma empty_script_fits : N.of_nat (@length byte []) < MAXSIZE1.
Proof. reflexivity. Qed.

Lemma wf_sig_ins ins : forall i s, Forall wf_in ins -> N.of_nat (length s) < MAXSIZE1 ->
  Forall wf_in (sig_ins ins i s).
Proof.
  induction ins as [|x r IH]; intros i s H Hs; [constructor|].
  apply Forall_cons_iff in H as [Hx Hr]. destruct i; cbn [sig_ins].
  - constructor; [apply wf_set_script; assumption|].
    apply Forall_map. eapply Forall_impl; [|exact Hr]. intros y Hy. apply wf_set_script; [exact Hy | exact empty_script_fits].
  - constructor; [apply wf_set_script; [exact Hx | exact empty_script_fits] | apply IH; assumption].
Qed.

Lemma wf_sig_tx t i s : wf_tx t -> N.of_nat (length s) < MAXSIZE1 -> wf_tx (sig_tx t i s).
Proof.
  unfold wf_tx, sig_tx. cbn [tx_version tx_ins tx_outs tx_locktime].
  intros (A & B & C & D & E & F & G) Hs. rewrite sig_ins_length.
  split; [exact A|]. split; [exact B|]. split.
  - destruct (tx_ins t) as [|x r]; [congruence|]. destruct i; discriminate.
  - split; [exact D|]. split; [exact E|]. split; [apply wf_sig_ins; assumption | exact G].
Qed.

Lemma sig_ins_map {B} (f : txin -> B) : (forall x s, f (set_script x s) = f x) ->
  forall ins i s, map f (sig_ins ins i s) = map f ins.
Proof.
  intro Hf. induction ins as [|x r IH]; intros i s; [reflexivity|].
  destruct i; cbn [sig_ins map]; rewrite Hf; f_equal; [|apply IH].
  rewrite map_map. apply map_ext. intro y. apply Hf.
Qed.

(* the one non-empty script tells where it sits *)
Lemma sig_ins_script_inj ins1 : forall ins2 i1 i2 s1 s2,
  (i1 < length ins1)%nat -> (i2 < length ins2)%nat -> s1 <> [] -> s2 <> [] ->
  map ti_script (sig_ins ins1 i1 s1) = map ti_script (sig_ins ins2 i2 s2) -> i1 = i2 /\ s1 = s2.
Proof.
  induction ins1 as [|x1 r1 IH]; intros ins2 i1 i2 s1 s2 L1 L2 N1 N2 H; [destruct (Nat.nlt_0_r _ L1)|].
  destruct ins2 as [|x2 r2]; [destruct (Nat.nlt_0_r _ L2)|].
  destruct i1, i2; cbn [sig_ins map set_script ti_script] in H; injection H as H.
  - auto.
  - congruence.
  - congruence.
  - apply Nat.succ_lt_mono in L1, L2. destruct (IH r2 i1 i2 s1 s2 L1 L2 N1 N2 H) as [-> ->]. auto.
Qed.

Lemma preimage_inj t1 t2 i1 i2 s1 s2 :
  wf_tx t1 -> wf_tx t2 ->
  N.of_nat (length s1) < MAXSIZE1 -> N.of_nat (length s2) < MAXSIZE1 ->
  sighash_preimage t1 i1 s1 = sighash_preimage t2 i2 s2 -> sig_tx t1 i1 s1 = sig_tx t2 i2 s2.
Proof.
  intros W1 W2 L1 L2 H.
  exact (proj1 (serialize_prefix_free _ _ _ _ (wf_sig_tx _ _ _ W1 L1) (wf_sig_tx _ _ _ W2 L2) H)).
Qed.

Definition outpoint (x : txin) : bytes * N := (ti_hash x, ti_index x).

Theorem preimage_binds t1 t2 i1 i2 s1 s2 :
  wf_tx t1 -> wf_tx t2 ->
  N.of_nat (length s1) < MAXSIZE1 -> N.of_nat (length s2) < MAXSIZE1 ->
  sighash_preimage t1 i1 s1 = sighash_preimage t2 i2 s2 ->
  tx_version t1 = tx_version t2 /\ tx_locktime t1 = tx_locktime t2 /\ tx_outs t1 = tx_outs t2 /\
  map outpoint (tx_ins t1) = map outpoint (tx_ins t2) /\ map ti_seq (tx_ins t1) = map ti_seq (tx_ins t2) /\
  ((i1 < length (tx_ins t1))%nat -> (i2 < length (tx_ins t2))%nat -> s1 <> [] -> s2 <> [] -> i1 = i2 /\ s1 = s2).
Proof.
  intros W1 W2 L1 L2 H. injection (preimage_inj _ _ _ _ _ _ W1 W2 L1 L2 H) as Hv Hi Ho Hl.
  split; [exact Hv|]. split; [exact Hl|]. split; [exact Ho|].
  assert (Hm : forall B (f : txin -> B), (forall x s, f (set_script x s) = f x) -> map f (tx_ins t1) = map f (tx_ins t2)).
  { intros B f Hf. rewrite <- (sig_ins_map f Hf _ i1 s1), Hi. apply sig_ins_map, Hf. }
  split; [apply Hm; reflexivity|]. split; [apply Hm; reflexivity|].
  intros I1 I2 N1 N2. exact (sig_ins_script_inj _ _ _ _ _ _ I1 I2 N1 N2 (f_equal (map ti_script) Hi)).
Qed.

Theorem channel_pieces_inj fo fo' ch ch' m m' :
  length fo = 36%nat -> length fo' = 36%nat -> length ch = 20%nat -> length ch' = 20%nat ->
  channel_pieces fo ch m = channel_pieces fo' ch' m' -> fo = fo' /\ ch = ch' /\ m = m'.
Proof.
  unfold channel_pieces. intros A A' B B' H.
  apply app_inv_len in H; [|congruence]. destruct H as [E1 H].
  apply app_inv_len in H; [|congruence]. destruct H as [E2 E3]. auto.
Qed.

Theorem legacy_pieces_inj a a' p p' ch ch' :
  length a = 25%nat -> length a' = 25%nat -> length ch = 20%nat -> length ch' = 20%nat ->
  legacy_pieces a p ch = legacy_pieces a' p' ch' -> a = a' /\ p = p' /\ ch = ch'.
Proof.
  unfold legacy_pieces. intros A A' B B' H.
  apply app_inv_len in H; [|congruence]. destruct H as [E1 H].
  apply app_inv_len_r in H; [|rewrite !rev_length; congruence]. destruct H as [E2 E3].
  split; [exact E1|]. split; [exact E2|].
  rewrite <- (rev_involutive ch), <- (rev_involutive ch'), E3. reflexivity.
Qed.

Theorem outpoint_bytes_inj h h' p p' : length h = 32%nat -> length h' = 32%nat -> p < 4294967296 -> p' < 4294967296 ->
  outpoint_bytes h p = outpoint_bytes h' p' -> h = h' /\ p = p'.
Proof.
  unfold outpoint_bytes. intros A A' B B' H. apply app_inv_len in H; [|congruence].
  destruct H as [E1 E2]. split; [exact E1|]. apply (le_encode_inj 4); assumption.
Qed.

Lemma outpoint_bytes_length h p : length h = 32%nat -> length (outpoint_bytes h p) = 36%nat.
Proof. intro H. unfold outpoint_bytes. rewrite app_length, le_encode_length, H. reflexivity. Qed.

Section Signing.
  Variable sha256 : bytes -> bytes.
  Variable verify : bytes -> bytes -> bytes -> bool.

  (* validation sees the object only through its digest pieces: two objects that one signature tells
     apart have different pieces *)
  Theorem validation_depends_on_pieces pk fo ch m fo' ch' m' sg :
    is_signed_by sha256 verify pk fo ch m sg = true ->
    is_signed_by sha256 verify pk fo' ch' m' sg = false ->
    channel_pieces fo ch m <> channel_pieces fo' ch' m'.
  Proof. unfold is_signed_by, channel_digest. intros H1 H2 E. rewrite E in H1. congruence. Qed.
End Signing.

(* non-vacuity sample *)
Definition sample_in (k : N) : txin := mk_txin (repeat (byte_of_N k) 32) k [byte_of_N 7] 4294967295.
Definition sample_tx4 : tx := mk_tx 1 [sample_in 1; sample_in 2; sample_in 3] [mk_txout 5000 [byte_of_N 118; byte_of_N 169]] 0.
Lemma sample_tx4_wf : wf_tx sample_tx4.
Proof. repeat constructor. discriminate. Qed.
