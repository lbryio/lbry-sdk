From Coq Require Import List Bool.
From Coq.Strings Require Import Byte.
From LV Require Import Lib.Bytes Lib.Lists Model.C04 Model.C04_Obj.
Import ListNotations.

Section Obj.
  Variable sha256 : bytes -> bytes.
  Variable pub : bytes -> bytes.
  Variable sign : bytes -> bytes -> bytes.
  Variable verify : bytes -> bytes -> bytes -> bool.
  Variable fo addr : bytes.
  Hypothesis verify_sign : forall sk d, verify (pub sk) d (sign sk d) = true.

  Notation step := (ostep sha256 sign fo).
  Notation run := (orun sha256 sign fo).
  Notation valid := (obj_valid sha256 verify fo addr).
  Notation valid_ch := (obj_valid_channel sha256 verify fo addr).

  (* the state right after a signature by (sk, ch) over message m; harmless operations ([keeps]) leave it as it is *)
  Definition signed_state (sk ch m : bytes) : sobj :=
    mk_sobj None (Some (sign sk (sha256 (channel_pieces fo ch m)))) ch m.

  Lemma step_sign o sk ch : step o (OSign sk ch) = signed_state sk ch (o_msg o).
  Proof. reflexivity. Qed.

  Lemma keeps_signed_state sk ch m op : keeps m op = true -> step (signed_state sk ch m) op = signed_state sk ch m.
  Proof.
    destruct op as [sk' ch'| |m'|]; cbn [keeps]; intro H; try discriminate.
    - apply bytes_eqb_eq in H. subst. reflexivity.
    - reflexivity.
  Qed.

  Lemma run_keeps sk ch m ops : forallb (keeps m) ops = true -> run (signed_state sk ch m) ops = signed_state sk ch m.
  Proof.
    intro H. apply (fold_left_inv_In (fun o => o = signed_state sk ch m)); [|reflexivity].
    intros o op Hop ->. apply keeps_signed_state. exact (proj1 (forallb_forall _ _) H op Hop).
  Qed.

  Lemma run_resigned o0 before sk ch after : forallb (keeps (o_msg (run o0 before))) after = true ->
    run o0 (before ++ OSign sk ch :: after) = signed_state sk ch (o_msg (run o0 before)).
  Proof.
    intro H. unfold orun. rewrite fold_left_app. cbn [fold_left]. fold (run o0 before).
    rewrite step_sign. apply run_keeps. exact H.
  Qed.

  Theorem resigned_validates o0 before sk ch after :
    forallb (keeps (o_msg (run o0 before))) after = true ->
    valid (pub sk) (run o0 (before ++ OSign sk ch :: after)) = true.
  Proof. intro H. rewrite run_resigned by exact H. apply verify_sign. Qed.

  (* after sign + harmless operations the digest is the current-format one over the current fields: no trace of
     an earlier release's payload survives *)
  Theorem resigned_digest_current o0 before sk ch after :
    forallb (keeps (o_msg (run o0 before))) after = true ->
    let o := run o0 (before ++ OSign sk ch :: after) in
    o_legacy o = None /\ o_ch o = ch /\ obj_pieces fo addr o = channel_pieces fo ch (o_msg (run o0 before)).
  Proof. intro H. cbv zeta. rewrite run_resigned by exact H. repeat split. Qed.

  Lemma unsigned_stays o ops : o_sig o = None -> forallb not_sign ops = true -> o_sig (run o ops) = None.
  Proof.
    intros Ho H. apply (fold_left_inv_In (fun s => o_sig s = None)); [|exact Ho].
    intros s op Hop Hs. pose proof (proj1 (forallb_forall _ _) H op Hop) as Hn.
    destruct op as [sk ch| |m|]; [discriminate Hn | reflexivity | exact Hs | cbn [ostep]; rewrite Hs; reflexivity].
  Qed.

  Theorem cleared_never_validates o0 before after pk :
    forallb not_sign after = true ->
    valid pk (run o0 (before ++ OClear :: after)) = false.
  Proof.
    intro H.
    assert (E : o_sig (run o0 (before ++ OClear :: after)) = None).
    { unfold orun. rewrite fold_left_app. cbn [fold_left].
      apply (unsigned_stays (step (fold_left step before o0) OClear) after eq_refl H). }
    unfold obj_valid. rewrite E. reflexivity.
  Qed.

  Theorem resigned_validates_channel o0 before sk ch after :
    forallb (keeps (o_msg (run o0 before))) after = true ->
    valid_ch (pub sk) ch (run o0 (before ++ OSign sk ch :: after)) = true.
  Proof.
    intro H. unfold obj_valid_channel. rewrite (resigned_validates _ _ _ _ _ H), run_resigned by exact H.
    cbn [o_ch signed_state]. rewrite bytes_eqb_refl. reflexivity.
  Qed.

  (* whatever key it carries -- the signer's own included -- a channel with another claim hash is refused *)
  Theorem other_channel_refused o pk ch : ch <> o_ch o -> valid_ch pk ch o = false.
  Proof.
    intro H. unfold obj_valid_channel. rewrite (proj2 (bytes_eqb_neq (o_ch o) ch)) by congruence. reflexivity.
  Qed.

  (* re-reading never changes what is signed nor by whom for a current-format object *)
  Theorem reread_preserves_current o pk : o_legacy o = None -> valid pk (step o OReread) = valid pk o.
  Proof.
    intro H. destruct o as [l s c m]. cbn in H. subst l. destruct s as [sg|]; reflexivity.
  Qed.
End Obj.

(* The behaviour before a3011f6 is refuted in the model (C04_old_sign_refuted, by evaluation): with a scheme whose
   verify compares the signature with a recomputation (so verify (pub sk) d (sign sk d) = true holds), an object
   decoded from an earlier release and then signed did not validate against its signer. *)
Definition toy_sha (b : bytes) : bytes := b.
Definition toy_sign (sk d : bytes) : bytes := sk ++ d.
Definition toy_verify (pk d sg : bytes) : bool := bytes_eqb sg (pk ++ d).
Lemma toy_verify_sign sk d : toy_verify sk d (toy_sign sk d) = true.
Proof. unfold toy_verify, toy_sign. apply bytes_eqb_eq. reflexivity. Qed.

Definition legacy_start : sobj := mk_sobj (Some [x01; x02]) (Some [x09]) [x05] [x03].
