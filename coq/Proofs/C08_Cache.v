(* C08: the transaction cache never serves a transaction as verified unless its proof checks against
   the header the wallet holds NOW at that height -- for every sequence of operations. *)
From Coq Require Import ZArith List Lia.
From LV Require Import Lib.Bytes Lib.Lists Model.C08 Model.C08_Cache Proofs.C08.
Import ListNotations.

Section Cache.
Variable dsha : bytes -> bytes.

(* a stored item is sound w.r.t. a header list: if flagged verified, its height has a header there and
   the stored proof folds, from the hash of the stored bytes, to that header's root *)
Definition entry_ok (headers : list bytes) (e : centry) : Prop :=
  t_verified (c_st e) = true ->
  in_range headers (t_height (c_st e)) /\ proof_checks dsha headers (c_raw e) (t_height (c_st e)) (c_resp e).

Definition slot_ok (headers : list bytes) (kv : bytes * option centry) : Prop :=
  match snd kv with Some e => entry_ok headers e | None => True end.

Definition inv (s : wstate) : Prop := Forall (slot_ok (w_headers s)) (w_cache s).

Lemma lookup_ok headers c k e : Forall (slot_ok headers) c -> lookup k c = Some (Some e) -> entry_ok headers e.
Proof.
  induction 1 as [|[k' v] r Hv _ IH]; cbn [lookup]; [discriminate|].
  destruct (bytes_eqb k k'); [|exact IH]. intro L. injection L as ->. exact Hv.
Qed.

Lemma upsert_ok headers c k v : Forall (slot_ok headers) c -> slot_ok headers (k, v) ->
  Forall (slot_ok headers) (upsert k v c).
Proof.
  intros H Hv. induction H as [|[k' v'] r Hv' Hr IH]; cbn [upsert]; [|destruct (bytes_eqb k k')];
    constructor; auto.
Qed.

Lemma fetched_entry_ok headers raw h arg net :
  entry_ok headers {| c_raw := raw; c_resp := effective arg net;
                      c_st := mv_state (maybe_verify dsha headers (fresh h) raw h arg net) |}.
Proof.
  unfold entry_ok. cbn [c_st c_raw c_resp]. rewrite height_recorded. now apply verified_iff.
Qed.

(* appending headers keeps every existing height's header *)
Lemma entry_ok_app headers newh e : entry_ok headers e -> entry_ok (headers ++ newh) e.
Proof.
  intros H V. destruct (H V) as (R & brs & pos & br & A & B & C & D & E). unfold in_range in *.
  rewrite app_length, Nat2Z.inj_add. split; [lia|].
  exists brs, pos, br. rewrite app_nth1 by lia. auto.
Qed.

Lemma request_cases s key raw h arg net :
  let r := maybe_verify dsha (w_headers s) (fresh h) raw h arg net in
  (exists e, lookup key (w_cache s) = Some (Some e) /\ t_verified (c_st e) = true /\
             request dsha s key raw h arg net = (s, Hit (c_st e))) \/
  snd (request dsha s key raw h arg net) = Fetched (mv_state r) (mv_outcome r).
Proof.
  unfold request. destruct (lookup key (w_cache s)) as [[e|]|]; [destruct (t_verified (c_st e)) eqn:V|..];
    [left; eauto | right; destruct (mv_outcome _); reflexivity..].
Qed.

Lemma request_inv s key raw h arg net : inv s -> inv (fst (request dsha s key raw h arg net)).
Proof.
  intro H. unfold request.
  destruct (match lookup key (w_cache s) with Some (Some e) => _ | _ => None end); [exact H|].
  destruct (mv_outcome _); unfold inv; cbn [fst w_headers w_cache];
    try (apply upsert_ok; [exact H | apply fetched_entry_ok]);
    (destruct (lookup key (w_cache s)); [exact H | apply upsert_ok; [exact H | exact I]]).
Qed.

Lemma step_inv s op : inv s -> inv (fst (step dsha s op)).
Proof.
  intro H. destruct op as [key raw h arg net | newh | fork newh | fork newh | ]; cbn [step];
    try (constructor; fail).
  - pose proof (request_inv s key raw h arg net H) as R.
    destruct (request dsha s key raw h arg net). exact R.
  - refine (Forall_impl _ _ H). intros [k [e|]]; [apply entry_ok_app | trivial].
Qed.

(* a restart changes nothing about the headers the wallet verifies against: they are the ones the last
   extension / reorganisation left, whether or not the chain length changed in that session *)
Lemma restart_keeps_headers s : w_headers (fst (step dsha s OpRestart)) = w_headers s.
Proof. reflexivity. Qed.

Lemma final_fold ops : forall s, final dsha s ops = fold_left (fun s op => fst (step dsha s op)) ops s.
Proof.
  unfold final. induction ops as [|op r IH]; intro s; cbn [run fold_left]; [reflexivity|].
  rewrite <- IH. destruct (step dsha s op) as [s1 o]. cbn [fst]. destruct (run dsha s1 r). reflexivity.
Qed.

Lemma final_app s ops1 ops2 : final dsha s (ops1 ++ ops2) = final dsha (final dsha s ops1) ops2.
Proof. rewrite !final_fold. apply fold_left_app. Qed.

Lemma inv_empty headers : inv {| w_headers := headers; w_cache := [] |}.
Proof. constructor. Qed.

Lemma run_inv ops s : inv s -> inv (final dsha s ops).
Proof. rewrite final_fold. apply fold_left_inv. intros a b. apply step_inv. Qed.

(* in a state whose cached items are sound (after ANY sequence of requests, header extensions and
   reorganisations from an empty cache: run_inv), a request answered from the cache returns a transaction whose
   stored proof checks against the header the wallet holds NOW at the transaction's height *)
Theorem cache_hit_sound s : inv s -> forall key raw h arg net st,
  snd (request dsha s key raw h arg net) = Hit st ->
  t_verified st = true /\
  exists e, lookup key (w_cache s) = Some (Some e) /\ c_st e = st /\
            in_range (w_headers s) (t_height st) /\
            proof_checks dsha (w_headers s) (c_raw e) (t_height st) (c_resp e).
Proof.
  intros Hinv key raw h arg net st. destruct (request_cases s key raw h arg net) as [(e & L & V & ->) | ->]; [|discriminate].
  intro E. injection E as <-. split; [exact V|].
  exists e. split; [exact L|]. split; [reflexivity|]. exact (lookup_ok _ _ _ _ Hinv L V).
Qed.

(* and whatever sits in the cache after the request, served or downloaded, is sound *)
Theorem cache_entries_sound s : inv s -> forall key raw h arg net k e,
  let s' := fst (request dsha s key raw h arg net) in
  lookup k (w_cache s') = Some (Some e) -> entry_ok (w_headers s') e.
Proof. intros Hinv key raw h arg net k e. exact (lookup_ok _ _ k e (request_inv s key raw h arg net Hinv)). Qed.

(* completeness side (what seeded change C08-8 breaks): an item that is cached but NOT verified never
   answers a request -- the transaction is downloaded and verified again; with a genuine proof and the
   header now present it comes back verified *)
Theorem unverified_item_is_refetched s key raw h arg net e :
  lookup key (w_cache s) = Some (Some e) -> t_verified (c_st e) = false ->
  snd (request dsha s key raw h arg net) =
  Fetched (mv_state (maybe_verify dsha (w_headers s) (fresh h) raw h arg net))
          (mv_outcome (maybe_verify dsha (w_headers s) (fresh h) raw h arg net)).
Proof.
  intros L V. destruct (request_cases s key raw h arg net) as [(e' & L' & V' & _)|E]; [congruence | exact E].
Qed.

Theorem genuine_request_verified s key raws idx h arg net r :
  (idx < length raws)%nat -> in_range (w_headers s) h ->
  merkle_root dsha (map dsha raws) = Some r ->
  header_root_raw (nth (Z.to_nat h) (w_headers s) []) = r ->
  effective arg net = {| m_merkle := Some (map wire (branch dsha (map dsha raws) idx));
                         m_pos := Some (Z.of_nat idx) |} ->
  match snd (request dsha s key (nth idx raws []) h arg net) with
  | Hit st => t_verified st = true
  | Fetched st out => t_verified st = true /\ t_height st = h /\ t_position st = Z.of_nat idx /\ out = RetTx
  end.
Proof.
  intros Hi Hr Hroot Hh He.
  destruct (request_cases s key (nth idx raws []) h arg net) as [(e & _ & V & ->) | ->]; [exact V|].
  pose proof (genuine_verified dsha (w_headers s) (fresh h) raws idx h arg net r Hi Hr Hroot Hh He) as G.
  cbv zeta in G. tauto.
Qed.

End Cache.
