(* Client side: what holds after EVERY event sequence.  Three closure lemmas say once what can happen to the state:
   [step_with_inv] for an event, [loop_inv] for a loop run, a timer or a cancellation, [dr_inv] for data_received in
   either version.  [Safe], [keeps] / [dkeeps] and [DoneIdle] are predicates kept by each of the changes these list. *)
From Coq Require Import NArith ZArith List Bool Lia.
From Coq.Strings Require Import Byte.
From LV Require Import Lib.Bytes Lib.Lists Model.C10 Proofs.C10.
Import ListNotations.
Local Open Scope Z_scope.

(* an event is one of: a segment (whether or not data_received raises), a loop run, a timer firing after a loop run,
   a cancellation; a predicate kept by each of these is kept by every event *)
Lemma step_with_inv (P : client -> Prop) dr :
  (forall c d, P c -> P (fst (dr c d))) ->
  (forall c, P c -> P (force_close c)) ->
  (forall c, P c -> P (drain c)) ->
  (forall c t, P c -> P (fire_timeouts (set_now t (drain c)))) ->
  (forall c, P c -> P (cancel_download c)) ->
  forall c e, P c -> P (step_with dr c e).
Proof.
  intros Hdr Hfc Hdn Hft Hcd c e Hc.
  assert (Hd : forall d, P (let '(c1, raised) := dr c d in if raised then force_close c1 else c1)).
  { intro d. specialize (Hdr c d Hc). destruct (dr c d) as [c1 []]; auto. }
  destruct e; cbn [step_with]; cbv zeta; auto; destruct (c_open c); auto.
Qed.

(* a loop run, a timer firing and a cancellation do nothing to the state but these seven things (the phase moves
   on only from waiting for the response to waiting for the writer, with a new deadline one timeout ahead) *)
Section Loop.
Variable P : client -> Prop.
Hypothesis Hclose : forall c, P c -> P (close c).
Hypothesis Hfinish : forall res c, P c -> P (finish res c).
Hypothesis Hcallbacks : forall c, P c -> P (run_callbacks c).
Hypothesis Hphase : forall c d, P c -> c_phase c = PhAwaitResp d -> P (set_phase (PhAwaitFin (c_now c + c_T c)) c).
Hypothesis Hcancel : forall c, P c -> P (set_fut FutCancelled c).
Hypothesis Hhandle : forall c, P c -> P (set_w (close_handle (c_w c)) c).
Hypothesis Hlost : forall c, P c -> P (set_lost false c).

Lemma co_await_fin_inv c : P c -> P (co_await_fin c).
Proof. intro Hc. unfold co_await_fin. destruct (w_fin (c_w c)); auto. Qed.

Lemma co_step_inv c : P c -> P (co_step c).
Proof.
  intro Hc. unfold co_step. destruct (c_phase c) eqn:Ep; auto using co_await_fin_inv.
  destruct (c_fut c); auto. destruct (c_closed_ev c); [auto|].
  destruct (acceptable _ _ _); eauto using co_await_fin_inv.
Qed.

Lemma loop_inv c : P c -> P (drain c) /\ P (fire_timeouts c) /\ P (cancel_download c).
Proof.
  intro Hc. split; [|split].
  - assert (H1 : P (co_step (run_callbacks c))) by auto using co_step_inv.
    unfold drain. destruct (c_lost _); auto using co_step_inv.
  - unfold fire_timeouts. destruct (c_phase c); auto; destruct (_ <=? _); auto. destruct (c_fut c); auto.
  - unfold cancel_download. destruct (c_phase c); auto. destruct (c_fut c); auto.
Qed.

End Loop.

(* data_received and its form before fix 5c85ea7 differ in one test only *)
Definition dr_with (H : bytes -> bytes) json_loads (b : bool) (c : client) (data : bytes) : client * bool :=
  if negb (c_open c) then
    ((if c_att c && negb (fut_done (c_fut c)) then set_fut FutCancelled c else c), false)
  else if negb (c_att c) then (close c, false)
  else if b then
    if negb (c_has_w c) then (c, true)
    else if negb (w_closed (c_w c)) then cl_write H c data
    else parse_path H json_loads c data
  else parse_path H json_loads c data.

Section Data.
Variable H : bytes -> bytes.
Variable json_loads : bytes -> jres.

(* what data_received, in either version, may do to the state.  At any state on the way: write to an open writer, store
   the announced length, deliver the response to a pending future.  At c itself: nothing; cancel the future when the
   connection is not open; close, when nothing is attached or when the buffer has grown too long while the response is
   awaited; empty the buffer; let it grow within the cap while the response is awaited.  A predicate kept by each of
   these is kept *)
Lemma dr_inv (P : client -> Prop) b c data :
  (forall c1 d, P c1 -> w_closed (c_w c1) = false -> P (fst (cl_write H c1 d))) ->
  (forall c1 l, P c1 -> P (fst (set_length l c1))) ->
  (forall c1 r, P c1 -> c_fut c1 = FutPending -> P (set_delivered (S (c_delivered c1)) (set_fut (FutResult r) c1))) ->
  P c ->
  (c_open c = false -> P (set_fut FutCancelled c)) ->
  (c_att c = false \/ fut_done (c_fut c) = false -> P (close c)) ->
  P (set_buf [] c) ->
  (fut_done (c_fut c) = false -> zlen (c_buf c ++ data) <= MAX_RESPONSE_SIZE -> P (set_buf (c_buf c ++ data) c)) ->
  P (fst (dr_with H json_loads b c data)).
Proof.
  intros Hw Hl Hd Hc Hcancel Hclose Hnil Hgrow.
  assert (Hwio : forall c1 d, P c1 -> P (fst (write_if_open H c1 d))).
  { intros c1 d Hc1. unfold write_if_open. destruct d; [exact Hc1|].
    destruct (c_has_w c1); destruct (w_closed (c_w c1)) eqn:E; cbn [andb negb]; auto. }
  assert (Hpp : P (fst (parse_path H json_loads c data))).
  { unfold parse_path. destruct (parse_prefix json_loads (c_buf c ++ data)) as [| |r n]; cbn [fst]; [| exact Hc |].
    - destruct (fut_done (c_fut c)) eqn:Ef; cbn [negb]; [apply Hwio, Hnil|].
      destruct (Z.gtb_spec (zlen (c_buf c ++ data)) MAX_RESPONSE_SIZE); [apply Hclose|apply Hgrow]; auto.
    - assert (Hdeliver : forall c1, P c1 ->
         P (fst (match c_fut c1 with
                 | FutPending => write_if_open H (set_delivered (S (c_delivered c1)) (set_fut (FutResult r) c1))
                                   (skipn n (c_buf c ++ data))
                 | _ => (c1, true) end))).
      { intros c1 Hc1. destruct (c_fut c1) eqn:Ef; try exact Hc1. apply Hwio, Hd; assumption. }
      destruct (if c_att (set_buf [] c) then r_blob r else BrAbsent) as [| |h l]; try (apply Hdeliver, Hnil).
      destruct (match h with Some h' => bytes_eqb h' _ | None => false end); [|exact Hnil].
      specialize (Hl _ l Hnil). destruct (set_length l (set_buf [] c)) as [c1 []]; [exact Hl | apply Hdeliver, Hl]. }
  unfold dr_with. destruct (c_open c); cbn [negb fst]; [|destruct (_ && _); auto].
  destruct (c_att c); cbn [negb fst]; [|auto].
  destruct b; [|exact Hpp]. destruct (negb (c_has_w c)); [exact Hc|].
  destruct (w_closed (c_w c)) eqn:E; cbn [negb]; auto.
Qed.

End Data.

Lemma set_buf_id c : c_buf c = [] -> set_buf [] c = c.
Proof. destruct c; cbn; intros ->; reflexivity. Qed.

(* the slice _write takes: what fits into the room left *)
Lemma clip_firstn data room : 0 <= room ->
  (if zlen data >? room then pyslice_to data room else data) = firstn (Z.to_nat room) data.
Proof.
  intro Hr. unfold pyslice_to. destruct (Z.ltb_spec room 0); [lia|].
  destruct (Z.gtb_spec (zlen data) room); [reflexivity|]. symmetry. apply firstn_all2. unfold zlen in *. lia.
Qed.

(* a loop run when no connection_lost is queued is one turn of the coroutine (stated so that the other branch of
   drain is never evaluated) *)
Lemma drain_to c c' : co_step (run_callbacks c) = c' -> c_lost c' = false -> drain c = c'.
Proof. intros <- Hl. unfold drain. rewrite Hl. reflexivity. Qed.

(* the done-callbacks change nothing but what is saved as verified *)
Lemma run_callbacks_eq c : run_callbacks c = set_verified (c_verified (run_callbacks c)) c.
Proof. unfold run_callbacks. destruct c, (w_fin _), c_verified; reflexivity. Qed.

Section Client.
Variable H : bytes -> bytes.

Lemma writer_write_open hash L w data :
  L <> 0 -> w_closed w = false -> w_fin w = WPending -> zlen (w_data w ++ data) <= L ->
  writer_write H hash (Some L) w data =
    let d := w_data w ++ data in
    (mkW d (zlen d =? L)
         (if zlen d =? L then if bytes_eqb (H d) hash then WResult else WBadHash else WPending), WoOk).
Proof.
  intros HL Hc Hf Hfit. unfold writer_write. rewrite Hc, Hf.
  destruct (Z.eqb_spec L 0); [contradiction|]. destruct (Z.gtb_spec (zlen (w_data w ++ data)) L); [lia|].
  cbv zeta. destruct (_ =? L); [destruct (bytes_eqb _ _)|]; reflexivity.
Qed.

Lemma cl_write_open c data L :
  c_len c = Some L -> L <> 0 -> w_closed (c_w c) = false -> w_fin (c_w c) = WPending ->
  zlen (w_data (c_w c)) <= c_received c <= L ->
  let data' := firstn (Z.to_nat (L - c_received c)) data in
  let d := w_data (c_w c) ++ data' in
  cl_write H c data =
    (set_w (mkW d (zlen d =? L) (if zlen d =? L then if bytes_eqb (H d) (c_hash c) then WResult else WBadHash else WPending))
           (set_received (c_received c + zlen data') c), false).
Proof.
  intros Hl HL Hc Hf Hr. unfold cl_write. rewrite Hl, clip_firstn by lia. cbv zeta.
  rewrite writer_write_open; [reflexivity|assumption..|].
  rewrite zlen_app, zlen_firstn. lia.
Qed.

(* the part of the state the safety claims talk about *)
Definition Core (c : client) : Prop :=
  let w := c_w c in
  (w_closed w = false -> w_fin w = WPending) /\
  (w_fin w = WResult -> H (w_data w) = c_hash c /\ c_len c = Some (zlen (w_data w)) /\ w_closed w = true) /\
  (w_closed w = false ->
   match c_len c with
   | Some L => zlen (w_data w) <= c_received c /\ c_received c <= L
   | None => w_data w = [] /\ c_received c = 0
   end) /\
  (forall d, c_verified c = Some d -> d = w_data w /\ w_fin w = WResult).

Definition Safe (c : client) : Prop := Core c /\ zlen (c_buf c) <= MAX_RESPONSE_SIZE.

(* Safe only reads the writer, the four blob fields and the buffer; closing the writer handle, and emptying the
   buffer, keep it *)
Lemma Safe_ext c c' :
  c_w c' = c_w c \/ c_w c' = close_handle (c_w c) ->
  c_hash c' = c_hash c /\ c_len c' = c_len c /\ c_received c' = c_received c /\ c_verified c' = c_verified c ->
  c_buf c' = c_buf c \/ c_buf c' = [] -> Safe c -> Safe c'.
Proof.
  intros Hw (Hh & Hl & Hr & Hv) Hb [(S1 & S2 & S3 & S4) Hcap]. split.
  - unfold Core. rewrite Hh, Hl, Hr, Hv. destruct Hw as [-> | ->]; [auto|].
    cbn [close_handle w_data w_closed w_fin]. split; [discriminate|]. split; [|split; [discriminate|]].
    + intro Hf. destruct (w_fin (c_w c)); try discriminate. destruct (S2 eq_refl) as (A & B & _). auto.
    + intros d Hd. destruct (S4 d Hd) as [A B]. rewrite B. auto.
  - destruct Hb as [-> | ->]; [exact Hcap|]. unfold zlen, MAX_RESPONSE_SIZE. cbn. lia.
Qed.

Lemma Safe_close c : Safe c -> Safe (close c).
Proof.
  apply Safe_ext; [|repeat split|right; reflexivity]. cbn. destruct (c_has_w c && _); auto.
Qed.

Lemma Safe_finish res c : Safe c -> Safe (finish res c).
Proof. unfold finish. destruct (c_has_w c && _); apply Safe_ext; try (repeat split; fail); auto. Qed.

Lemma Safe_cl_write c data : Safe c -> w_closed (c_w c) = false ->
  let c' := fst (cl_write H c data) in
  Safe c' /\ (forall L, c_len c = Some L -> zlen (w_data (c_w c')) <= L).
Proof.
  intros Hs Hop. pose proof Hs as [(S1 & S2 & S3 & S4) Hcap]. specialize (S1 Hop). specialize (S3 Hop).
  destruct (c_len c) as [L|] eqn:El; [|unfold cl_write; rewrite El; split; [exact Hs|discriminate]].
  pose proof (zlen_nonneg (w_data (c_w c))). pose proof (zlen_nonneg data). pose proof (zlen_firstn (Z.to_nat (L - c_received c)) data) as Hd'.
  assert (Hnv : c_verified c = None).
  { destruct (c_verified c) as [v|] eqn:Ev; [|reflexivity]. destruct (S4 v eq_refl). congruence. }
  destruct (Z.eq_dec L 0) as [HL|HL].
  - (* blob of length 0: write() refuses *)
    unfold cl_write, writer_write. rewrite El, clip_firstn by lia. destruct (Z.eqb_spec L 0); [|contradiction].
    cbn [fst].
    assert (HX : Safe (set_w (c_w c) (set_received (c_received c + zlen (firstn (Z.to_nat (L - c_received c)) data)) c))).
    { split; [|exact Hcap]. unfold Core. cbn. rewrite El, Hnv. repeat split; try congruence; lia. }
    destruct (_ && _); (split; [exact HX|intros ? [= <-]; cbn; lia]).
  - rewrite (cl_write_open c data L) by (assumption || lia). cbn [fst].
    set (d := w_data (c_w c) ++ _). pose proof (zlen_app (w_data (c_w c)) (firstn (Z.to_nat (L - c_received c)) data)) as Hd.
    fold d in Hd.
    split; [|intros ? [= <-]; cbn; lia]. split; [|exact Hcap].
    unfold Core. cbn. rewrite El, Hnv. destruct (Z.eqb_spec (zlen d) L) as [E|E].
    + destruct (bytes_eqb (H d) (c_hash c)) eqn:Eh; repeat split; try discriminate.
      * apply bytes_eqb_eq, Eh.
      * congruence.
    + repeat split; try discriminate; lia.
Qed.

Lemma Safe_set_length l c : Safe c -> Safe (fst (set_length l c)).
Proof.
  intros Hs. unfold set_length.
  destruct l as [z|], (c_len c) as [k|] eqn:El; try exact Hs.
  destruct (Z.leb_spec 0 z); [|exact Hs]. destruct (Z.leb_spec z MAX_BLOB_SIZE); [|exact Hs]. cbn [andb fst].
  destruct Hs as [(S1 & S2 & S3 & S4) Hcap]. split; [|exact Hcap].
  unfold Core. cbn. rewrite El in *. split; [exact S1|]. split; [|split; [|exact S4]].
  - intro Hf. destruct (S2 Hf) as (_ & [=] & _).
  - intro Hop. destruct (S3 Hop) as [-> ->]. cbn. lia.
Qed.

Lemma Safe_run_callbacks c : Safe c -> Safe (run_callbacks c).
Proof.
  intros Hs. unfold run_callbacks.
  destruct (w_fin (c_w c)) eqn:Ef; try exact Hs. destruct (c_verified c) eqn:Ev; [exact Hs|].
  destruct Hs as [(S1 & S2 & S3 & S4) Hcap]. split; [|exact Hcap].
  repeat split; try tauto; cbn in *; congruence.
Qed.

Lemma Safe_close_writer c : Safe c -> Safe (set_w (close_handle (c_w c)) c).
Proof. apply Safe_ext; [right|repeat split|left]; reflexivity. Qed.

Lemma Safe_loop c : Safe c -> Safe (drain c) /\ Safe (fire_timeouts c) /\ Safe (cancel_download c).
Proof.
  apply (loop_inv Safe).
  - apply Safe_close.
  - apply Safe_finish.
  - apply Safe_run_callbacks.
  - intros c1 d Hs _. exact Hs.
  - intros c1 Hs. exact Hs.
  - apply Safe_close_writer.
  - intros c1 Hs. exact Hs.
Qed.

Lemma Safe_step_with dr : (forall c d, Safe c -> Safe (fst (dr c d))) ->
  forall c e, Safe c -> Safe (step_with dr c e).
Proof.
  intro Hdr. apply step_with_inv; auto.
  - intros c Hs. apply Safe_loop, Hs.
  - intros c t Hs. apply (Safe_loop (set_now t (drain c))), Safe_loop, Hs.
  - intros c Hs. apply Safe_loop, Hs.
Qed.

Lemma Safe_request hash known c : (match known with Some k => 0 <= k | None => True end) ->
  zlen (c_buf c) <= MAX_RESPONSE_SIZE -> Safe (request hash known c).
Proof.
  intros Hk Hb. unfold request.
  assert (Hs : forall c1, zlen (c_buf c1) <= MAX_RESPONSE_SIZE -> Safe (start_download hash known c1)).
  { intros c1 Hb1. split; [|exact Hb1]. unfold Core. cbn. repeat split; try discriminate.
    destruct known; cbn; [lia|auto]. }
  destruct (c_open c); apply Hs; [exact Hb|]. unfold zlen, MAX_RESPONSE_SIZE. cbn. lia.
Qed.

(* while the writer is open it holds at most the blob length, and nothing without a length; and every single _write
   in that state stays within the length *)
Theorem Safe_bounds c : Safe c ->
  (w_closed (c_w c) = false ->
   match c_len c with
   | Some L => zlen (w_data (c_w c)) <= L /\ c_received c <= L
   | None => w_data (c_w c) = [] /\ c_received c = 0
   end) /\
  (forall data L, c_len c = Some L -> w_closed (c_w c) = false ->
     zlen (w_data (c_w (fst (cl_write H c data)))) <= L).
Proof.
  intros Hs. split.
  - intro Hop. destruct Hs as [(_ & _ & S3 & _) _]. specialize (S3 Hop). destruct (c_len c); [lia|exact S3].
  - intros data L El Hop. apply (Safe_cl_write c data Hs Hop), El.
Qed.

(* what data_received never touches: the coroutine's phase, the clock, the timeout, the blob hash *)
Definition frame (c c' : client) : Prop :=
  c_phase c' = c_phase c /\ c_now c' = c_now c /\ c_T c' = c_T c /\ c_hash c' = c_hash c.

(* ... nor a length once it is known ([dkeeps]); and what no part of a step touches ([keeps]: the clock is moved by
   EvAdvance's set_now only, see step_keeps) *)
Definition len_kept (c c' : client) : Prop := forall L, c_len c = Some L -> c_len c' = Some L.
Definition dkeeps (c c' : client) : Prop := frame c c' /\ len_kept c c'.
Definition keeps (c c' : client) : Prop :=
  c_hash c' = c_hash c /\ c_T c' = c_T c /\ c_now c' = c_now c /\ len_kept c c'.

Lemma dkeeps_trans a b c : dkeeps a b -> dkeeps b c -> dkeeps a c.
Proof. intros [(A1 & A2 & A3 & A4) A5] [(B1 & B2 & B3 & B4) B5]. repeat split; try congruence. intros L Hl. auto. Qed.
Lemma keeps_trans a b c : keeps a b -> keeps b c -> keeps a c.
Proof. intros (A1 & A2 & A3 & A4) (B1 & B2 & B3 & B4). repeat split; try congruence. intros L Hl. auto. Qed.
Lemma dkeeps_keeps a b : dkeeps a b -> keeps a b.
Proof. intros [(A1 & A2 & A3 & A4) A5]. repeat split; assumption. Qed.

(* both relations hold between states that differ in other fields only *)
Local Ltac same := repeat split; try (intros L Hl; exact Hl).

Lemma dkeeps_cl_write c data : dkeeps c (fst (cl_write H c data)).
Proof.
  unfold cl_write. destruct (c_len c) eqn:El; [|same].
  destruct (writer_write _ _ _ _ _) as [w' []]; cbn [fst]; try (same; fail).
  destruct (_ && _); same.
Qed.
Lemma dkeeps_set_length l c : dkeeps c (fst (set_length l c)).
Proof. unfold set_length. destruct l, (c_len c) eqn:El; try (same; fail). destruct (_ && _); same; congruence. Qed.

Lemma keeps_finish res c : keeps c (finish res c).
Proof. unfold finish. destruct (c_has_w c && _); same. Qed.
Lemma keeps_run_callbacks c : keeps c (run_callbacks c).
Proof. rewrite run_callbacks_eq. same. Qed.
Lemma keeps_loop c : keeps c (drain c) /\ keeps c (fire_timeouts c) /\ keeps c (cancel_download c).
Proof.
  apply (loop_inv (keeps c)).
  - intros c1 Hk. exact Hk.
  - intros res c1 Hk. apply (keeps_trans _ _ _ Hk), keeps_finish.
  - intros c1 Hk. apply (keeps_trans _ _ _ Hk), keeps_run_callbacks.
  - intros c1 d Hk _. exact Hk.
  - intros c1 Hk. exact Hk.
  - intros c1 Hk. exact Hk.
  - intros c1 Hk. exact Hk.
  - same.
Qed.

Variable json_loads : bytes -> jres.

Lemma Safe_dr b c data : Safe c -> Safe (fst (dr_with H json_loads b c data)).
Proof.
  intros Hs. apply dr_inv; try exact Hs.
  - intros c1 d Hs1 Hop. apply Safe_cl_write; assumption.
  - intros c1 l. apply Safe_set_length.
  - intros c1 r Hs1 _. exact Hs1.
  - intros _. exact Hs.
  - intros _. apply Safe_close, Hs.
  - revert Hs. apply Safe_ext; [left|repeat split|right]; reflexivity.
  - intros _ Hb. split; [apply Hs|exact Hb].
Qed.

Lemma Safe_run : forall evs c, Safe c -> Safe (run H json_loads c evs).
Proof. intro evs. apply fold_left_inv, Safe_step_with. intros c d. apply (Safe_dr _ c d). Qed.

Lemma Safe_run_old : forall evs c, Safe c -> Safe (run_old H json_loads c evs).
Proof. intro evs. apply fold_left_inv, Safe_step_with. intros c d. apply (Safe_dr _ c d). Qed.

Lemma dkeeps_dr b c data : dkeeps c (fst (dr_with H json_loads b c data)).
Proof.
  apply (dr_inv _ _ (dkeeps c)); try (same; fail).
  - intros c1 d Hk _. exact (dkeeps_trans _ _ _ Hk (dkeeps_cl_write c1 d)).
  - intros c1 l Hk. exact (dkeeps_trans _ _ _ Hk (dkeeps_set_length l c1)).
  - intros c1 r Hk _. exact Hk.
Qed.

Lemma dkeeps_data_received c data : dkeeps c (fst (data_received H json_loads c data)).
Proof. apply (dkeeps_dr _ c data). Qed.

Lemma frame_data_received c data : frame c (fst (data_received H json_loads c data)).
Proof. apply dkeeps_data_received. Qed.

Lemma step_keeps c e :
  let c' := step H json_loads c e in
  c_hash c' = c_hash c /\ c_T c' = c_T c /\
  c_now c' = c_now c + match e with EvAdvance dt => Z.max dt 0 | _ => 0 end /\ len_kept c c'.
Proof.
  assert (K0 : forall c', keeps c c' ->
            c_hash c' = c_hash c /\ c_T c' = c_T c /\ c_now c' = c_now c + 0 /\ len_kept c c').
  { intros c' (A1 & A2 & A3 & A4). rewrite Z.add_0_r. auto. }
  assert (Hd : forall d, keeps c
            (let '(c1, raised) := data_received H json_loads c d in if raised then force_close c1 else c1)).
  { intro d. pose proof (dkeeps_keeps _ _ (dkeeps_data_received c d)) as Hk.
    destruct (data_received H json_loads c d) as [c1 []]; [|exact Hk]. eapply keeps_trans; [exact Hk|same]. }
  unfold step. destruct e; cbn [step_with]; cbv zeta; try apply K0.
  - destruct (c_open c); [apply Hd|same].
  - apply Hd.
  - apply keeps_loop.
  - destruct (keeps_loop c) as ((A1 & A2 & A3 & A4) & _).
    destruct (keeps_loop (set_now (c_now (drain c) + Z.max dt 0) (drain c))) as (_ & Kf & _).
    destruct (keeps_trans _ _ _ Kf (proj1 (keeps_loop _))) as (B1 & B2 & B3 & B4).
    cbn in B1, B2, B3. repeat split; try congruence. intros L Hl. exact (B4 L (A4 L Hl)).
  - destruct (c_open c); same.
  - apply (keeps_trans _ (cancel_download c)); apply keeps_loop.
Qed.

(* len_kept is the known finding race-length-poison: a length once stored in the blob is never changed or forgotten,
   whatever happens to the download afterwards - failure, timeout, connection loss *)
Lemma run_keeps evs : forall c,
  c_hash (run H json_loads c evs) = c_hash c /\ c_T (run H json_loads c evs) = c_T c /\
  len_kept c (run H json_loads c evs).
Proof.
  induction evs as [|e evs IH]; intro c; [same|].
  destruct (IH (step H json_loads c e)) as (A1 & A2 & A3). destruct (step_keeps c e) as (B1 & B2 & _ & B4).
  unfold run in *. cbn [fold_left]. repeat split; try congruence. intros L Hl. exact (A3 L (B4 L Hl)).
Qed.

Lemma request_hash hash known c : c_hash (request hash known c) = hash.
Proof. unfold request. destruct (c_open c); reflexivity. Qed.

(* what Safe means for a run: a blob is marked verified only with the bytes the writer holds, and these hash to the
   hash the run started with and have the blob's length *)
Theorem Safe_run_verified c hash evs d : Safe c -> c_hash c = hash ->
  let c' := run H json_loads c evs in
  c_verified c' = Some d -> H d = hash /\ c_len c' = Some (zlen d) /\ d = w_data (c_w c').
Proof.
  intros Hs <- c' Hv. destruct (Safe_run evs c Hs) as [(_ & S2 & _ & S4) _]. fold c' in S2, S4.
  destruct (S4 d Hv) as [-> Hf]. destruct (S2 Hf) as (A & B & _).
  rewrite A, B. split; [apply run_keeps|auto].
Qed.

Theorem unrecognised_closes c data :
  c_open c = true -> c_att c = true -> c_received c = 0 -> c_fut c = FutPending ->
  parse_prefix json_loads (c_buf c ++ data) = PNone ->
  zlen (c_buf c ++ data) > MAX_RESPONSE_SIZE ->
  data_received H json_loads c data = (close (set_buf (c_buf c ++ data) c), false).
Proof.
  intros Ho Ha Hr Hf Hp Hz. unfold data_received. rewrite Ho, Ha, Hr, Hf. cbn.
  unfold parse_path. rewrite Hp, Hf. cbn.
  destruct (Z.gtb_spec (zlen (c_buf c ++ data)) MAX_RESPONSE_SIZE); [reflexivity|lia].
Qed.

Lemma acceptable_sound hash known r :
  acceptable hash known r = true ->
  (r_avail r = AvSingle hash \/ r_avail r = AvFalsy) /\ r_price r = PrAccepted /\
  exists l, r_blob r = BrIncoming (Some hash) l /\
            (known = None \/ exists k, known = Some k /\ l = LInt k).
Proof.
  unfold acceptable. destruct r as [av pr bl]. cbn [r_avail r_price r_blob].
  assert (Hav : forall X : bool, (if match av with AvSingle h => negb (bytes_eqb h hash) | AvOther => true | _ => false end
                    then false else if match av with AvAbsent => true | _ => false end then false else X) = true ->
           (av = AvSingle hash \/ av = AvFalsy) /\ X = true).
  { intros X. destruct av as [| |h|]; try discriminate; [auto|].
    destruct (bytes_eqb h hash) eqn:E; [|discriminate]. apply bytes_eqb_eq in E. subst. auto. }
  destruct (_ && _); [discriminate|]. intro Ha. apply Hav in Ha. destruct Ha as [Ha Hb]. split; [exact Ha|].
  destruct pr; try discriminate. split; [reflexivity|].
  destruct bl as [| |[h|] l]; try discriminate.
  destruct (bytes_eqb h hash) eqn:E; [|discriminate]. apply bytes_eqb_eq in E. subst h.
  exists l. split; [reflexivity|]. destruct known as [k|]; [right|auto].
  destruct l as [z|]; [|discriminate]. apply Z.eqb_eq in Hb. subst. eauto.
Qed.

Theorem poisoned_length_refuses hash L n r :
  r_blob r = BrIncoming (Some hash) (LInt n) -> n <> L -> acceptable hash (Some L) r = false.
Proof.
  intros Hb Hne. destruct (acceptable hash (Some L) r) eqn:E; [|reflexivity].
  apply acceptable_sound in E. destruct E as (_ & _ & l & Hb' & [Hk|[k [Hk Hl]]]); congruence.
Qed.

Theorem client_refuses c r d :
  c_phase c = PhAwaitResp d -> c_fut c = FutResult r -> c_closed_ev c = false -> c_lost c = false ->
  acceptable (c_hash c) (c_len c) r = false ->
  let c' := drain c in
  c_phase c' = PhDone (DlClosed (c_received c)) /\ c_open c' = false /\ c_att c' = false /\
  w_closed (c_w c') = (c_has_w c || w_closed (c_w c)) /\ w_data (c_w c') = w_data (c_w c).
Proof.
  intros Hp Hf Hc Hl Ha c'.
  assert (E : drain c = finish (DlClosed (c_received c)) (close (run_callbacks c))).
  { apply drain_to; rewrite run_callbacks_eq; [|exact Hl].
    unfold co_step. cbn [set_verified c_phase c_fut c_closed_ev c_hash c_len c_received]. rewrite Hp, Hf, Hc, Ha. reflexivity. }
  unfold c'. rewrite E, run_callbacks_eq. generalize (c_verified (run_callbacks c)). intro v.
  do 3 (split; [reflexivity|]).
  change (c_w (finish (DlClosed (c_received c)) (close (set_verified v c))))
    with (if c_has_w c && negb (w_closed (c_w c)) then close_handle (c_w c) else c_w c).
  destruct (c_has_w c), (w_closed (c_w c)) eqn:Ew; cbn; rewrite ?Ew; auto.
Qed.

Theorem unrequested_blob_dropped c data r n h l :
  c_open c = true -> c_att c = true -> c_received c = 0 -> c_fut c = FutPending ->
  parse_prefix json_loads (c_buf c ++ data) = PResp r n -> r_blob r = BrIncoming h l ->
  h <> Some (c_hash c) ->
  data_received H json_loads c data = (set_buf [] c, false).
Proof.
  intros Ho Ha Hr Hf Hp Hb Hne. unfold data_received. rewrite Ho, Ha, Hr, Hf. cbn.
  unfold parse_path. rewrite Hp. cbn. rewrite Ha, Hb.
  destruct h as [h'|]; [|reflexivity].
  destruct (bytes_eqb h' (c_hash c)) eqn:E; [|reflexivity].
  apply bytes_eqb_eq in E. congruence.
Qed.

(* why the downloader must not start a second download on a protocol that is busy (its `active_connections` guard):
   download_blob overwrites blob / writer / future, and the honest header answering the FIRST request is then
   "a blob we didn't request": dropped, never delivered *)
Theorem second_download_on_busy_protocol_drops_first c h1 h2 known data r n l :
  c_open c = true -> h1 <> h2 ->
  parse_prefix json_loads (c_buf c ++ data) = PResp r n -> r_blob r = BrIncoming (Some h1) l ->
  data_received H json_loads (start_download h2 known c) data = (set_buf [] (start_download h2 known c), false).
Proof.
  intros Ho Hne Hp Hb.
  apply (unrequested_blob_dropped (start_download h2 known c) data r n (Some h1) l); try reflexivity; try assumption.
  cbn. congruence.
Qed.

(* a download whose response is delivered and whose writer has closed: whatever arrives changes nothing (it may
   raise: set_result on a done future) *)
Lemma full_data_received c d :
  c_open c = true -> c_att c = true -> fut_done (c_fut c) = true ->
  w_closed (c_w c) = true -> c_buf c = [] -> c_len c <> None ->
  fst (data_received H json_loads c d) = c.
Proof.
  intros Ho Ha Hf Hc Hb Hl. apply (dr_inv _ _ (fun c' => c' = c)); try congruence.
  - intros c1 l ->. unfold set_length. destruct (c_len c); [|contradiction]. destruct l; reflexivity.
  - intros c1 r -> Hp. rewrite Hp in Hf. discriminate.
  - intros [E|E]; congruence.
  - apply set_buf_id, Hb.
Qed.

(* fix a1a028a: once a download has ended, nothing is attached to the protocol any more, and whatever then arrives
   on the idle kept connection closes it *)
Definition DoneIdle (c : client) : Prop := forall res, c_phase c = PhDone res -> c_att c = false.

Lemma idle_data_received c d : c_att c = false ->
  data_received H json_loads c d = ((if c_open c then close c else c), false).
Proof. intro Ha. unfold data_received. rewrite Ha. destruct (c_open c); reflexivity. Qed.

Lemma DI_finish res c : DoneIdle (finish res c).
Proof. intros r _. unfold finish. destruct (c_has_w c && _); reflexivity. Qed.
Lemma DI_close c : DoneIdle (close c).
Proof. intros r _. reflexivity. Qed.
Lemma DI_loop c : DoneIdle c -> DoneIdle (drain c) /\ DoneIdle (fire_timeouts c) /\ DoneIdle (cancel_download c).
Proof.
  apply (loop_inv DoneIdle).
  - intros c1 _. apply DI_close.
  - intros res c1 _. apply DI_finish.
  - intros c1 Hd. rewrite run_callbacks_eq. exact Hd.
  - intros c1 d _ _ rr [=].
  - intros c1 Hd. exact Hd.
  - intros c1 Hd. exact Hd.
  - intros c1 Hd. exact Hd.
Qed.

Lemma DI_step c e : DoneIdle c -> DoneIdle (step H json_loads c e).
Proof.
  revert c e. apply step_with_inv; auto.
  - intros c d Hd. destruct (c_phase c) as [| | |res] eqn:Ep.
    4: { rewrite (idle_data_received c d (Hd res Ep)). destruct (c_open c); [apply DI_close|exact Hd]. }
    all: intros rr Hr; rewrite (proj1 (frame_data_received c d)), Ep in Hr; discriminate.
  - intros c Hd. apply DI_loop, Hd.
  - intros c t Hd. apply (DI_loop (set_now t (drain c))), DI_loop, Hd.
  - intros c Hd. apply DI_loop, Hd.
Qed.

Lemma DI_run evs c : DoneIdle c -> DoneIdle (run H json_loads c evs).
Proof. apply fold_left_inv, DI_step. Qed.

Lemma DI_request hash known c : DoneIdle (request hash known c).
Proof. unfold request. destruct (c_open c); intros r [=]. Qed.

Theorem idle_closes_on_data c res d :
  DoneIdle c -> c_phase c = PhDone res -> c_open c = true -> c_open (step H json_loads c (EvData d)) = false.
Proof.
  intros Hd Hp Ho. unfold step. cbn [step_with]. rewrite Ho, (idle_data_received c d (Hd _ Hp)), Ho. reflexivity.
Qed.

End Client.
