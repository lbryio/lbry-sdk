(* C06 property theorems: statements only, each closed by [exact]. *)
From Coq Require Import Arith NArith List Bool Permutation.
From Coq.Strings Require Import Byte.
From LV Require Import Lib.Bytes Model.C06 Proofs.C06_Num Proofs.C06_Base58 Proofs.C06_Keys Proofs.C06_Ckd
  Proofs.C06_Gap Proofs.C06_Mnemonic Proofs.C06_Normalize Proofs.C06_Shared.
Import ListNotations.
Local Open Scope N_scope.

(* ======================================================================== Base58 *)

(* Every byte string that contains a non-zero byte (any number of leading zero bytes) encodes, and the
   encoding decodes back to exactly that byte string. *)
Theorem C06_base58_roundtrip : forall b : bytes, (exists c, In c b /\ c <> x00) ->
  exists t, b58_encode b = Ok t /\ b58_decode t = Ok b.
Proof. exact b58_roundtrip. Qed.
Print Assumptions C06_base58_roundtrip.

(* The guard is needed: k >= 1 zero bytes encode to k '1' characters, which decode to k+1 zero bytes. *)
Theorem C06_base58_allzero_counterexample : forall k : nat, (0 < k)%nat ->
  b58_encode (repeat x00 k) = Ok (repeat one_char k) /\
  b58_decode (repeat one_char k) = Ok (repeat x00 (S k)).
Proof. exact b58_allzero. Qed.
Print Assumptions C06_base58_allzero_counterexample.

(* The empty byte string is refused by encode itself (ValueError from int('', 16)). *)
Theorem C06_base58_empty_rejected : b58_encode [] = Err EValue.
Proof. exact b58_encode_empty. Qed.
Print Assumptions C06_base58_empty_rejected.

(* Conversely every accepted text other than "111..1" is the encoding of what it decodes to, *)
Theorem C06_base58_decode_encode : forall t b, b58_decode t = Ok b -> (exists c, In c t /\ c <> one_char) ->
  b58_encode b = Ok t.
Proof. exact b58_decode_encode. Qed.
Print Assumptions C06_base58_decode_encode.

(* and no two texts decode to the same bytes. *)
Theorem C06_base58_decode_injective : forall t1 t2 b, b58_decode t1 = Ok b -> b58_decode t2 = Ok b -> t1 = t2.
Proof. exact b58_decode_inj. Qed.
Print Assumptions C06_base58_decode_injective.

(* decode accepts exactly the non-empty strings over the 58-character alphabet (everything else is a Base58Error), *)
Theorem C06_base58_decode_accepts : forall t,
  (exists b, b58_decode t = Ok b) <-> (t <> [] /\ Forall (fun c => In c alphabet) t).
Proof. exact b58_decode_accepts. Qed.
Print Assumptions C06_base58_decode_accepts.

(* and different byte strings (each with a non-zero byte) have different encodings. *)
Theorem C06_base58_encode_injective : forall b1 b2 t,
  (exists c, In c b1 /\ c <> x00) -> (exists c, In c b2 /\ c <> x00) ->
  b58_encode b1 = Ok t -> b58_encode b2 = Ok t -> b1 = b2.
Proof. exact b58_encode_injective. Qed.
Print Assumptions C06_base58_encode_injective.

(* ======================================================================== Base58Check *)

(* Every payload whose first byte is non-zero (every LBRY version / prefix byte) survives
   encode_check / decode_check.  [dsha] is any function returning at least 4 bytes on this payload. *)
Theorem C06_base58check_roundtrip : forall (dsha : bytes -> bytes) p c r,
  p = c :: r -> c <> x00 -> (4 <= length (dsha p))%nat ->
  exists t, b58_encode_check dsha p = Ok t /\ b58_decode_check dsha t = Ok p.
Proof. exact b58check_roundtrip. Qed.
Print Assumptions C06_base58check_roundtrip.

(* In fact every payload at all -- empty, or beginning with zero bytes -- round-trips as long as payload ++ checksum
   is not the all-zero string (the Base58 quirk is unreachable through Base58Check otherwise). *)
Theorem C06_base58check_roundtrip_general : forall (dsha : bytes -> bytes) p,
  (exists c, In c (p ++ checksum dsha p) /\ c <> x00) -> (4 <= length (dsha p))%nat ->
  exists t, b58_encode_check dsha p = Ok t /\ b58_decode_check dsha t = Ok p.
Proof. exact b58check_roundtrip_general. Qed.
Print Assumptions C06_base58check_roundtrip_general.

(* Checksum errors are rejected: a result is returned only when the last four decoded bytes are the
   first four bytes of the hash of the rest (no assumption on the hash). *)
Theorem C06_base58check_rejects : forall (dsha : bytes -> bytes) t p, b58_decode_check dsha t = Ok p ->
  exists b, b58_decode t = Ok b /\ p = firstn (length b - 4) b /\ skipn (length b - 4) b = checksum dsha p.
Proof. exact b58check_rejects. Qed.
Print Assumptions C06_base58check_rejects.

(* A damaged string is never accepted as the original payload: two strings accepted with the same payload
   are the same string. *)
Theorem C06_base58check_injective : forall (dsha : bytes -> bytes) t1 t2 p,
  b58_decode_check dsha t1 = Ok p -> b58_decode_check dsha t2 = Ok p -> t1 = t2.
Proof. exact b58check_inj. Qed.
Print Assumptions C06_base58check_injective.

(* The only ways decode_check fails: empty string, a character outside the alphabet, checksum mismatch. *)
Theorem C06_base58check_error_classes : forall (dsha : bytes -> bytes) t e,
  b58_decode_check dsha t = Err e -> e = EEmpty \/ e = EChar \/ e = EChecksum.
Proof. exact b58check_errors. Qed.
Print Assumptions C06_base58check_error_classes.

(* ======================================================================== extended keys *)

(* The 78-byte layout: every well-formed key (depth < 256, 4-byte fingerprint, child number < 2^32,
   32-byte chain code, valid 33-byte point or valid 32-byte scalar) parses back to itself, field by field. *)
Theorem C06_extkey_roundtrip : forall (ver_pub ver_priv : bytes) (pub_valid : bytes -> bool),
  length ver_pub = 4%nat -> length ver_priv = 4%nat -> ver_pub <> ver_priv ->
  forall k, xk_wf pub_valid k ->
  length (xk_serialize ver_pub ver_priv k) = 78%nat /\
  xk_parse ver_pub ver_priv pub_valid (xk_serialize ver_pub ver_priv k) = Ok k.
Proof. exact (fun vp vs pv h1 h2 h3 k hk => conj (xk_serialize_length vp vs pv h1 h2 k hk) (xk_parse_serialize vp vs pv h1 h2 h3 k hk)). Qed.
Print Assumptions C06_extkey_roundtrip.

(* Whatever the parser accepts is a well-formed key whose serialisation is the input. *)
Theorem C06_extkey_parse_sound : forall (ver_pub ver_priv : bytes) (pub_valid : bytes -> bool),
  length ver_pub = 4%nat -> length ver_priv = 4%nat -> ver_pub <> ver_priv ->
  forall e k, xk_parse ver_pub ver_priv pub_valid e = Ok k ->
  xk_wf pub_valid k /\ xk_serialize ver_pub ver_priv k = e.
Proof. exact xk_parse_sound. Qed.
Print Assumptions C06_extkey_parse_sound.

(* String form (Base58Check of the 78 bytes).  The key object built by from_extended_key_string keeps every
   field except the parent fingerprint (it has no parent object; known finding
   {"op":"xparse","finding":"parent-fingerprint-dropped"}): [xk_forget_parent]. *)
Theorem C06_extkey_string_roundtrip : forall (ver_pub ver_priv : bytes) (pub_valid : bytes -> bool),
  length ver_pub = 4%nat -> length ver_priv = 4%nat -> ver_pub <> ver_priv ->
  forall dsha : bytes -> bytes, hd x00 ver_pub <> x00 -> hd x00 ver_priv <> x00 ->
  forall k, xk_wf pub_valid k -> (4 <= length (dsha (xk_serialize ver_pub ver_priv k)))%nat ->
  exists t, xk_to_string ver_pub ver_priv dsha k = Ok t /\
            xk_of_string ver_pub ver_priv pub_valid dsha t = Ok (xk_forget_parent k).
Proof. exact xk_string_roundtrip. Qed.
Print Assumptions C06_extkey_string_roundtrip.

(* An extended-key string is accepted only if its Base58Check checksum matches and the 78 bytes are a
   well-formed key; the key object is that key without its parent fingerprint. *)
Theorem C06_extkey_string_sound : forall (ver_pub ver_priv : bytes) (pub_valid : bytes -> bool),
  length ver_pub = 4%nat -> length ver_priv = 4%nat -> ver_pub <> ver_priv ->
  forall (dsha : bytes -> bytes) t k, xk_of_string ver_pub ver_priv pub_valid dsha t = Ok k ->
  exists k0, b58_decode_check dsha t = Ok (xk_serialize ver_pub ver_priv k0) /\ xk_wf pub_valid k0 /\
             k = xk_forget_parent k0.
Proof. exact xk_of_string_sound. Qed.
Print Assumptions C06_extkey_string_sound.

(* decode -> encode gives the string back exactly for strings with a zero parent fingerprint (master keys, the only
   keys LBRY stores). *)
Theorem C06_extkey_string_decode_encode_master : forall (ver_pub ver_priv : bytes) (pub_valid : bytes -> bool),
  length ver_pub = 4%nat -> length ver_priv = 4%nat -> ver_pub <> ver_priv ->
  forall (dsha : bytes -> bytes) t k, xk_of_string ver_pub ver_priv pub_valid dsha t = Ok k ->
  (exists c, In c t /\ c <> one_char) ->
  (forall k0, b58_decode_check dsha t = Ok (xk_serialize ver_pub ver_priv k0) -> xk_pfp k0 = zero4) ->
  xk_to_string ver_pub ver_priv dsha k = Ok t.
Proof. exact xk_string_decode_encode_master. Qed.
Print Assumptions C06_extkey_string_decode_encode_master.

(* For a master key (zero parent fingerprint) parsing and serialising again gives the same 78 bytes. *)
Theorem C06_extkey_reserialize_master : forall (ver_pub ver_priv : bytes) (pub_valid : bytes -> bool),
  length ver_pub = 4%nat -> length ver_priv = 4%nat -> ver_pub <> ver_priv ->
  forall k, xk_wf pub_valid k -> xk_pfp k = zero4 ->
  res_map (xk_serialize ver_pub ver_priv)
          (xk_from_extended ver_pub ver_priv pub_valid (xk_serialize ver_pub ver_priv k))
  = Ok (xk_serialize ver_pub ver_priv k).
Proof. exact xk_reserialize_master. Qed.
Print Assumptions C06_extkey_reserialize_master.

(* ======================================================================== derivation *)

(* Non-hardened public derivation matches private derivation, for every valid private key, every chain
   code, every index below 2^31 and every HMAC: same child public key, chain code, fingerprint, depth,
   child number -- or the same failure.  The only assumption (premise [group_hom]) is that k |-> k*G maps
   scalar addition mod n to point addition. *)
Theorem C06_ckd_public_matches_private :
  forall (hmac512 : bytes -> bytes -> bytes) (pub : bytes -> bytes) (pub_add : bytes -> bytes -> option bytes)
         (hash160 : bytes -> bytes),
  (forall k l, priv_valid k = true -> pub_add (pub k) l = option_map pub (priv_add k l)) ->
  forall k i, priv_ok k -> i < HARDENED ->
  ckd_pub hmac512 pub_add hash160 (neuter pub k) i = res_map (neuter pub) (ckd_priv hmac512 pub hash160 k i).
Proof. exact ckd_public_matches_private. Qed.
Print Assumptions C06_ckd_public_matches_private.

(* ... and along whole paths of non-hardened indices. *)
Theorem C06_derive_public_matches_private :
  forall (hmac512 : bytes -> bytes -> bytes) (pub : bytes -> bytes) (pub_add : bytes -> bytes -> option bytes)
         (hash160 : bytes -> bytes),
  (forall k l, priv_valid k = true -> pub_add (pub k) l = option_map pub (priv_add k l)) ->
  forall path k, priv_ok k -> Forall (fun i => i < HARDENED) path ->
  derive hmac512 pub pub_add hash160 (neuter pub k) path
  = res_map (neuter pub) (derive hmac512 pub pub_add hash160 k path).
Proof. exact derive_public_matches_private. Qed.
Print Assumptions C06_derive_public_matches_private.

(* Paths compose: deriving along p ++ q is deriving along p and then along q (m/a/b = (m/a)/b). *)
Theorem C06_derive_composes :
  forall (hmac512 : bytes -> bytes -> bytes) (pub : bytes -> bytes) (pub_add : bytes -> bytes -> option bytes)
         (hash160 : bytes -> bytes) p q k,
  derive hmac512 pub pub_add hash160 k (p ++ q)
  = bind (derive hmac512 pub pub_add hash160 k p) (fun c => derive hmac512 pub pub_add hash160 c q).
Proof. exact derive_app. Qed.
Print Assumptions C06_derive_composes.

(* Hardened derivation from a public key is refused, at a single step and anywhere in a path. *)
Theorem C06_hardened_needs_private :
  forall (hmac512 : bytes -> bytes -> bytes) (pub_add : bytes -> bytes -> option bytes) (hash160 : bytes -> bytes) k i,
  HARDENED <= i -> ckd_pub hmac512 pub_add hash160 k i = Err EIndex.
Proof. exact ckd_pub_hardened_refused. Qed.
Print Assumptions C06_hardened_needs_private.

Theorem C06_hardened_needs_private_path :
  forall (hmac512 : bytes -> bytes -> bytes) (pub : bytes -> bytes) (pub_add : bytes -> bytes -> option bytes)
         (hash160 : bytes -> bytes) path k,
  xk_kind k = KPub -> Exists (fun i => HARDENED <= i) path ->
  exists e, derive hmac512 pub pub_add hash160 k path = Err e.
Proof. exact derive_pub_hardened_refused. Qed.
Print Assumptions C06_hardened_needs_private_path.

(* Private derivation stays inside the valid scalars 1..n-1 and records depth; the child scalar is
   (k + I_L) mod n (see [priv_add]). *)
Theorem C06_derive_private_valid :
  forall (hmac512 : bytes -> bytes -> bytes) (pub : bytes -> bytes) (pub_add : bytes -> bytes -> option bytes)
         (hash160 : bytes -> bytes) path k c,
  priv_ok k -> derive hmac512 pub pub_add hash160 k path = Ok c ->
  priv_ok c /\ xk_depth c = xk_depth k + N.of_nat (length path).
Proof. exact derive_priv_ok. Qed.
Print Assumptions C06_derive_private_valid.

(* The index encoding (hardened flag + 31 bits -> 4 bytes big endian) is injective and decodable. *)
Theorem C06_index_encoding_injective : forall h1 i1 h2 i2, i1 < HARDENED -> i2 < HARDENED ->
  index_bytes h1 i1 = index_bytes h2 i2 -> h1 = h2 /\ i1 = i2.
Proof. exact index_bytes_injective. Qed.
Print Assumptions C06_index_encoding_injective.

Theorem C06_index_encoding_decodes : forall h i, i < HARDENED ->
  length (index_bytes h i) = 4%nat /\ be_decode (index_bytes h i) = child_number h i /\
  (HARDENED <=? be_decode (index_bytes h i)) = h.
Proof. exact index_bytes_decode. Qed.
Print Assumptions C06_index_encoding_decodes.

(* The HMAC message (33-byte serialised key ++ 4-byte index) determines both parts. *)
Theorem C06_ckd_message_injective : forall s1 s2 i1 i2, length s1 = length s2 -> i1 < INDEX_LIMIT -> i2 < INDEX_LIMIT ->
  s1 ++ be_encode 4 i1 = s2 ++ be_encode 4 i2 -> s1 = s2 /\ i1 = i2.
Proof. exact ckd_message_injective. Qed.
Print Assumptions C06_ckd_message_injective.

(* ======================================================================== addresses *)

(* address = Base58Check(prefix ++ hash160(pubkey)): decodes back with its checksum verified, and
   address_to_hash160 recovers the key hash, for every non-zero one-byte prefix. *)
Theorem C06_address_roundtrip : forall (hash160 dsha : bytes -> bytes) c pk,
  c <> x00 -> length (hash160 pk) = 20%nat -> (4 <= length (dsha ([c] ++ hash160 pk)))%nat ->
  exists a, address hash160 dsha [c] pk = Ok a /\ address_to_hash160 a = Ok (hash160 pk).
Proof. exact address_to_hash160_roundtrip. Qed.
Print Assumptions C06_address_roundtrip.

Theorem C06_address_injective : forall (hash160 dsha : bytes -> bytes) prefix pk1 pk2 a c r,
  prefix = c :: r -> c <> x00 ->
  (4 <= length (dsha (prefix ++ hash160 pk1)))%nat -> (4 <= length (dsha (prefix ++ hash160 pk2)))%nat ->
  address hash160 dsha prefix pk1 = Ok a -> address hash160 dsha prefix pk2 = Ok a -> hash160 pk1 = hash160 pk2.
Proof. exact address_injective. Qed.
Print Assumptions C06_address_injective.

(* The address validator (Ledger.is_pubkey_address / is_script_address, used by valid_address_or_error) rejects
   checksum errors: it answers true only when the string decodes to version byte :: rest followed by the matching
   4-byte checksum; it accepts every address the wallet produces; and a different string that it accepts is never
   an alias of that address (it carries a different payload). *)
Theorem C06_address_validator_sound : forall (dsha : bytes -> bytes) v a, is_version_address dsha v a = Ok true ->
  exists r, b58_decode_check dsha a = Ok (v :: r) /\ b58_decode a = Ok ((v :: r) ++ checksum dsha (v :: r)).
Proof. exact validator_sound. Qed.
Print Assumptions C06_address_validator_sound.

Theorem C06_address_validator_accepts : forall (hash160 dsha : bytes -> bytes) c pk a,
  c <> x00 -> (4 <= length (dsha ([c] ++ hash160 pk)))%nat ->
  address hash160 dsha [c] pk = Ok a -> is_version_address dsha c a = Ok true.
Proof. exact validator_accepts_address. Qed.
Print Assumptions C06_address_validator_accepts.

Theorem C06_address_validator_no_alias : forall (hash160 dsha : bytes -> bytes) c pk a a',
  address hash160 dsha [c] pk = Ok a -> c <> x00 -> (4 <= length (dsha ([c] ++ hash160 pk)))%nat ->
  a' <> a -> is_version_address dsha c a' = Ok true ->
  exists r, b58_decode_check dsha a' = Ok (c :: r) /\ r <> hash160 pk.
Proof. exact validator_no_alias. Qed.
Print Assumptions C06_address_validator_no_alias.

Theorem C06_valid_address_sound : forall (dsha : bytes -> bytes) pv sv allow a,
  valid_address dsha pv sv allow a = true ->
  is_version_address dsha pv a = Ok true \/ (allow = true /\ is_version_address dsha sv a = Ok true).
Proof. exact valid_address_sound. Qed.
Print Assumptions C06_valid_address_sound.

(* The address handed out for (chain c, index i) from the account PUBLIC key (get_public_key / _generate_keys)
   is the address of the key derived from the account PRIVATE key along m/c/i (get_private_key): the wallet
   holds the signing key of every address it lists. *)
Theorem C06_chain_address_private_key :
  forall (hmac512 : bytes -> bytes -> bytes) (pub : bytes -> bytes) (pub_add : bytes -> bytes -> option bytes)
         (hash160 : bytes -> bytes),
  (forall k l, priv_valid k = true -> pub_add (pub k) l = option_map pub (priv_add k l)) ->
  forall (dsha : bytes -> bytes) prefix k c i, priv_ok k -> c < HARDENED -> i < HARDENED ->
  chain_address hmac512 pub_add hash160 dsha prefix (neuter pub k) c i =
  bind (derive hmac512 pub pub_add hash160 k [c; i]) (fun sk => address hash160 dsha prefix (pubkey_of pub sk)).
Proof. exact chain_address_private. Qed.
Print Assumptions C06_chain_address_private_key.

(* ======================================================================== address chains *)

(* Whatever the history of ensure_address_gap calls (any gap values) and usage updates, row i of a chain has
   index i and the address derived for index i: two wallets restored from the same key list the same addresses
   in the same order. *)
Theorem C06_addresses_deterministic : forall (addr_of : N -> bytes) (ops1 ops2 : list gop) (i : nat),
  (i < length (grun addr_of ops1))%nat -> (i < length (grun addr_of ops2))%nat ->
  ident (nth i (grun addr_of ops1) (mk_row 0 [] 0)) = ident (nth i (grun addr_of ops2) (mk_row 0 [] 0)) /\
  ident (nth i (grun addr_of ops1) (mk_row 0 [] 0)) = (N.of_nat i, addr_of (N.of_nat i)).
Proof. exact (fun a o1 o2 i => addresses_deterministic a o1 o2 i _). Qed.
Print Assumptions C06_addresses_deterministic.

(* After any history, ensure_address_gap leaves the last [gap] addresses unused, only appends (existing rows
   unchanged, new rows unused) and keeps the indices contiguous from 0. *)
Theorem C06_gap_maintained : forall (addr_of : N -> bytes) (ops : list gop) (gap : nat),
  let before := grun addr_of ops in
  let after := grun addr_of (ops ++ [GEnsure gap]) in
  (exists ext, after = before ++ ext /\ all_unused ext) /\
  wf_table addr_of after /\ (gap <= length after)%nat /\ all_unused (skipn (length after - gap) after).
Proof. exact gap_maintained. Qed.
Print Assumptions C06_gap_maintained.

(* It generates no more than necessary: if anything was generated, the chain now has exactly [gap] rows or the
   row just below the final window of [gap] unused rows is a used one. *)
Theorem C06_gap_tight : forall (addr_of : N -> bytes) (gap : nat) (t : list row), wf_table addr_of t ->
  snd (ensure_gap addr_of gap t) <> [] ->
  let t' := fst (ensure_gap addr_of gap t) in
  length t' = gap \/ ((gap < length t')%nat /\ unused (nth (length t' - gap - 1) t' (mk_row 0 [] 0)) = false).
Proof. exact ensure_gap_tight. Qed.
Print Assumptions C06_gap_tight.

(* Calling ensure_address_gap again right away generates nothing. *)
Theorem C06_gap_idempotent : forall (addr_of : N -> bytes) (gap : nat) (t : list row), wf_table addr_of t ->
  ensure_gap addr_of gap (fst (ensure_gap addr_of gap t)) = (fst (ensure_gap addr_of gap t), []).
Proof. exact ensure_gap_idempotent. Qed.
Print Assumptions C06_gap_idempotent.

(* get_address_records lists exactly the rows of the chain ordered by (used_times, n). *)
Theorem C06_address_records_sorted : forall t : list row,
  Permutation (address_records t) t /\ sorted (address_records t).
Proof. exact address_records_spec. Qed.
Print Assumptions C06_address_records_sorted.

(* One ledger database, a single-address account and a deterministic account of the SAME mnemonic (same account id,
   both on chain 0).  The code as it is ([flt = false], known findings {"op":"generator_switch",...}): both managers look
   at the same rows; once the single-address account has stored its row first, the first chain-0 record of that account
   id -- the deterministic account's "first receiving address" -- is the account key's own address whatever happens
   afterwards; and when the deterministic account came first, the single-address account never stores its key and
   lists the deterministic chain. *)
Theorem C06_shared_database_as_is_single_first : forall (addr_of : N -> bytes) (master_addr : bytes) (ops : list sop) single,
  hd_error (map r_addr (manager_view false single (srun addr_of master_addr false (SSingleEnsure :: ops)))) = Some master_addr.
Proof. exact shared_as_is_single_first. Qed.
Print Assumptions C06_shared_database_as_is_single_first.

Theorem C06_shared_database_as_is_hd_first : forall (addr_of : N -> bytes) (master_addr : bytes) (g : nat), (0 < g)%nat ->
  manager_view false true (srun addr_of master_addr false [SHd (GEnsure g); SSingleEnsure])
  = manager_view false false (srun addr_of master_addr false [SHd (GEnsure g)]) /\
  manager_view false false (srun addr_of master_addr false [SHd (GEnsure g)]) = fst (ensure_gap addr_of g []).
Proof. exact shared_as_is_hd_first. Qed.
Print Assumptions C06_shared_database_as_is_hd_first.

(* The design that would satisfy the property's clause on this history ([flt = true]: each manager filters the rows
   it looks at by its own key depth) -- NOT what the code does: the deterministic account's receiving chain is then
   exactly the chain it would have alone, and the single-address account lists only the account key's address. *)
Theorem C06_shared_database_with_depth_filter_hd_chain : forall (addr_of : N -> bytes) (master_addr : bytes) (ops : list sop),
  rows_of false (srun addr_of master_addr true ops) = grun addr_of (hd_ops ops).
Proof. exact shared_hd_chain_unaffected. Qed.
Print Assumptions C06_shared_database_with_depth_filter_hd_chain.

Theorem C06_shared_database_with_depth_filter_single_chain : forall (addr_of : N -> bytes) (master_addr : bytes) (ops : list sop),
  map r_addr (rows_of true (srun addr_of master_addr true ops)) = [] \/
  map r_addr (rows_of true (srun addr_of master_addr true ops)) = [master_addr].
Proof. exact shared_single_chain. Qed.
Print Assumptions C06_shared_database_with_depth_filter_single_chain.

(* ======================================================================== mnemonic *)

(* For every word list without duplicates, with at least two words, none empty or containing whitespace:
   decoding the word encoding of ANY i >= 0 gives i. *)
Theorem C06_mnemonic_roundtrip : forall words : list bytes,
  NoDup words -> (2 <= length words)%nat -> Forall good_word words ->
  forall i : N, mnemonic_decode words (mnemonic_encode words i) = Ok i.
Proof. exact mnemonic_roundtrip. Qed.
Print Assumptions C06_mnemonic_roundtrip.

(* Hence different numbers have different phrases. *)
Theorem C06_mnemonic_injective : forall words : list bytes,
  NoDup words -> (2 <= length words)%nat -> Forall good_word words ->
  forall i j : N, mnemonic_encode words i = mnemonic_encode words j -> i = j.
Proof. exact mnemonic_encode_injective. Qed.
Print Assumptions C06_mnemonic_injective.

(* What is accepted are words of the list, read as base-n digits, first word least significant. *)
Theorem C06_mnemonic_decode_sound : forall words : list bytes, (2 <= length words)%nat -> forall s i,
  mnemonic_decode words s = Ok i ->
  exists ds, split_ws s = map (fun d => nth (N.to_nat d) words []) ds /\
             Forall (fun d => d < nwords words) ds /\ i = val_lsb (nwords words) ds.
Proof. exact (fun words _ => mnemonic_decode_sound words). Qed.
Print Assumptions C06_mnemonic_decode_sound.

(* ======================================================================== mnemonic text normalisation *)

(* normalize_text applies NFKD first, then lower-casing, then accent stripping: spellings with the same NFKD form
   (precomposed vs decomposed accents, full-width vs ASCII, ideographic vs ASCII space) -- and more generally
   spellings that agree after NFKD, lower-casing and accent stripping -- give the same key-stretching input. *)
Theorem C06_normalize_equivalent_spellings :
  forall (nfkd lower : list N -> list N) (combining : N -> bool) s1 s2,
  strip_accents combining (lower (nfkd s1)) = strip_accents combining (lower (nfkd s2)) ->
  normalize_text nfkd lower combining s1 = normalize_text nfkd lower combining s2.
Proof. exact (fun nfkd lower combining s1 s2 H => f_equal (fun x => rm_cjk_spaces None (collapse_ws x)) H). Qed.
Print Assumptions C06_normalize_equivalent_spellings.

Theorem C06_normalize_respects_nfkd :
  forall (nfkd lower : list N -> list N) (combining : N -> bool) s1 s2, nfkd s1 = nfkd s2 ->
  normalize_text nfkd lower combining s1 = normalize_text nfkd lower combining s2.
Proof. exact (fun nfkd lower combining s1 s2 H => f_equal (fun x => rm_cjk_spaces None (collapse_ws (strip_accents combining (lower x)))) H). Qed.
Print Assumptions C06_normalize_respects_nfkd.

(* Every character of the normalised text other than U+0020 is a NON-combining character of lower(NFKD(s)):
   no accent reaches PBKDF2. *)
Theorem C06_normalize_no_combining :
  forall (nfkd lower : list N -> list N) (combining : N -> bool) s c,
  In c (normalize_text nfkd lower combining s) -> c <> 32 -> combining c = false /\ In c (lower (nfkd s)).
Proof. exact normalize_no_combining. Qed.
Print Assumptions C06_normalize_no_combining.

(* ' '.join(s.split()) keeps the words and is idempotent; the CJK rule deletes ASCII whitespace only. *)
Theorem C06_normalize_whitespace : forall s : list N,
  splitg is_ws_cp (collapse_ws s) = splitg is_ws_cp s /\ collapse_ws (collapse_ws s) = collapse_ws s.
Proof. exact (fun s => conj (collapse_ws_words s) (collapse_ws_idempotent s)). Qed.
Print Assumptions C06_normalize_whitespace.

Theorem C06_normalize_cjk_rule_keeps_content : forall s prev,
  filter (fun c => negb (is_ascii_ws c)) (rm_cjk_spaces prev s) = filter (fun c => negb (is_ascii_ws c)) s.
Proof. exact rm_cjk_spaces_content. Qed.
Print Assumptions C06_normalize_cjk_rule_keeps_content.

(* ======================================================================== non-vacuity *)
Example C06_ex_quirk : (b58_decode [x31], b58_encode [x00]) = (Ok [x00; x00], Ok [x31]).
Proof. vm_compute. reflexivity. Qed.

(* "2g" = 0x61 : encode/decode of a string with two leading zero bytes *)
Example C06_ex_b58 : (b58_encode [x00; x00; x61], b58_decode [x31; x31; x32; x67])
                     = (Ok [x31; x31; x32; x67], Ok [x00; x00; x61]).
Proof. vm_compute. reflexivity. Qed.

(* the hypotheses of the index theorem are inhabited at the boundaries: 2^31-1 normal vs 0 hardened *)
Example C06_ex_index : (index_bytes false 2147483647, index_bytes true 0, index_bytes true 2147483647)
                       = ([x7f; xff; xff; xff], [x80; x00; x00; x00], [xff; xff; xff; xff]).
Proof. vm_compute. reflexivity. Qed.

(* scalar addition wraps modulo the group order and refuses a zero result or a tweak >= n *)
Example C06_ex_priv_add :
  (priv_add (be_encode 32 (ORDER - 1)) (be_encode 32 2), priv_add (be_encode 32 (ORDER - 1)) (be_encode 32 1),
   priv_add (be_encode 32 5) (be_encode 32 ORDER), priv_valid (be_encode 32 (ORDER - 1)), priv_valid (be_encode 32 ORDER))
  = (Some (be_encode 32 1), None, None, true, false).
Proof. exact priv_add_examples. Qed.

(* a gap history: gap 3, address 1 used twice, ensure again -> indices 0..4, last three unused *)
Example C06_ex_gap :
  map (fun r => (r_n r, r_used r)) (grun (fun n => [byte_of_N n]) [GEnsure 3; GUse 1 2; GEnsure 3])
  = [(0, 0); (1, 2); (2, 0); (3, 0); (4, 0)].
Proof. vm_compute. reflexivity. Qed.

(* a three-word list: 11 = 2 + 0*3 + 1*9 *)
Example C06_ex_mnemonic :
  (mnemonic_encode [[x61]; [x62]; [x63]] 11, mnemonic_decode [[x61]; [x62]; [x63]] [x63; x20; x61; x20; x62])
  = ([x63; x20; x61; x20; x62], Ok 11).
Proof. vm_compute. reflexivity. Qed.

(* "A  B" with an ideographic space collapses; the space between two CJK characters is dropped, the one next to a
   Latin letter stays: 0x4E00 ' ' 0x4E8C ' ' 'a' *)
Example C06_ex_normalize :
  (collapse_ws [65; 12288; 32; 66], rm_cjk_spaces None [19968; 32; 20108; 32; 97]) = ([65; 32; 66], [19968; 20108; 32; 97]).
Proof. vm_compute. reflexivity. Qed.

(* the known finding on a concrete key below the master (parent fingerprint 3442193e, as in BIP32 vector 1 m/0H):
   the parsed key does not re-serialise to the bytes it was parsed from, only to those bytes with 00000000 *)
Example C06_fingerprint_dropped_witness :
  (bytes_eqb (xk_serialize [x04; x88; xb2; x1e] [x04; x88; xad; xe4]
                (xk_forget_parent (mk_xkey KPub 1 [x34; x42; x19; x3e] 2147483648 (repeat x11 32) (x02 :: repeat x22 32))))
             (xk_serialize [x04; x88; xb2; x1e] [x04; x88; xad; xe4]
                (mk_xkey KPub 1 [x34; x42; x19; x3e] 2147483648 (repeat x11 32) (x02 :: repeat x22 32))),
   res_map xk_pfp (xk_from_extended [x04; x88; xb2; x1e] [x04; x88; xad; xe4] (fun _ => true)
                     (xk_serialize [x04; x88; xb2; x1e] [x04; x88; xad; xe4]
                        (mk_xkey KPub 1 [x34; x42; x19; x3e] 2147483648 (repeat x11 32) (x02 :: repeat x22 32)))))
  = (false, Ok zero4).
Proof. vm_compute. reflexivity. Qed.

(* the known finding on the shared table: after a single-address account of the same mnemonic, the deterministic
   account's receiving chain is [account key's address, m/0/1, m/0/2] -- m/0/0 is never generated; with the depth
   filter it would be [m/0/0, m/0/1, m/0/2] *)
Example C06_shared_rows_witness :
  (map r_addr (manager_view false false (srun (fun n => [byte_of_N n]) [xff] false [SSingleEnsure; SHd (GEnsure 3)])),
   map r_addr (manager_view true false (srun (fun n => [byte_of_N n]) [xff] true [SSingleEnsure; SHd (GEnsure 3)])))
  = ([[xff]; [x01]; [x02]], [[x00]; [x01]; [x02]]).
Proof. vm_compute. reflexivity. Qed.
