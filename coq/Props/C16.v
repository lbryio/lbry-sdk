(* C16 property theorems: statements only, each closed by [exact]. *)
From Coq Require Import NArith ZArith List Bool.
From Coq.Strings Require Import Byte.
From LV Require Import Lib.Bytes Wire.Push Wire.Script Model.C16_Env Model.C16_Wire Model.C16_Url Model.C16_All Model.C16_Attrs
  Model.C16_Embed Model.C06 Model.C16_Fee Proofs.C16_Fee Proofs.C16_Env Proofs.C16_Wire Proofs.C16_Url Proofs.C16_All Proofs.C16_Attrs Proofs.C16_Embed.
Import ListNotations.

(* ================= (a) the signature envelope (base.py Signable, purchase.py) ================= *)

(* Signed (any 20-byte channel hash, any 64-byte signature) or unsigned, over ANY payload bytes:
   from_bytes (to_bytes e) = e. *)
Theorem C16_envelope_roundtrip : forall e : envelope, env_wf e -> env_decode (env_encode e) = EnvOk e.
Proof. exact env_roundtrip. Qed.
Print Assumptions C16_envelope_roundtrip.

(* every version byte other than 0 and 1 is refused, whatever follows *)
Theorem C16_envelope_rejects_version : forall (b : byte) (r : bytes),
  b <> x00 -> b <> x01 -> env_decode (b :: r) = EnvVersion.
Proof. exact env_rejects_version. Qed.
Print Assumptions C16_envelope_rejects_version.

(* converse direction: bytes that decode to a well-formed envelope are exactly its encoding *)
Theorem C16_envelope_decode_encode : forall (d : bytes) (e : envelope),
  env_decode d = EnvOk e -> env_wf e -> env_encode e = d.
Proof. exact (fun d e H _ => env_decode_encode d e H). Qed.
Print Assumptions C16_envelope_decode_encode.

(* Claim.from_bytes hands the data to the current decoder exactly when the envelope is accepted
   (first byte 0 or 1); '{' goes to the JSON decoder and everything else to the v1 decoder *)
Theorem C16_claim_dispatch : forall d : bytes, claim_format d = FmtV2 <-> exists e, env_decode d = EnvOk e.
Proof. exact claim_format_v2_iff. Qed.
Print Assumptions C16_claim_dispatch.

Theorem C16_purchase_roundtrip : forall p : bytes, purchase_decode (purchase_encode p) = Some p.
Proof. exact purchase_roundtrip. Qed.
Print Assumptions C16_purchase_roundtrip.

Theorem C16_purchase_rejects : forall d : bytes, (forall r, d <> x50 :: r) -> purchase_decode d = None.
Proof. exact purchase_rejects. Qed.
Print Assumptions C16_purchase_rejects.

(* ================= (b) protobuf wire format ================= *)
Local Open Scope N_scope.

(* every n < 2^64, followed by anything *)
Theorem C16_varint_roundtrip : forall (n : N) (rest : bytes),
  n < two64 -> varint_decode (varint_encode n ++ rest) = Some (n, rest).
Proof. exact varint_roundtrip. Qed.
Print Assumptions C16_varint_roundtrip.

(* canonical length: k bytes suffice below 128^k, and at least k+1 bytes are used from 128^k on *)
Theorem C16_varint_length_le : forall (n : N) (k : nat),
  (1 <= k)%nat -> n < 128 ^ N.of_nat k -> (length (varint_encode n) <= k)%nat.
Proof. exact (varint_enc_length_le 9). Qed.
Print Assumptions C16_varint_length_le.

Theorem C16_varint_length_gt : forall (n : N) (k : nat),
  (k <= 9)%nat -> 128 ^ N.of_nat k <= n -> (k < length (varint_encode n))%nat.
Proof. exact (varint_enc_length_gt 9). Qed.
Print Assumptions C16_varint_length_gt.

(* sint32 / int64 views of a varint (Location.latitude/longitude, Stream.release_time) *)
Theorem C16_zigzag_roundtrip : forall z : Z, zigzag_dec (zigzag_enc z) = z.
Proof. exact zigzag_roundtrip. Qed.
Print Assumptions C16_zigzag_roundtrip.

Theorem C16_int64_roundtrip : forall z : Z, (- 2 ^ 63 <= z < 2 ^ 63)%Z ->
  int64_dec (int64_enc z) = z /\ int64_enc z < two64.
Proof. exact int64_roundtrip. Qed.
Print Assumptions C16_int64_roundtrip.

(* flat messages: any list of canonical fields (number 1..2^61-1, i.e. every tag that fits 64 bits; varint < 2^64, 8 / 4 byte fixed, or
   length-delimited bytes) parses back to the same list *)
Theorem C16_wire_roundtrip : forall fs : list field,
  forallb field_ok fs = true -> wire_parse (ser_fields fs) = WOk fs.
Proof. exact wire_roundtrip. Qed.
Print Assumptions C16_wire_roundtrip.

(* whatever the parser returns is canonical, for ALL byte strings: parse . serialise . parse = parse *)
Theorem C16_wire_parse_normalises : forall (bs : bytes) (fs : list field),
  wire_parse bs = WOk fs -> forallb field_ok fs = true /\ wire_parse (ser_fields fs) = WOk fs.
Proof. exact (fun bs fs H => conj (wire_parse_canonical bs fs H) (wire_parse_normalises bs fs H)). Qed.
Print Assumptions C16_wire_parse_normalises.

(* nested messages, for EVERY schema table: a field tree that fits the schema (sub-messages where the
   schema declares a message, recursively) parses back to itself *)
Theorem C16_wire_tree_roundtrip : forall (sch : schema) (d : nat) (m : N) (fs : list tfield),
  tfields_ok sch m fs = true -> (fdepth fs <= d)%nat -> parse_tree sch d m (ser_tree fs) = WOk fs.
Proof. exact tree_roundtrip. Qed.
Print Assumptions C16_wire_tree_roundtrip.

(* envelope and message together = Claim / Support to_bytes then from_bytes *)
Theorem C16_claim_roundtrip : forall (sch : schema) (d : nat) (m : N) (sig : option (bytes * bytes)) (fs : list tfield),
  sig_wf sig -> tfields_ok sch m fs = true -> (fdepth fs <= d)%nat ->
  decode_all sch d m (encode_all sig fs) = (EnvOk (mk_env sig (ser_tree fs)), WOk fs).
Proof. exact all_roundtrip. Qed.
Print Assumptions C16_claim_roundtrip.

(* without loss: different (signature, fields) never share an encoding *)
Theorem C16_claim_encode_injective : forall (sch : schema) (d : nat) (m : N) sig1 fs1 sig2 fs2,
  sig_wf sig1 -> sig_wf sig2 -> tfields_ok sch m fs1 = true -> tfields_ok sch m fs2 = true ->
  (fdepth fs1 <= d)%nat -> (fdepth fs2 <= d)%nat ->
  encode_all sig1 fs1 = encode_all sig2 fs2 -> sig1 = sig2 /\ fs1 = fs2.
Proof. exact encode_all_inj. Qed.
Print Assumptions C16_claim_encode_injective.

Theorem C16_purchase_message_roundtrip : forall (sch : schema) (d : nat) (m : N) (fs : list tfield),
  tfields_ok sch m fs = true -> (fdepth fs <= d)%nat ->
  purchase_decode_all sch d m (purchase_encode_all fs) = Some (WOk fs).
Proof. exact purchase_all_roundtrip. Qed.
Print Assumptions C16_purchase_message_roundtrip.

(* legacy v1 claims: the payload a legacy signature covers = the message without its publisherSignature
   (field 5); it holds exactly the other fields, and is the message itself when there is no signature *)
Theorem C16_legacy_unsigned_payload : forall fs : list field, forallb field_ok fs = true ->
  v1_unsigned_payload (ser_fields fs) = WOk (ser_fields (drop_field V1_SIGNATURE_FIELD fs)) /\
  wire_parse (ser_fields (drop_field V1_SIGNATURE_FIELD fs)) = WOk (drop_field V1_SIGNATURE_FIELD fs) /\
  ((forall f, In f fs -> fst f <> V1_SIGNATURE_FIELD) -> v1_unsigned_payload (ser_fields fs) = WOk (ser_fields fs)).
Proof. exact v1_unsigned_payload_spec. Qed.
Print Assumptions C16_legacy_unsigned_payload.

Theorem C16_drop_field_spec : forall (k : N) (fs : list field) (f : field),
  In f (drop_field k fs) <-> In f fs /\ fst f <> k.
Proof. exact drop_field_spec. Qed.
Print Assumptions C16_drop_field_spec.

(* ================= (e) the stored form: an object inside an output script ================= *)

(* every object of every size below 2^32 bytes (76, 256 and 65536 included), in a claim_name / update_claim /
   support / OP_RETURN output with any name, claim id and pubkey hash: the generated script, parsed again
   without a hint, yields exactly the object's bytes *)
Theorem C16_embed_extract : forall (c : carrier) (name cid pkh payload : bytes),
  fits name -> fits cid -> fits pkh -> fits payload ->
  exists s, embed c name cid pkh payload = Some s /\ extract_payload s = Some payload.
Proof. exact embed_extract. Qed.
Print Assumptions C16_embed_extract.

(* fields -> to_bytes -> output script -> parse -> from_bytes -> the same fields and signature *)
Theorem C16_embedded_object_roundtrip : forall (sch : schema) (d : nat) (m : N) (c : carrier)
    (name cid pkh : bytes) (sig : option (bytes * bytes)) (fs : list tfield),
  fits name -> fits cid -> fits pkh -> fits (encode_all sig fs) ->
  sig_wf sig -> tfields_ok sch m fs = true -> (fdepth fs <= d)%nat ->
  exists s, embed c name cid pkh (encode_all sig fs) = Some s /\
            match extract_payload s with
            | Some p => decode_all sch d m p = (EnvOk (mk_env sig (ser_tree fs)), WOk fs)
            | None => False
            end.
Proof. exact embedded_object_roundtrip. Qed.
Print Assumptions C16_embedded_object_roundtrip.

(* Stream.update: a new file whose type is not image/video/audio leaves no media info behind; an explicitly
   given width / duration (0 included) is what is stored; nothing given keeps or drops the sub-message with the kind *)
Theorem C16_media_step_non_media : forall (old : mstate) (w h d : option N), media_step old None w h d = None.
Proof. exact media_step_non_media. Qed.
Print Assumptions C16_media_step_non_media.

Theorem C16_media_step_sets_width : forall (old : mstate) (k w : N) (h d : option N), has_dims k = true ->
  exists hh dd, media_step old (Some k) (Some w) h d = Some (k, (w, hh, dd)).
Proof. exact media_step_sets_width. Qed.
Print Assumptions C16_media_step_sets_width.

Theorem C16_media_step_sets_duration : forall (old : mstate) (k : N) (w h : option N) (d : N), has_duration k = true ->
  exists ww hh, media_step old (Some k) w h (Some d) = Some (k, (ww, hh, d)).
Proof. exact media_step_sets_duration. Qed.
Print Assumptions C16_media_step_sets_duration.

Theorem C16_media_step_switch : forall (k k' : N) (vals : mvals), k <> k' ->
  media_step (Some (k', vals)) (Some k) None None None = None /\
  media_step (Some (k, vals)) (Some k) None None None = Some (k, vals).
Proof. exact (fun k k' vals H => conj (media_step_switch k k' vals H) (media_step_keep k vals)). Qed.
Print Assumptions C16_media_step_switch.

(* ================= (f) fee addresses and signature state ================= *)

(* Fee.address: for every stored address (any bytes with a non-zero byte; leading zero bytes -- Bitcoin-style
   '1...' addresses -- included) the text shown decodes to exactly those bytes *)
Theorem C16_fee_address_roundtrip : forall b : bytes, (exists c, In c b /\ c <> x00) ->
  exists t, fee_address b = Some t /\ fee_address_bytes t = Ok b.
Proof. exact fee_address_roundtrip. Qed.
Print Assumptions C16_fee_address_roundtrip.

(* ... and an address text that was set (not all '1') reads back as the same text *)
Theorem C16_fee_address_text_roundtrip : forall t b : bytes,
  fee_address_bytes t = Ok b -> (exists c, In c t /\ c <> one_char) -> fee_address b = Some t.
Proof. exact fee_address_text_roundtrip. Qed.
Print Assumptions C16_fee_address_text_roundtrip.

Theorem C16_fee_address_leading_zero : forall r t : bytes,
  fee_address (x00 :: r) = Some t -> exists t', t = one_char :: t'.
Proof. exact fee_address_leading_zero. Qed.
Print Assumptions C16_fee_address_leading_zero.

(* after ANY history of signing and clearing, an object equals what its own bytes parse back to: signature
   AND signing channel of the decoded envelope are those of the object *)
Theorem C16_signature_state_reparse : forall (ops : list sigop) (payload : bytes), Forall sigop_wf ops ->
  exists d, sig_to_bytes (sig_run ops) payload = Some d /\
            exists e, env_decode d = EnvOk e /\ sig_of_env e = sig_run ops /\ env_payload e = payload.
Proof. exact (fun ops payload H => sig_state_reparse (sig_run ops) payload (sig_run_consistent ops H)). Qed.
Print Assumptions C16_signature_state_reparse.

Theorem C16_clear_forgets_channel : forall ops : list sigop,
  st_channel_hash (sig_run (ops ++ [OpClear])) = None /\ st_signature (sig_run (ops ++ [OpClear])) = None.
Proof. exact (fun ops => conj (f_equal st_channel_hash (sig_run_clear ops)) (f_equal st_signature (sig_run_clear ops))). Qed.
Print Assumptions C16_clear_forgets_channel.

(* Claim.get_message: asking a typed claim for the view of another type is refused and NEVER changes the claim,
   whatever the sequence of requests; only a fresh claim takes the type it is first asked for *)
Theorem C16_claim_view_typed : forall c req : N,
  fst (claim_view (Some c) req) = Some c /\ (snd (claim_view (Some c) req) = true <-> c = req).
Proof. exact claim_view_typed. Qed.
Print Assumptions C16_claim_view_typed.

Theorem C16_claim_view_history : forall (c : N) (reqs : list N),
  fold_left (fun cur r => fst (claim_view cur r)) reqs (Some c) = Some c.
Proof. exact claim_view_history. Qed.
Print Assumptions C16_claim_view_history.

(* ================= (c) URLs ================= *)

(* every well-formed URL value prints to a string that parses back to exactly that value *)
Theorem C16_url_parse_print : forall u : url, url_wf u -> url_parse (url_print u) = Some u.
Proof. exact url_parse_print. Qed.
Print Assumptions C16_url_parse_print.

(* every accepted string prints back as its canonical spelling (scheme added when omitted, '#' as ':'),
   and its reading is well-formed *)
Theorem C16_url_print_parse : forall (s : str) (u : url),
  url_parse s = Some u -> url_print u = canon s /\ url_wf u.
Proof. exact url_print_parse. Qed.
Print Assumptions C16_url_print_parse.

(* the parser accepts exactly the sentences of the grammar (stated without reference to the parser), each
   with its reading -- for ALL strings *)
Theorem C16_url_grammar : forall (s : str) (u : url), url_parse s = Some u <-> in_grammar s u.
Proof. exact url_parse_iff. Qed.
Print Assumptions C16_url_grammar.

Theorem C16_url_rejects : forall s : str, (forall u, ~ in_grammar s u) -> url_parse s = None.
Proof. exact url_rejects_outside. Qed.
Print Assumptions C16_url_rejects.

(* ANY string containing, anywhere, a forbidden code point other than the structural : # $ / @ is refused *)
Theorem C16_url_rejects_forbidden : forall (s : str) (c : N),
  In c s -> hard_forbidden c = true -> url_parse s = None.
Proof. exact url_rejects_forbidden. Qed.
Print Assumptions C16_url_rejects_forbidden.

(* ... in particular trailing garbage such as the newline that the regex used to let through *)
Theorem C16_url_rejects_trailing_newline : forall s : str, url_parse (s ++ [10]) = None.
Proof. exact (fun s => url_rejects_forbidden (s ++ [10]) 10 (in_elt 10 s []) eq_refl). Qed.
Print Assumptions C16_url_rejects_trailing_newline.

(* names never contain a forbidden code point, the structural ones included *)
Theorem C16_url_names_allowed : forall (s : str) (u : url), in_grammar s u ->
  match u with
  | UStream g => forallb name_char (seg_name g) = true
  | UChannel c => forallb name_char (tl (seg_name c)) = true
  | UChannelStream c g => forallb name_char (tl (seg_name c)) = true /\ forallb name_char (seg_name g) = true
  end.
Proof. exact (fun s u H => wf_names_allowed u (in_grammar_wf s u H)). Qed.
Print Assumptions C16_url_names_allowed.

(* a stream or channel URL (with or without scheme) whose ':' '#' '$' is followed by anything but 1..40
   lower-case hex digits resp. [1-9][0-9]* is refused *)
Theorem C16_url_rejects_bad_modifier : forall (p pre nm : str) (c : N) (x : str),
  scheme_opt p -> (pre = [] \/ pre = [AT]) -> nm <> [] -> forallb name_char nm = true ->
  ~ In SLASH x -> bad_modifier c x ->
  url_parse (p ++ pre ++ nm ++ c :: x) = None.
Proof. exact url_rejects_bad_modifier. Qed.
Print Assumptions C16_url_rejects_bad_modifier.

(* a string has at most one reading; printing is injective; the canonical spelling is a fixed point *)
Theorem C16_url_unambiguous : forall (s : str) (u1 u2 : url), in_grammar s u1 -> in_grammar s u2 -> u1 = u2.
Proof. exact url_unambiguous. Qed.
Print Assumptions C16_url_unambiguous.

Theorem C16_url_print_injective : forall u1 u2 : url, url_wf u1 -> url_wf u2 -> url_print u1 = url_print u2 -> u1 = u2.
Proof. exact url_print_inj. Qed.
Print Assumptions C16_url_print_injective.

Theorem C16_url_canon_stable : forall (s : str) (u : url),
  url_parse s = Some u -> url_parse (canon s) = Some u /\ canon (canon s) = canon s.
Proof. exact url_canon_stable. Qed.
Print Assumptions C16_url_canon_stable.

(* ================= (d) hex / byte-order views of the accessors ================= *)

(* unhexlify (hexlify b) = b for every byte string: sd_hash, file_hash, bt_infohash, public_key *)
Theorem C16_hex_roundtrip : forall b : bytes, unhexlify (hexlify b) = Some b.
Proof. exact unhexlify_hexlify. Qed.
Print Assumptions C16_hex_roundtrip.

(* claim_id / signing_channel_id (reversed byte order): the hash read back is the hash that was set *)
Theorem C16_claim_id_roundtrip : forall h : bytes, hash_of_claim_id (claim_id_of_hash h) = Some h.
Proof. exact claim_id_roundtrip. Qed.
Print Assumptions C16_claim_id_roundtrip.

(* the id of a 20-byte hash is 40 lower-case hex digits, i.e. a full claim id of the URL grammar *)
Theorem C16_claim_id_shape : forall h : bytes, length h = 20%nat ->
  length (claim_id_of_hash h) = 40%nat /\ forallb is_lower_hex (claim_id_of_hash h) = true.
Proof. exact claim_id_shape. Qed.
Print Assumptions C16_claim_id_shape.

(* ================= non-vacuity ================= *)
Example C16_ex_env : env_decode (env_encode (Signed (repeat x07 20) (repeat x05 64) [x0a; x00])) =
                     EnvOk (Signed (repeat x07 20) (repeat x05 64) [x0a; x00]).
Proof. vm_compute. reflexivity. Qed.
Example C16_ex_env_wf : env_wf (Signed (repeat x07 20) (repeat x05 64) [x0a; x00]).
Proof. exact ex_env_wf. Qed.
Example C16_ex_varint : (varint_encode 300, varint_decode [xac; x02; x07]) = ([xac; x02], Some (300, [x07])).
Proof. vm_compute. reflexivity. Qed.
(* message 0 has a sub-message (id 1) at field 1; a tree using it fits, serialises and parses back *)
Example C16_ex_tree :
  let sch := [(0, [(1, KMsg 1); (8, KBytes)]); (1, [(2, KBytes); (5, KVarint)])] in
  let t := [(1, TMsg [(2, TBytes [x61]); (5, TVarint 18446744073709551615)]); (8, TBytes [x68; x69])] in
  (tfields_ok sch 0 t, fdepth t, parse_tree sch 2 0 (ser_tree t)) = (true, 2%nat, WOk t).
Proof. vm_compute. reflexivity. Qed.
(* "lbry://@a#1/b$2"  and its canonical spelling *)
Example C16_ex_url :
  let s := [108; 98; 114; 121; 58; 47; 47; 64; 97; 35; 49; 47; 98; 36; 50] in
  (url_parse s, canon s) =
  (Some (UChannelStream {| seg_name := [64; 97]; seg_mod := MClaimId [49] |}
                        {| seg_name := [98]; seg_mod := MAmount [50] |}),
   [108; 98; 114; 121; 58; 47; 47; 64; 97; 58; 49; 47; 98; 36; 50]).
Proof. vm_compute. reflexivity. Qed.
(* "foo\n", "a:g", "a$0" are refused; the hypotheses of the bad-modifier theorem are inhabited *)
Example C16_ex_reject : (url_parse [102; 111; 111; 10], url_parse [97; 58; 103], url_parse [97; 36; 48]) = (None, None, None).
Proof. vm_compute. reflexivity. Qed.
Example C16_ex_bad_modifier : bad_modifier 58 [103] /\ bad_modifier 36 [48].
Proof. exact bad_modifier_inhabited. Qed.
Example C16_ex_claim_id : (claim_id_of_hash [x01; xab; xff], hash_of_claim_id [x66; x46; x61; x62; x30; x31]) =
                          ([x66; x66; x61; x62; x30; x31], Some [x01; xab; xff]).
Proof. vm_compute. reflexivity. Qed.
Example C16_ex_unsigned_payload :
  v1_unsigned_payload (ser_fields [(1, WVarint 1); (3, WLen [x61]); (5, WLen [x08; x01])]) =
  WOk (ser_fields [(1, WVarint 1); (3, WLen [x61])]).
Proof. vm_compute. reflexivity. Qed.
(* a 76-byte object in a claim_name output: PUSHDATA1 is used and the bytes come back *)
Example C16_ex_embed_76 :
  match embed CarrierClaimName [x6e] [] (repeat x01 20) (repeat x07 76) with
  | Some s => (nth 3 s x00, extract_payload s)
  | None => (x00, None)
  end = (x4c, Some (repeat x07 76)).
Proof. vm_compute. reflexivity. Qed.
Example C16_ex_media_step :
  (media_step (Some (1, (1920, 1080, 3600))) None None None None,
   media_step (Some (1, (1920, 1080, 3600))) (Some 1) (Some 0) None None,
   media_step (Some (1, (1920, 1080, 3600))) (Some 0) None (Some 4) None) =
  (None, Some (1, (0, 1080, 3600)), Some (0, (0, 4, 0))).
Proof. vm_compute. reflexivity. Qed.
(* the 25 raw bytes 00 01 .. 18 of a Bitcoin-style address: the text starts with '1' and decodes back *)
Example C16_ex_btc_address :
  match fee_address (x00 :: map byte_of_N [1;2;3;4;5;6;7;8;9;10;11;12;13;14;15;16;17;18;19;20;21;22;23;24]%N) with
  | Some t => (hd x00 t, fee_address_bytes t)
  | None => (x00, Err EEmpty)
  end = (x31, Ok (x00 :: map byte_of_N [1;2;3;4;5;6;7;8;9;10;11;12;13;14;15;16;17;18;19;20;21;22;23;24]%N)).
Proof. vm_compute. reflexivity. Qed.
