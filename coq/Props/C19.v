(* C19 property theorems: statements only, each closed by [exact].
   Vocabulary (all in Model/C19.v): [clean_pass net limit d] = DiskSpaceManager._clean(net) with that limit on
   database state d: (list handed to delete_blobs, state after); [used_mb] = the usage the pass computes
   (int(bytes/2^20) per class); [pass_rows] = the rows behind the deletion list; [credited] = the megabytes the
   loop accounts for them (int(length/2^20) each); [excess] = usage - limit; [run] = a history of passes,
   clean() calls and blobs (re)appearing. *)
From Coq Require Import NArith ZArith List Bool.
From LV Require Import Model.C19 Proofs.C19.
Import ListNotations.
Local Open Scope N_scope.

(* Nothing is removed when usage is within the limit: for every state, both classes, every limit. *)
Theorem C19_no_delete_within_limit : forall d net limit,
  (Z.of_N (used_mb net d) <= limit)%Z -> clean_pass net limit d = ([], d).
Proof. exact no_delete_within_limit. Qed.
Print Assumptions C19_no_delete_within_limit.

(* Content storage unlimited (limit 0): the content pass removes nothing, whatever the usage. *)
Theorem C19_unlimited_content_untouched : forall d, clean_pass false 0 d = ([], d).
Proof. exact unlimited_content_untouched. Qed.
Print Assumptions C19_unlimited_content_untouched.

(* Every hash a pass deletes is the hash of a blob row with is_mine = 0 ... *)
Theorem C19_never_own : forall net limit d h, In h (fst (clean_pass net limit d)) ->
  exists b, In b (blobs d) /\ b_hash b = h /\ b_mine b = false.
Proof. exact (fun net limit d h H => proj1 (deleted_origin net limit d h H)). Qed.
Print Assumptions C19_never_own.

(* ... so (blob_hash being the primary key) every own blob keeps its row and its file. *)
Theorem C19_own_blobs_kept : forall net limit d b, hashes_unique d -> In b (blobs d) -> b_mine b = true ->
  In b (blobs (snd (clean_pass net limit d))) /\
  (In (b_hash b) (disk d) -> In (b_hash b) (disk (snd (clean_pass net limit d)))).
Proof. exact own_kept. Qed.
Print Assumptions C19_own_blobs_kept.

(* Over every history of passes (any class, any limit), clean() calls, status reads, blobs appearing (add_blobs with any
   is_mine in the tuple), restarts (BlobManager.setup) with blob files hidden or restored in between, start-up recovery
   of streams whose descriptor file was lost (StreamManager.initialize_from_database), and blobs the
   user removes himself through the API: a hash that is the user's own (and that he does not remove himself) is in
   no deletion list, stays own, and keeps its file unless somebody moved that file away. *)
Theorem C19_never_own_history : forall ops d h, hashes_unique d -> In h (own_hashes d) -> ~ In h (user_deleted ops) ->
  (forall dl, In dl (fst (run ops d)) -> ~ In h dl) /\ In h (own_hashes (snd (run ops d))) /\
  (In h (disk d) -> ~ In h (hidden ops) -> In h (disk (snd (run ops d)))).
Proof. exact history_never_own. Qed.
Print Assumptions C19_never_own_history.

(* A pass removes blobs only from its own storage class, and only when that class is over its limit. *)
Theorem C19_only_over_limit_class : forall net limit d h, In h (fst (clean_pass net limit d)) ->
  (limit < Z.of_N (used_mb net d))%Z /\ in_class net d h.
Proof. exact (fun net limit d h H => proj2 (deleted_origin net limit d h H)). Qed.
Print Assumptions C19_only_over_limit_class.

(* Nothing but the deleted hashes disappears; the other tables are untouched. *)
Theorem C19_only_deleted_disappear : forall net limit d b, In b (blobs d) ->
  ~ In (b_hash b) (fst (clean_pass net limit d)) -> In b (blobs (snd (clean_pass net limit d))).
Proof. exact (fun net limit d b Hb Hn => proj1 (unlisted_stays net limit d b Hn) Hb). Qed.
Print Assumptions C19_only_deleted_disappear.

(* After a pass usage is within the limit whenever enough removable blobs existed (recomputed usage of the
   state after the pass; needs the tables to be keyed by stream_hash and descriptors below 1 MiB, see the two
   witnesses below for why). *)
Theorem C19_reaches_limit : forall net limit d, tables_ok d -> net = true \/ limit <> 0%Z -> enough net limit d ->
  (Z.of_N (used_mb net (snd (clean_pass net limit d))) <= limit)%Z.
Proof. exact reaches_limit. Qed.
Print Assumptions C19_reaches_limit.

(* The same in the pass's own accounting, with no hypothesis on the tables: the loop ends with available >= 0. *)
Theorem C19_reaches_limit_accounting : forall net limit d, net = true \/ limit <> 0%Z -> enough net limit d ->
  (excess net limit d <= Z.of_N (credited (pass_rows net limit d)))%Z \/ (excess net limit d <= 0)%Z.
Proof. exact reaches_limit_accounting. Qed.
Print Assumptions C19_reaches_limit_accounting.

(* When the removable blobs do not suffice, all of them go (and nothing else can). *)
Theorem C19_exhausts_when_not_enough : forall net limit d, net = true \/ limit <> 0%Z ->
  (limit < Z.of_N (used_mb net d))%Z -> ~ enough net limit d -> pass_rows net limit d = cands net d.
Proof. exact exhausts_when_not_enough. Qed.
Print Assumptions C19_exhausts_when_not_enough.

(* Bounded overshoot, in the pass's whole-megabyte accounting: accounted space freed < excess + MB of the last
   deleted blob (deletion stops at the first blob that brings the accounted usage within the limit). *)
Theorem C19_bounded_overshoot : forall net limit d, pass_rows net limit d <> [] ->
  (Z.of_N (credited (pass_rows net limit d))
   < excess net limit d + Z.of_N (mb (r_len (last (pass_rows net limit d) row0))))%Z.
Proof. exact bounded_overshoot. Qed.
Print Assumptions C19_bounded_overshoot.

(* With blobs of at most 2 MiB (the protocol maximum): accounted space freed <= excess + 1 MB. *)
Theorem C19_bounded_overshoot_2mib : forall net limit d,
  (forall b, In b (blobs d) -> b_len b <= 2 * MiB) -> pass_rows net limit d <> [] ->
  (Z.of_N (credited (pass_rows net limit d)) <= excess net limit d + 1)%Z.
Proof. exact bounded_overshoot_2mib. Qed.
Print Assumptions C19_bounded_overshoot_2mib.

(* Real bytes: what the whole-megabyte accounting allows is up to one uncounted megabyte per deleted blob:
   bytes removed < (excess + MB of the last deleted blob + number of deleted rows) MiB. *)
Theorem C19_real_bytes_bound : forall net limit d, hashes_unique d -> pass_rows net limit d <> [] ->
  (Z.of_N (freed_bytes (fst (clean_pass net limit d)) d)
   < (excess net limit d + Z.of_N (mb (r_len (last (pass_rows net limit d) row0)))
      + Z.of_nat (length (pass_rows net limit d))) * Z.of_N MiB)%Z.
Proof. exact real_bytes_bound. Qed.
Print Assumptions C19_real_bytes_bound.

(* A second pass right after a pass deletes nothing and leaves the state unchanged (hence so does any number
   of repeated passes). *)
Theorem C19_second_pass_noop : forall net limit d, tables_ok d ->
  clean_pass net limit (snd (clean_pass net limit d)) = ([], snd (clean_pass net limit d)).
Proof. exact (fun net limit d Hw => settled_noop net limit (snd (clean_pass net limit d)) (after_pass net limit d Hw)). Qed.
Print Assumptions C19_second_pass_noop.

(* clean() (content pass then network pass) run twice: the second run deletes nothing. *)
Theorem C19_clean_twice_noop : forall cl nl d, tables_ok d ->
  clean cl nl (snd (clean cl nl d)) = (([], []), snd (clean cl nl d)).
Proof. exact clean_twice_noop. Qed.
Print Assumptions C19_clean_twice_noop.

(* The invariants the theorems assume are kept by a pass. *)
Theorem C19_wf_preserved : forall net limit d, wf d -> wf (snd (clean_pass net limit d)).
Proof. exact wf_pass. Qed.
Print Assumptions C19_wf_preserved.

(* clean() removes nothing when both classes are within their limits (content: or unlimited). *)
Theorem C19_clean_within_limits : forall cl nl d,
  (Z.of_N (used_mb false d) <= cl)%Z \/ cl = 0%Z -> (Z.of_N (used_mb true d) <= nl)%Z -> clean cl nl d = (([], []), d).
Proof. exact clean_within_limits. Qed.
Print Assumptions C19_clean_within_limits.

(* One clean() call: BOTH classes end within their limits when enough removable blobs exist for each at the moment its
   pass runs (the network pass always runs, on the state the content pass left). *)
Theorem C19_clean_reaches_both : forall cl nl d, tables_ok d -> cl <> 0%Z -> enough false cl d ->
  enough true nl (snd (clean_pass false cl d)) ->
  (Z.of_N (used_mb false (snd (clean cl nl d))) <= cl)%Z /\ (Z.of_N (used_mb true (snd (clean cl nl d))) <= nl)%Z.
Proof. exact clean_reaches_both. Qed.
Print Assumptions C19_clean_reaches_both.

(* No pass ever increases the usage of either class. *)
Theorem C19_usage_never_increases : forall net net' limit d,
  used_mb net' (snd (clean_pass net limit d)) <= used_mb net' d.
Proof. exact usage_never_increases. Qed.
Print Assumptions C19_usage_never_increases.

(* Which blobs go: a pass deletes a prefix of the candidate list of its class ... *)
Theorem C19_deletes_prefix : forall net limit d, exists rest, cands net d = pass_rows net limit d ++ rest.
Proof. exact pass_rows_prefix. Qed.
Print Assumptions C19_deletes_prefix.

(* ... and that list is ordered as the queries say: network blobs largest first (oldest first among equal sizes);
   content: stream blobs oldest first (smaller first among equal ages), then stream descriptors oldest first. *)
Theorem C19_candidates_sorted : forall d,
  sorted_by net_le (cands true d) /\
  exists cb sd, cands false d = cb ++ sd /\ sorted_by content_le cb /\ sorted_by sd_le sd.
Proof. exact cands_sorted. Qed.
Print Assumptions C19_candidates_sorted.

(* A database created by an older release and upgraded by migrate14to15 (is_mine default 1): nothing that was stored
   before the upgrade is ever deleted by a cleanup pass, over every later history. *)
Theorem C19_migrated_never_deleted : forall legacy post sb st fl dk ops r,
  hashes_unique (migrated_db legacy post sb st fl dk) -> In r legacy -> ~ In (fst (fst r)) (user_deleted ops) ->
  (forall dl, In dl (fst (run ops (migrated_db legacy post sb st fl dk))) -> ~ In (fst (fst r)) dl) /\
  In (fst (fst r)) (own_hashes (snd (run ops (migrated_db legacy post sb st fl dk)))).
Proof. exact migrated_never_deleted. Qed.
Print Assumptions C19_migrated_never_deleted.

(* After a restart (BlobManager.setup) only blobs whose file is really in the blob directory are 'finished', i.e. charged
   to a storage class; on an emptied directory nothing is charged, so no pass can delete anything for vanished blobs. *)
Theorem C19_setup_only_present : forall now sizes d b,
  In b (blobs (setup now sizes d)) -> b_fin b = true -> In (b_hash b) (disk d).
Proof. exact setup_only_present. Qed.
Print Assumptions C19_setup_only_present.

Theorem C19_setup_empty_dir_no_usage : forall now sizes d net, disk d = [] -> used_mb net (setup now sizes d) = 0.
Proof. exact setup_empty_dir_no_usage. Qed.
Print Assumptions C19_setup_empty_dir_no_usage.

(* Start-up recovery of a stream (rows dropped and re-inserted) keeps every blob's ownership. *)
Theorem C19_recover_keeps_ownership : forall sd now d h, hashes_unique d -> In h (own_hashes d) ->
  In h (own_hashes (recover sd now d)) /\ hashes_unique (recover sd now d) /\
  (In h (disk d) -> In h (disk (recover sd now d))).
Proof. exact keeps_recover. Qed.
Print Assumptions C19_recover_keeps_ownership.

(* Configuration layers: the limit the user assigns is the limit in force whatever the command line, environment or
   config file say -- including 0, the default, i.e. "content storage unlimited" (then C19_unlimited_content_untouched
   applies). *)
Theorem C19_assigned_limit_in_force : forall updating v l, effective (assign updating v l) = v.
Proof. exact assign_effective. Qed.
Print Assumptions C19_assigned_limit_in_force.

(* A history can be cut anywhere (the correspondence steps the extracted [run] one operation at a time). *)
Theorem C19_run_app : forall ops1 ops2 d,
  run (ops1 ++ ops2) d =
  (fst (run ops1 d) ++ fst (run ops2 (snd (run ops1 d))), snd (run ops2 (snd (run ops1 d)))).
Proof. exact run_app. Qed.
Print Assumptions C19_run_app.

(* The expression before commit 9764e59 ("limit == 0 if not network else available >= 0"): with a non-zero
   content limit it never returned early, so any state with a candidate lost a blob; concrete witness:
   3 MB used, limit 100 MB, blob 1 deleted, while the repaired test deletes nothing. *)
Theorem C19_old_condition_refuted :
  wf witness_db /\ (Z.of_N (used_mb false witness_db) <= 100)%Z /\
  fst (clean_pass_old false 100 witness_db) = [1] /\ clean_pass false 100 witness_db = ([], witness_db).
Proof. exact old_condition_refuted. Qed.
Print Assumptions C19_old_condition_refuted.

Theorem C19_old_always_deletes : forall limit d, limit <> 0%Z -> cands false d <> [] ->
  fst (clean_pass_old false limit d) <> [].
Proof. exact old_always_deletes. Qed.
Print Assumptions C19_old_always_deletes.

(* ---- non-vacuity: the hypotheses are inhabited by a state on which things really happen ---- *)
Theorem C19_ex_wf : wf ex_db /\ wf sweep_db.
Proof. exact (conj ex_db_wf sweep_db_wf). Qed.
Print Assumptions C19_ex_wf.

Theorem C19_ex_hyps : (enough false 5 ex_db /\ enough true 1 ex_db) /\
  (pass_rows false 5 ex_db <> [] /\ pass_rows true 1 ex_db <> []) /\ (In 21 (own_hashes ex_db) /\ In 21 (disk ex_db)) /\
  (~ enough false 1 sweep_db /\ (1 < Z.of_N (used_mb false sweep_db))%Z).
Proof. exact (conj ex_db_enough (conj ex_db_rows (conj ex_db_own sweep_db_not_enough))). Qed.
Print Assumptions C19_ex_hyps.

(* content: 8 MB used (4 content + 4 own), limit 5: the two oldest 2 MiB blobs go, 4 MB remain *)
Example C19_ex_content :
  (used_mb false ex_db, fst (clean_pass false 5 ex_db), used_mb false (snd (clean_pass false 5 ex_db)))
  = (8, [31; 32], 4).
Proof. vm_compute. reflexivity. Qed.
(* network: 3 MB used, limit 1: the largest blob goes first; the pass stops there *)
Example C19_ex_network :
  (used_mb true ex_db, fst (clean_pass true 1 ex_db), used_mb true (snd (clean_pass true 1 ex_db))) = (3, [40], 1).
Proof. vm_compute. reflexivity. Qed.
(* clean() then clean() again *)
Example C19_ex_clean :
  (fst (clean 5 1 ex_db), fst (clean 5 1 (snd (clean 5 1 ex_db)))) = (([31; 32], [40]), ([], [])).
Proof. vm_compute. reflexivity. Qed.

(* The literal whole-megabyte reading at work: 2 MB used, limit 1 MB (excess 1), three 0.95 MiB blobs each
   accounted as 0 MB: all three and then all three descriptors are deleted, accounted space freed 0 MB,
   2989941 bytes gone.  Allowed by C19_bounded_overshoot / C19_real_bytes_bound (6 rows, so < 7 MiB). *)
Example C19_submib_sweep_witness :
  (used_mb false sweep_db, fst (clean_pass false 1 sweep_db), credited (pass_rows false 1 sweep_db),
   freed_bytes (fst (clean_pass false 1 sweep_db)) sweep_db)
  = (2, [1; 2; 3; 11; 12; 13], 0, 2989941).
Proof. vm_compute. reflexivity. Qed.

(* Why C19_reaches_limit needs [tables_ok].  (a) a 1 MiB stream descriptor is credited 1 MB although usage never
   counted it: 4 MB used, limit 2, enough by the accounting, 3 MB used afterwards. *)
Example C19_sd_credit_witness :
  (used_mb false sd_credit_db, credited (cands false sd_credit_db), fst (clean_pass false 2 sd_credit_db),
   used_mb false (snd (clean_pass false 2 sd_credit_db))) = (4, 2, [1; 2], 3).
Proof. vm_compute. reflexivity. Qed.
(* (b) two file rows for one stream: the same blob is credited twice. *)
Example C19_dup_file_witness :
  (used_mb false dup_file_db, credited (cands false dup_file_db), fst (clean_pass false 2 dup_file_db),
   used_mb false (snd (clean_pass false 2 dup_file_db))) = (4, 2, [1; 1], 3).
Proof. vm_compute. reflexivity. Qed.

(* The network query before its repair listed the descriptor (blob 2) of a downloaded stream; with the seeded blobs not
   covering the excess the old list was walked to the end and the descriptor went, although no class counts it and
   content storage was unlimited.  The repaired query never lists it (C19_only_over_limit_class: is_sd = false). *)
Example C19_old_network_query_refuted :
  (map r_hash (cands_net_old netsd_db), map r_hash (cands true netsd_db), fst (clean_pass true 0 netsd_db))
  = ([3; 4; 2], [3; 4], [3; 4]).
Proof. vm_compute. reflexivity. Qed.
