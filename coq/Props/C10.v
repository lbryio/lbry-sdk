(* C10 property theorems: statements only, each closed by [exact]. *)
From Coq Require Import NArith ZArith List Bool.
From LV Require Import Lib.Bytes Model.C10 Proofs.C10 Proofs.C10Client Proofs.C10Frag Proofs.C10Time Proofs.C10Honest Proofs.C10Old Proofs.C10Srv.
Import ListNotations.
Local Open Scope Z_scope.

(* SERVER.  For EVERY sequence of segments a peer sends on a connection, what the server writes is a sequence of
   headers; blob bytes appear only directly after a header that names exactly (hash, length) of a blob the
   server holds verified, and are exactly that blob; availability lists name blobs of the completed index only
   (the download is gated on the blob being verified, not on that index). *)
Theorem C10_server_serves_only_verified :
  forall (req_loads : bytes -> rres) (store : bytes -> option bytes) (completed : bytes -> bool) (frags : list bytes),
    wire_ok store completed (snd (srv_run req_loads store completed fresh_server frags)).
Proof. exact srv_run_wire_ok. Qed.
Print Assumptions C10_server_serves_only_verified.

(* 1200 or more buffered request bytes => the connection is closed, nothing is handled or sent. *)
Theorem C10_server_request_cap :
  forall (req_loads : bytes -> rres) (store : bytes -> option bytes) (completed : bytes -> bool) (s : server) (data : bytes),
    zlen (s_buf s) + zlen data >= MAX_REQUEST_SIZE ->
    srv_data req_loads store completed s data = (mkS (s_buf s) false, [SClose]).
Proof. exact srv_cap. Qed.
Print Assumptions C10_server_request_cap.

(* a segment that completes a '}' but is not a request (bad JSON, an exception in deserialize, no request key) closes *)
Theorem C10_server_bad_json_closes :
  forall (req_loads : bytes -> rres) (store : bytes -> option bytes) (completed : bytes -> bool) (s : server) (data t : bytes),
    zlen (s_buf s) + zlen data < MAX_REQUEST_SIZE -> data <> [] -> after_last_brace data = Some t ->
    (req_loads (s_buf s ++ data) = RBadJson \/ req_loads (s_buf s ++ data) = RRaise \/ req_loads (s_buf s ++ data) = REmpty) ->
    exists s', srv_data req_loads store completed s data = (s', [SClose]) /\ s_open s' = false.
Proof. exact srv_bad_json. Qed.
Print Assumptions C10_server_bad_json_closes.

(* an honest request (its only '}' is its last byte, below the cap) is handled exactly once however it is cut *)
Theorem C10_server_fragmentation_irrelevant :
  forall (req_loads : bytes -> rres) (store : bytes -> option bytes) (completed : bytes -> bool) (body : bytes) (q : request_msg)
         (frags : list bytes),
    no_brace body -> req_loads (body ++ [rbrace]) = RReq q -> zlen (body ++ [rbrace]) < MAX_REQUEST_SIZE ->
    concat frags = body ++ [rbrace] -> (forall f, In f frags -> f <> []) ->
    srv_run req_loads store completed fresh_server frags =
      (mkS [] (negb (existsb (fun o => match o with SClose => true | _ => false end) (handle_request store completed q))),
       handle_request store completed q).
Proof. exact srv_fragmentation. Qed.
Print Assumptions C10_server_fragmentation_irrelevant.

(* SERVER TIMERS (close_on_idle / wait_for(sendfile, transfer_timeout)); tsrv_step mirrors: started_transfer is set
   BEFORE the sendfile await, so the watchdog stops counting idle time while a blob is being sent.
   From the moment a transfer starts, for EVERY sequence of clock advances that sums to less than transfer_timeout,
   the connection is still open and still in that transfer: the idle timer never cuts an in-progress transfer. *)
Theorem C10_server_transfer_not_cut_by_idle :
  forall (idleT transT : Z) (s : tsrv) (d : Z) (dts : list Z),
    t_mode s = TmIdle d -> total dts < transT ->
    tsrv_run idleT transT (tsrv_step idleT transT s TvStart) (map TvAdvance dts)
      = mkT (t_now s + total dts) (TmTransfer (t_now s + transT)).
Proof. exact transfer_not_cut_by_idle. Qed.
Print Assumptions C10_server_transfer_not_cut_by_idle.

(* a transfer that completes in time re-arms a FRESH idle period *)
Theorem C10_server_transfer_done_rearms :
  forall (idleT transT : Z) (s : tsrv) (d : Z) (dts : list Z),
    t_mode s = TmIdle d -> total dts < transT ->
    tsrv_step idleT transT (tsrv_run idleT transT (tsrv_step idleT transT s TvStart) (map TvAdvance dts)) TvDone
      = mkT (t_now s + total dts) (TmIdle (t_now s + total dts + idleT)).
Proof. exact transfer_done_rearms. Qed.
Print Assumptions C10_server_transfer_done_rearms.

(* a silent peer, or one whose requests start no transfer, is closed once idle_timeout has elapsed *)
Theorem C10_server_silent_peer_closed :
  forall (idleT transT : Z) (evs : list tev) (s : tsrv) (d : Z),
    Forall quiet evs -> t_mode s = TmIdle d -> live s -> d <= t_now s + elapsed_t evs ->
    t_mode (tsrv_run idleT transT s evs) = TmClosed.
Proof. exact silent_peer_closed. Qed.
Print Assumptions C10_server_silent_peer_closed.

(* a transfer that never finishes is closed once transfer_timeout has elapsed *)
Theorem C10_server_stalled_transfer_closed :
  forall (idleT transT : Z) (evs : list tev) (s : tsrv) (d : Z),
    Forall unfinished evs -> t_mode s = TmTransfer d -> live s -> d <= t_now s + elapsed_t evs ->
    t_mode (tsrv_run idleT transT s evs) = TmClosed.
Proof. exact stalled_transfer_closed. Qed.
Print Assumptions C10_server_stalled_transfer_closed.

Example C10_ex_slow_reader_served :
  tsrv_trace 30 60 (tsrv_fresh 30 0) [TvAdvance 29; TvStart; TvAdvance 35; TvDone; TvAdvance 29; TvAdvance 1]
  = [true; true; true; true; true; false].
Proof. vm_compute. reflexivity. Qed.

(* SEVERAL WRITERS OF ONE BLOB (the downloader's peer race; composition with C01's writer set).  blob_write mirrors
   AbstractBlob.writers + writer_finished_callback: only a writer that finished with verified bytes closes the others.
   A writer that ends otherwise (corrupted / short / excess / cancelled / still open) leaves every other writer of the
   blob exactly as it was ... *)
Theorem C10_failing_writer_leaves_others :
  forall (H : bytes -> bytes) (hash : bytes) (len : option Z) (ws : list writer) (i : nat) (data : bytes) (w : writer) (j : nat),
    nth_error ws i = Some w ->
    w_fin (fst (writer_write H hash len w data)) <> WResult -> i <> j ->
    nth_error (blob_write H hash len ws i data) j = nth_error ws j.
Proof. exact failing_writer_leaves_others. Qed.
Print Assumptions C10_failing_writer_leaves_others.

(* ... and a writer closes the others only with bytes that hash to the blob hash and have the blob length *)
Theorem C10_closing_writer_verified :
  forall (H : bytes -> bytes) (hash : bytes) (L : Z) (ws : list writer) (i : nat) (data : bytes) (w : writer),
    nth_error ws i = Some w -> w_fin w = WPending -> w_closed w = false ->
    w_fin (fst (writer_write H hash (Some L) w data)) = WResult ->
    H (w_data w ++ data) = hash /\ zlen (w_data w ++ data) = L.
Proof. exact (fun H hash L ws i data w _ => closing_writer_verified H hash L data w). Qed.
Print Assumptions C10_closing_writer_verified.

(* ------------------------------------------------------------------ CLIENT *)

(* FRAGMENTATION.  hdr is an honest header: python-json reads it as response r at its end, it ends in '}', no proper
   prefix ending in '}' is JSON, and it is not longer than the response cap; r announces (hash, n).  Then for EVERY way
   of cutting hdr ++ body into segments (empty ones included, body of any length and content) the writer receives
   exactly body cut at the announced length, the response is delivered exactly once, nothing stays buffered. *)
Theorem C10_fragmentation_irrelevant :
  forall (H : bytes -> bytes) (json_loads : bytes -> jres) (hdr : bytes) (r : response) (hash : bytes) (n : Z),
    json_loads hdr = JResp r ->
    (exists h0, hdr = h0 ++ [rbrace]) ->
    (forall a b, hdr = a ++ rbrace :: b -> b <> [] -> json_loads (a ++ [rbrace]) = JInvalid) ->
    zlen hdr <= MAX_RESPONSE_SIZE ->
    r_blob r = BrIncoming (Some hash) (LInt n) ->
    0 < n <= MAX_BLOB_SIZE ->
    forall (known : option Z) (c0 : client) (body : bytes) (frags : list bytes),
      Init hash n known c0 ->
      concat frags = hdr ++ body ->
      let c := feed H json_loads c0 frags in
      w_data (c_w c) = firstn (Z.to_nat n) body /\ c_delivered c = 1%nat /\ c_fut c = FutResult r /\
      c_buf c = [] /\ c_received c = Z.min n (zlen body) /\ c_len c = Some n.
Proof. exact fragmentation_irrelevant. Qed.
Print Assumptions C10_fragmentation_irrelevant.

(* HONEST TRANSFER COMPLETES.  If moreover r passes the client's checks, the body has the announced length and hashes
   to the requested hash, then for every cutting into segments AND every placement of event-loop runs between them,
   one more loop run ends the download "ok" with the verified byte-identical blob and the connection kept
   (sched_ok: segments are non-empty - asyncio never delivers an empty one - and only segments and loop runs occur). *)
Theorem C10_honest_transfer_completes :
  forall (H : bytes -> bytes) (json_loads : bytes -> jres) (hdr : bytes) (r : response) (hash : bytes) (n : Z) (body : bytes),
    json_loads hdr = JResp r ->
    (exists h0, hdr = h0 ++ [rbrace]) ->
    (forall a b, hdr = a ++ rbrace :: b -> b <> [] -> json_loads (a ++ [rbrace]) = JInvalid) ->
    zlen hdr <= MAX_RESPONSE_SIZE ->
    r_blob r = BrIncoming (Some hash) (LInt n) ->
    0 < n <= MAX_BLOB_SIZE ->
    acceptable hash (Some n) r = true -> zlen body = n -> H body = hash ->
    forall (known : option Z) (d0 : Z) (c0 : client) (evs : list event),
      Start hash n known d0 c0 -> Forall sched_ok evs -> data_of evs = hdr ++ body ->
      let c := drain (run H json_loads c0 evs) in
      c_phase c = PhDone (DlOk n) /\ c_verified c = Some body /\ c_received c = n /\ c_open c = true /\
      w_data (c_w c) = body.
Proof. exact honest_transfer_completes. Qed.
Print Assumptions C10_honest_transfer_completes.

(* ... and every request on a clean connection, reused or new, starts in such a state (several requests per connection) *)
Theorem C10_request_starts :
  forall (hash : bytes) (n : Z) (known : option Z) (c : client),
    c_buf c = [] -> c_lost c = false -> (known = None \/ known = Some n) ->
    Start hash n known (c_now c + c_T c) (request hash known c).
Proof. exact request_starts. Qed.
Print Assumptions C10_request_starts.

(* NEVER POISONED.  For every connection state, every requested (hash, known length >= 0) and EVERY sequence of events
   (any bytes in any segments, late bytes, loop runs, clock advances, connection loss): if the blob ends up verified,
   the saved bytes hash to the requested hash, have the blob's length, and are exactly what the writer was handed. *)
Theorem C10_lying_peer_never_poisons :
  forall (H : bytes -> bytes) (json_loads : bytes -> jres) (c0 : client) (hash : bytes) (known : option Z)
         (evs : list event) (d : bytes),
    match known with Some k => 0 <= k | None => True end ->
    zlen (c_buf c0) <= MAX_RESPONSE_SIZE ->
    let c := run H json_loads (request hash known c0) evs in
    c_verified c = Some d -> H d = hash /\ c_len c = Some (zlen d) /\ d = w_data (c_w c).
Proof. exact (fun H jl c0 hash known evs d Hk Hb => Safe_run_verified H jl _ hash evs d (Safe_request H hash known c0 Hk Hb) (request_hash hash known c0)). Qed.
Print Assumptions C10_lying_peer_never_poisons.

(* NEVER OVER LENGTH: while the writer is open it holds at most the blob's length (nothing without a length), and
   every single _write in such a state stays within the length. *)
Theorem C10_never_over_length :
  forall (H : bytes -> bytes) (json_loads : bytes -> jres) (c0 : client) (hash : bytes) (known : option Z) (evs : list event),
    match known with Some k => 0 <= k | None => True end ->
    zlen (c_buf c0) <= MAX_RESPONSE_SIZE ->
    let c := run H json_loads (request hash known c0) evs in
    (w_closed (c_w c) = false ->
     match c_len c with
     | Some L => zlen (w_data (c_w c)) <= L /\ c_received c <= L
     | None => w_data (c_w c) = [] /\ c_received c = 0
     end) /\
    (forall data L, c_len c = Some L -> w_closed (c_w c) = false ->
       zlen (w_data (c_w (fst (cl_write H c data)))) <= L).
Proof. exact (fun H jl c0 hash known evs Hk Hb => Safe_bounds H _ (Safe_run H jl evs _ (Safe_request H hash known c0 Hk Hb))). Qed.
Print Assumptions C10_never_over_length.

(* KNOWN FINDING race-length-poison, machine-checked in the model of the code as it is.  A length once stored in the
   blob (e.g. by a lying peer's header, before anything is verified) is never changed or forgotten, whatever happens
   to that download afterwards ... *)
Theorem C10_announced_length_never_forgotten_refuted :
  forall (H : bytes -> bytes) (json_loads : bytes -> jres) (evs : list event) (c : client) (L : Z),
    c_len c = Some L -> c_len (run H json_loads c evs) = Some L.
Proof. exact (fun H jl evs c => proj2 (proj2 (run_keeps H jl evs c))). Qed.
Print Assumptions C10_announced_length_never_forgotten_refuted.

(* ... and with a wrong length L in the blob, the honest response announcing the true length n <> L is refused. *)
Theorem C10_poisoned_length_refuses_refuted :
  forall (hash : bytes) (L n : Z) (r : response),
    r_blob r = BrIncoming (Some hash) (LInt n) -> n <> L -> acceptable hash (Some L) r = false.
Proof. exact poisoned_length_refuses. Qed.
Print Assumptions C10_poisoned_length_refuses_refuted.

(* the whole scenario on a concrete instance: 24-byte blob requested by hash only, a peer announces 25 and closes
   (download cancelled, nothing verified, blob.length = 25), then the honest peer on the same blob is refused *)
Example C10_ex_length_poison_refuted :
  c_phase poisoned = PhDone DlCancelled /\ c_verified poisoned = None /\ c_len poisoned = Some 25 /\
  let retry := drain (run toy_H toy_json2 (request T_HASH (c_len poisoned) poisoned) [EvData T_HDR; EvDrain; EvData T_WIT]) in
  c_phase retry = PhDone (DlClosed 0) /\ c_verified retry = None /\ c_open retry = false.
Proof. exact length_poison_refuted_instance. Qed.

(* RESPONSE CAP: the client never holds more than MAX_RESPONSE_SIZE unrecognised bytes ... *)
Theorem C10_client_buffer_bounded :
  forall (H : bytes -> bytes) (json_loads : bytes -> jres) (c0 : client) (hash : bytes) (known : option Z) (evs : list event),
    match known with Some k => 0 <= k | None => True end ->
    zlen (c_buf c0) <= MAX_RESPONSE_SIZE ->
    zlen (c_buf (run H json_loads (request hash known c0) evs)) <= MAX_RESPONSE_SIZE.
Proof. exact (fun H jl c0 hash known evs Hk Hb => proj2 (Safe_run H jl evs _ (Safe_request H hash known c0 Hk Hb))). Qed.
Print Assumptions C10_client_buffer_bounded.

(* ... because a segment that brings the unrecognised bytes over the cap closes the connection. *)
Theorem C10_client_unrecognised_closes :
  forall (H : bytes -> bytes) (json_loads : bytes -> jres) (c : client) (data : bytes),
    c_open c = true -> c_att c = true -> c_received c = 0 -> c_fut c = FutPending ->
    parse_prefix json_loads (c_buf c ++ data) = PNone ->
    zlen (c_buf c ++ data) > MAX_RESPONSE_SIZE ->
    data_received H json_loads c data = (close (set_buf (c_buf c ++ data) c), false).
Proof. exact unrecognised_closes. Qed.
Print Assumptions C10_client_unrecognised_closes.

(* ... and the scan only ever recognises a response in a '}'-terminated prefix of at most MAX_RESPONSE_SIZE bytes
   that json_loads accepts. *)
Theorem C10_parse_prefix_sound :
  forall (json_loads : bytes -> jres) (msg : bytes) (r : response) (n : nat),
    parse_prefix json_loads msg = PResp r n ->
    json_loads (firstn n msg) = JResp r /\ (exists p, firstn n msg = p ++ [rbrace]) /\ Z.of_nat n <= MAX_RESPONSE_SIZE.
Proof. exact parse_prefix_sound. Qed.
Print Assumptions C10_parse_prefix_sound.

(* THE CLIENT REFUSES: the checks pass only for availability [hash] (or empty), RATE_ACCEPTED, incoming_blob naming the
   requested hash and, when the length is known, that length ... *)
Theorem C10_client_accepts_only_matching :
  forall (hash : bytes) (known : option Z) (r : response),
    acceptable hash known r = true ->
    (r_avail r = AvSingle hash \/ r_avail r = AvFalsy) /\ r_price r = PrAccepted /\
    exists l, r_blob r = BrIncoming (Some hash) l /\ (known = None \/ exists k, known = Some k /\ l = LInt k).
Proof. exact acceptable_sound. Qed.
Print Assumptions C10_client_accepts_only_matching.

(* ... and any response failing them ends the download "closed" at the next loop run: transport closed, writer handle
   closed, nothing more written. *)
Theorem C10_client_refuses :
  forall (c : client) (r : response) (d : Z),
    c_phase c = PhAwaitResp d -> c_fut c = FutResult r -> c_closed_ev c = false -> c_lost c = false ->
    acceptable (c_hash c) (c_len c) r = false ->
    let c' := drain c in
    c_phase c' = PhDone (DlClosed (c_received c)) /\ c_open c' = false /\ c_att c' = false /\
    w_closed (c_w c') = (c_has_w c || w_closed (c_w c)) /\ w_data (c_w c') = w_data (c_w c).
Proof. exact client_refuses. Qed.
Print Assumptions C10_client_refuses.

(* a response announcing another blob than the requested one is dropped: never delivered, nothing written *)
Theorem C10_unrequested_blob_dropped :
  forall (H : bytes -> bytes) (json_loads : bytes -> jres) (c : client) (data : bytes) (r : response) (n : nat)
         (h : option bytes) (l : lenv),
    c_open c = true -> c_att c = true -> c_received c = 0 -> c_fut c = FutPending ->
    parse_prefix json_loads (c_buf c ++ data) = PResp r n -> r_blob r = BrIncoming h l -> h <> Some (c_hash c) ->
    data_received H json_loads c data = (set_buf [] c, false).
Proof. exact unrequested_blob_dropped. Qed.
Print Assumptions C10_unrequested_blob_dropped.

(* TIMEOUTS.  Whatever the peer sends or withholds and however the loop is scheduled: once two peer timeouts of
   (virtual) time have elapsed since the request, the download has ended. *)
Theorem C10_client_bounded_wait :
  forall (H : bytes -> bytes) (json_loads : bytes -> jres) (c0 : client) (hash : bytes) (known : option Z) (evs : list event),
    0 < c_T c0 -> 2 * c_T c0 <= elapsed evs ->
    exists res, c_phase (run H json_loads (request hash known c0) evs) = PhDone res.
Proof. exact bounded_wait. Qed.
Print Assumptions C10_client_bounded_wait.

(* THE REPAIRED DEFECT (F7).  With the condition used before the fix, a blob that begins with something that reads as
   a response (no incoming_blob), delivered as header | body, is never written: the connection is force-closed. *)
Theorem C10_old_condition_refuted :
  forall (H : bytes -> bytes) (json_loads : bytes -> jres) (hdr : bytes) (r : response) (hash : bytes) (n : Z),
    json_loads hdr = JResp r ->
    (exists h0, hdr = h0 ++ [rbrace]) ->
    (forall a b, hdr = a ++ rbrace :: b -> b <> [] -> json_loads (a ++ [rbrace]) = JInvalid) ->
    zlen hdr <= MAX_RESPONSE_SIZE ->
    r_blob r = BrIncoming (Some hash) (LInt n) -> 0 < n <= MAX_BLOB_SIZE ->
    forall (body : bytes) (r' : response) (k : nat),
      parse_prefix json_loads body = PResp r' k -> r_blob r' = BrAbsent ->
      forall (known : option Z) (c0 : client), Init hash n known c0 ->
        let c := run_old H json_loads c0 [EvData hdr; EvData body] in
        c_open c = false /\ c_lost c = true /\ w_data (c_w c) = [] /\ c_received c = 0.
Proof. exact old_condition_refuted. Qed.
Print Assumptions C10_old_condition_refuted.

(* IDLE KEPT CONNECTION (fix a1a028a).  For every history of a request: once the download has ended (ok, closed or
   cancelled) and the connection is still open, the next segment the peer sends - excess or unsolicited bytes - closes it. *)
Theorem C10_idle_connection_closes_on_data :
  forall (H : bytes -> bytes) (json_loads : bytes -> jres) (c0 : client) (hash : bytes) (known : option Z) (evs : list event)
         (res : dlres) (d : bytes),
    let c := run H json_loads (request hash known c0) evs in
    c_phase c = PhDone res -> c_open c = true ->
    c_open (step H json_loads c (EvData d)) = false.
Proof. exact (fun H jl c0 hash known evs res d => idle_closes_on_data H jl _ res d (DI_run H jl evs _ (DI_request hash known c0))). Qed.
Print Assumptions C10_idle_connection_closes_on_data.

(* ONE DOWNLOAD PER PROTOCOL.  Why BlobDownloader must not hand a busy keep-alive connection to a second download:
   download_blob overwrites blob / writer / future, and the honest header answering the FIRST request is then
   "a blob we didn't request": dropped, never delivered, nothing written. *)
Theorem C10_second_download_on_busy_protocol_refuted :
  forall (H : bytes -> bytes) (json_loads : bytes -> jres) (c : client) (h1 h2 : bytes) (known : option Z) (data : bytes)
         (r : response) (n : nat) (l : lenv),
    c_open c = true -> h1 <> h2 ->
    parse_prefix json_loads (c_buf c ++ data) = PResp r n -> r_blob r = BrIncoming (Some h1) l ->
    data_received H json_loads (start_download h2 known c) data = (set_buf [] (start_download h2 known c), false).
Proof. exact second_download_on_busy_protocol_drops_first. Qed.
Print Assumptions C10_second_download_on_busy_protocol_refuted.

(* MEMORY-ONLY NODE (save_blobs = False): serving its copy of a blob consumes it; asked again for the same hash it
   announces nothing and sends no blob bytes. *)
Theorem C10_memory_only_serves_once :
  forall (store : bytes -> option bytes) (completed : bytes -> bool) (q : request_msg) (h : bytes),
    q_blob q = Some (BqHash h) ->
    let store' := snd (mem_handle_request store completed q) in
    store' h = None /\
    forall q', q_blob q' = Some (BqHash h) ->
      forall o, In o (handle_request store' completed q') ->
        match o with SHeader hd => h_incoming hd = None | SBlob _ => False | _ => True end.
Proof. exact memory_only_serves_once. Qed.
Print Assumptions C10_memory_only_serves_once.

(* ------------------------------------------------------------------ non-vacuity *)
(* all hypotheses about an honest header and a started download are satisfiable together (a table-driven json_loads,
   the literal F7 witness {"lbrycrd_address": "x"} as the blob): the old client fails on it, the repaired one completes *)
Example C10_ex_old_fails :
  let c := run_old toy_H toy_json toy_c0 [EvData T_HDR; EvData T_WIT] in
  c_open c = false /\ c_lost c = true /\ w_data (c_w c) = [] /\ c_received c = 0.
Proof. exact old_condition_refuted_instance. Qed.
Example C10_ex_repaired_completes :
  let c := drain (run toy_H toy_json toy_c0 [EvData T_HDR; EvDrain; EvData T_WIT]) in
  c_phase c = PhDone (DlOk 24) /\ c_verified c = Some T_WIT /\ c_received c = 24 /\ c_open c = true /\
  w_data (c_w c) = T_WIT.
Proof. exact repaired_completes_instance. Qed.
(* a lying peer: one corrupted byte -> hash mismatch -> closed, not verified (toy hash = constant, so use a wrong length) *)
Example C10_ex_timeout :
  c_phase (run toy_H toy_json toy_c0 [EvAdvance 3]) = PhDone (DlClosed 0).
Proof. vm_compute. reflexivity. Qed.
Example C10_ex_server_cap :
  srv_data (fun _ => RBadJson) (fun _ => None) (fun _ => false) (mkS (repeat rbrace 1000) true) (repeat rbrace 200)
  = (mkS (repeat rbrace 1000) false, [SClose]).
Proof. vm_compute. reflexivity. Qed.
