(* C08 property theorems: statements only, each closed by [exact].
   dsha (double SHA-256) is universally quantified: no assumption about it anywhere, except the
   explicitly stated fixed-output-length premises of C08_binding_64 / C08_binding_any_width. *)
From Coq Require Import NArith ZArith List Bool.
From Coq.Strings Require Import Byte.
From LV Require Import Wire.CompactSize Wire.Tx Model.C05 Model.C08_Tx Proofs.C08_Tx.
From LV Require Import Lib.Bytes Lib.Decimal Model.C08 Model.C08_Claim Model.C08_Cache Model.C08_Chunk Model.C08_Db Proofs.C08 Proofs.C08_Cache Proofs.C08_Chunk Proofs.C08_Db Proofs.C08_Toy.
Import ListNotations.

(* Every genuine proof is accepted: for ALL leaf lists and ALL indices, folding the generated branch
   with the index as position gives the Merkle root (induction over the tree levels). *)
Theorem C08_genuine_proofs_accepted : forall (dsha : bytes -> bytes) (l : list bytes) (idx : nat),
  (idx < length l)%nat ->
  exists r, merkle_root dsha l = Some r /\
            fold_branch dsha (branch dsha l idx) (Z.of_nat idx) (nth idx l []) = r.
Proof. exact genuine. Qed.
Print Assumptions C08_genuine_proofs_accepted.

(* Same on the wire format the code receives (hex of the reversed hashes), through
   get_root_of_merkle_tree itself: the result is the hex form of the root. *)
Theorem C08_genuine_proofs_accepted_wire : forall (dsha : bytes -> bytes) (l : list bytes) (idx : nat),
  (idx < length l)%nat ->
  exists r, merkle_root dsha l = Some r /\
    get_root_of_merkle_tree dsha (map wire (branch dsha l idx)) (Z.of_nat idx) (nth idx l []) = Some (wire r).
Proof. exact genuine_wire. Qed.
Print Assumptions C08_genuine_proofs_accepted_wire.

(* Binding: two different (branch, leaf) of equal branch length (siblings pairwise of equal width)
   whose positions agree modulo 2^len and that fold to the same root give an explicit pair of
   different inputs with the same hash, computed by [collision].  No assumption on dsha. *)
Theorem C08_binding : forall (dsha : bytes -> bytes) br1 br2 p1 p2 leaf1 leaf2,
  same_widths br1 br2 ->
  (p1 mod 2 ^ Z.of_nat (length br1) = p2 mod 2 ^ Z.of_nat (length br1))%Z ->
  (br1, leaf1) <> (br2, leaf2) ->
  fold_branch dsha br1 p1 leaf1 = fold_branch dsha br2 p2 leaf2 ->
  exists x y, collision dsha br1 br2 p1 p2 leaf1 leaf2 = Some (x, y) /\ x <> y /\ dsha x = dsha y.
Proof. exact binding. Qed.
Print Assumptions C08_binding.

(* ... and with 32-byte hashes, siblings and leaves the colliding inputs are 64 bytes long. *)
Theorem C08_binding_64 : forall (dsha : bytes -> bytes) br1 br2 p1 p2 leaf1 leaf2,
  (forall x, length (dsha x) = 32%nat) ->
  length br1 = length br2 ->
  Forall (fun b : bytes => length b = 32%nat) br1 -> Forall (fun b : bytes => length b = 32%nat) br2 ->
  length leaf1 = 32%nat -> length leaf2 = 32%nat ->
  (p1 mod 2 ^ Z.of_nat (length br1) = p2 mod 2 ^ Z.of_nat (length br1))%Z ->
  (br1, leaf1) <> (br2, leaf2) ->
  fold_branch dsha br1 p1 leaf1 = fold_branch dsha br2 p2 leaf2 ->
  exists x y, collision dsha br1 br2 p1 p2 leaf1 leaf2 = Some (x, y) /\ x <> y /\ dsha x = dsha y /\
              length x = 64%nat /\ length y = 64%nat.
Proof. exact binding_64. Qed.
Print Assumptions C08_binding_64.

(* The code does not check the width of the siblings it is given; for a hash with a fixed output
   length (any length) and leaves of equal length binding holds for siblings of ANY width. *)
Theorem C08_binding_any_width : forall (dsha : bytes -> bytes) br1 br2 p1 p2 leaf1 leaf2,
  (forall x y, length (dsha x) = length (dsha y)) ->
  length br1 = length br2 -> length leaf1 = length leaf2 ->
  (p1 mod 2 ^ Z.of_nat (length br1) = p2 mod 2 ^ Z.of_nat (length br1))%Z ->
  (br1, leaf1) <> (br2, leaf2) ->
  fold_branch dsha br1 p1 leaf1 = fold_branch dsha br2 p2 leaf2 ->
  exists x y, collision dsha br1 br2 p1 p2 leaf1 leaf2 = Some (x, y) /\ x <> y /\ dsha x = dsha y.
Proof. exact binding_fixed_out. Qed.
Print Assumptions C08_binding_any_width.

(* SPV soundness against the block: an accepted (branch, position, leaf) with the branch length of the
   block's tree and position naming index j carries exactly the j-th transaction hash of the block (and
   the genuine branch) -- otherwise [collision] exhibits a collision.  No assumption on dsha. *)
Theorem C08_verified_means_member : forall (dsha : bytes -> bytes) l br pos leaf r j,
  merkle_root dsha l = Some r -> (j < length l)%nat ->
  (pos mod 2 ^ Z.of_nat (length br) = Z.of_nat j)%Z ->
  same_widths br (branch dsha l j) ->
  fold_branch dsha br pos leaf = r ->
  (leaf = nth j l [] /\ br = branch dsha l j) \/
  exists x y, collision dsha br (branch dsha l j) pos (Z.of_nat j) leaf (nth j l []) = Some (x, y) /\
              x <> y /\ dsha x = dsha y.
Proof. exact verified_member. Qed.
Print Assumptions C08_verified_means_member.

(* Altering the transaction: a different raw transaction accepted with the same branch and position
   gives a collision (either the two transactions themselves or a pair found by [collision]). *)
Theorem C08_tx_mutation : forall (dsha : bytes -> bytes) br pos raw1 raw2,
  raw1 <> raw2 ->
  fold_branch dsha br pos (dsha raw1) = fold_branch dsha br pos (dsha raw2) ->
  exists x y, x <> y /\ dsha x = dsha y /\
    ((x, y) = (raw1, raw2) \/ collision dsha br br pos pos (dsha raw1) (dsha raw2) = Some (x, y)).
Proof. exact tx_mutation. Qed.
Print Assumptions C08_tx_mutation.

(* Altering one position bit k below the branch length: if the altered proof still folds to the same
   root then either both sides hash the very same input at level k -- sibling ++ running hash =
   running hash ++ sibling, i.e. for equal widths the sibling IS the running hash, Bitcoin's
   duplicated last node (see C08_ex_dup_sibling) -- or [collision] returns an explicit collision. *)
Theorem C08_position_bit_mutation : forall (dsha : bytes -> bytes) br pos' pos leaf k,
  (k < length br)%nat ->
  Z.testbit pos' (Z.of_nat k) = negb (Z.testbit pos (Z.of_nat k)) ->
  (forall j, (j < length br)%nat -> j <> k -> Z.testbit pos' (Z.of_nat j) = Z.testbit pos (Z.of_nat j)) ->
  fold_branch dsha br pos' leaf = fold_branch dsha br pos leaf ->
  (nth k br [] ++ fold_branch dsha (firstn k br) pos leaf =
   fold_branch dsha (firstn k br) pos leaf ++ nth k br []) \/
  exists x y, collision dsha br br pos' pos leaf leaf = Some (x, y) /\ x <> y /\ dsha x = dsha y.
Proof. exact position_bit_mutation. Qed.
Print Assumptions C08_position_bit_mutation.

Theorem C08_same_input_means_same_node : forall b w : bytes, length b = length w -> b ++ w = w ++ b -> b = w.
Proof. exact (fun b w L H => proj1 (Lists.app_inv_len b w w b L H)). Qed.
Print Assumptions C08_same_input_means_same_node.

(* The FOLD does not look at position bits at or above the branch length; since fix 3419b3f
   maybe_verify refuses such positions before folding (C08_verified_position_fits). *)
Theorem C08_high_position_bits_ignored : forall (dsha : bytes -> bytes) br p1 p2 w,
  (p1 mod 2 ^ Z.of_nat (length br) = p2 mod 2 ^ Z.of_nat (length br))%Z ->
  fold_branch dsha br p1 w = fold_branch dsha br p2 w.
Proof. exact fold_branch_mod. Qed.
Print Assumptions C08_high_position_bits_ignored.

(* The generated branch is long enough to address every transaction of the block: n <= 2^len. *)
Theorem C08_branch_covers_block : forall (dsha : bytes -> bytes) l idx,
  (1 <= length l)%nat -> (length l <= 2 ^ length (branch dsha l idx))%nat.
Proof. exact (fun dsha l idx _ => branch_length_covers dsha l idx). Qed.
Print Assumptions C08_branch_covers_block.

(* Branch length +1 (partial: characterisation only).  Accepting a proof extended by one sibling e
   against the root r of the original proof means dsha (e ++ r) = r or dsha (r ++ e) = r, a hash
   input that contains its own hash.  Missing: without an assumption on dsha this cannot be turned
   into a collision, so "fails" is not derived; branch length -1 is the same equation read the other
   way round. *)
Theorem C08_length_mutation_partial : forall (dsha : bytes -> bytes) br e pos leaf,
  fold_branch dsha (br ++ [e]) pos leaf =
  dsha (combine (Z.testbit pos (Z.of_nat (length br))) e (fold_branch dsha br pos leaf)).
Proof. exact (fun dsha br e pos leaf => fold_from_app dsha br 0 [e] pos leaf). Qed.
Print Assumptions C08_length_mutation_partial.

(* The verified flag of a not yet verified transaction is set iff 0 < height < len(headers) and the
   dict in use carries 'merkle' and 'pos', the siblings decode, the fold from dsha(raw tx) equals
   bytes 36..67 of the header stored at that height, and the position fits the branch
   (0 <= pos < 2^len(branch), fix 3419b3f). *)
Theorem C08_verified_iff : forall (dsha : bytes -> bytes) headers st raw h arg net,
  t_verified st = false ->
  (t_verified (mv_state (maybe_verify dsha headers st raw h arg net)) = true <->
   (0 < h < Z.of_nat (length headers))%Z /\
   exists brs pos br, m_merkle (effective arg net) = Some brs /\ m_pos (effective arg net) = Some pos /\
     decode_branches brs = Some br /\
     fold_branch dsha br pos (dsha raw) = header_root_raw (nth (Z.to_nat h) headers []) /\
     pos_fits brs pos = true).
Proof. exact verified_iff. Qed.
Print Assumptions C08_verified_iff.

(* For every previous state: when the call evaluates a proof the flag is OVERWRITTEN by the result
   of the comparison; in every other case (unknown height, no 'merkle' key, exception) it keeps its
   previous value. *)
Theorem C08_verified_char : forall (dsha : bytes -> bytes) headers st raw h arg net,
  let r := maybe_verify dsha headers st raw h arg net in
  (in_range headers h /\ mv_outcome r = RetTx ->
     (t_verified (mv_state r) = true <-> proof_checks dsha headers raw h (effective arg net))) /\
  (~ (in_range headers h /\ mv_outcome r = RetTx) -> t_verified (mv_state r) = t_verified st).
Proof. exact verified_char. Qed.
Print Assumptions C08_verified_char.

(* Heights without a header (h <= 0 or h >= len(headers)): nothing but tx.height changes, the
   network is not asked. *)
Theorem C08_unknown_height_never_verified : forall (dsha : bytes -> bytes) headers st raw h arg net,
  ~ (0 < h < Z.of_nat (length headers))%Z ->
  let r := maybe_verify dsha headers st raw h arg net in
  t_verified (mv_state r) = t_verified st /\ t_position (mv_state r) = t_position st /\
  mv_outcome r = RetTx /\ mv_fetched r = false.
Proof. exact unknown_height_never_verified. Qed.
Print Assumptions C08_unknown_height_never_verified.

(* The supplied position (and always the height) is recorded on the transaction when the proof is
   evaluated; a position the branch cannot address (negative, or >= 2^len(branch)) is NOT recorded and
   the flag is forced to False (fix 3419b3f; before it, bits at or above the branch length were ignored
   and the bogus value was stored). *)
Theorem C08_position_recorded : forall (dsha : bytes -> bytes) headers st raw h arg net,
  let r := maybe_verify dsha headers st raw h arg net in
  in_range headers h -> mv_outcome r = RetTx ->
  exists brs pos, m_merkle (effective arg net) = Some brs /\ m_pos (effective arg net) = Some pos /\
    (if pos_fits brs pos then t_position (mv_state r) = pos
     else t_position (mv_state r) = t_position st /\ t_verified (mv_state r) = false).
Proof. exact position_recorded. Qed.
Print Assumptions C08_position_recorded.

(* Altering the position beyond the branch: a verified transaction's recorded position is the supplied
   one and lies in [0, 2^len(branch)). *)
Theorem C08_verified_position_fits : forall (dsha : bytes -> bytes) headers st raw h arg net,
  t_verified st = false ->
  t_verified (mv_state (maybe_verify dsha headers st raw h arg net)) = true ->
  exists brs, m_merkle (effective arg net) = Some brs /\
    m_pos (effective arg net) = Some (t_position (mv_state (maybe_verify dsha headers st raw h arg net))) /\
    (0 <= t_position (mv_state (maybe_verify dsha headers st raw h arg net)) < 2 ^ Z.of_nat (length brs))%Z.
Proof. exact verified_position_fits. Qed.
Print Assumptions C08_verified_position_fits.

Theorem C08_height_recorded : forall (dsha : bytes -> bytes) headers st raw h arg net,
  t_height (mv_state (maybe_verify dsha headers st raw h arg net)) = h.
Proof. exact height_recorded. Qed.
Print Assumptions C08_height_recorded.

(* End to end: the genuine proof of transaction idx of a block whose root is in the header at a
   known height is accepted through maybe_verify, with position idx recorded. *)
Theorem C08_genuine_verified : forall (dsha : bytes -> bytes) headers st raws idx h arg net r,
  (idx < length raws)%nat -> in_range headers h ->
  merkle_root dsha (map dsha raws) = Some r ->
  header_root_raw (nth (Z.to_nat h) headers []) = r ->
  effective arg net = {| m_merkle := Some (map wire (branch dsha (map dsha raws) idx));
                         m_pos := Some (Z.of_nat idx) |} ->
  let res := maybe_verify dsha headers st (nth idx raws []) h arg net in
  t_verified (mv_state res) = true /\ t_position (mv_state res) = Z.of_nat idx /\
  t_height (mv_state res) = h /\ mv_outcome res = RetTx.
Proof. exact genuine_verified. Qed.
Print Assumptions C08_genuine_verified.

(* Altering the height: the same proof verifies at another height only if that height has a header
   and this header carries the same Merkle root. *)
Theorem C08_height_mutation : forall (dsha : bytes -> bytes) headers st raw h h' arg net,
  t_verified st = false ->
  t_verified (mv_state (maybe_verify dsha headers st raw h arg net)) = true ->
  t_verified (mv_state (maybe_verify dsha headers st raw h' arg net)) = true ->
  in_range headers h' /\
  header_root_raw (nth (Z.to_nat h') headers []) = header_root_raw (nth (Z.to_nat h) headers []).
Proof. exact height_mutation. Qed.
Print Assumptions C08_height_mutation.

(* End-to-end soundness: if the header at height h carries the root of the block made of raws and a
   not yet verified transaction comes out verified, then the dict in use carried a decodable branch and
   a position such that, whenever the position's low bits name index j of the block and the branch has
   the shape of the block's own branch for j, the transaction's hash IS the hash of the block's j-th
   transaction -- or [collision] exhibits a collision. *)
Theorem C08_verified_tx_in_block : forall (dsha : bytes -> bytes) headers st raw h arg net raws r,
  t_verified st = false ->
  t_verified (mv_state (maybe_verify dsha headers st raw h arg net)) = true ->
  merkle_root dsha (map dsha raws) = Some r ->
  header_root_raw (nth (Z.to_nat h) headers []) = r ->
  exists brs pos br,
    m_merkle (effective arg net) = Some brs /\ m_pos (effective arg net) = Some pos /\
    decode_branches brs = Some br /\
    forall j, (j < length raws)%nat ->
      (pos mod 2 ^ Z.of_nat (length br) = Z.of_nat j)%Z ->
      same_widths br (branch dsha (map dsha raws) j) ->
      (dsha raw = dsha (nth j raws []) /\ br = branch dsha (map dsha raws) j) \/
      exists x y, collision dsha br (branch dsha (map dsha raws) j) pos (Z.of_nat j) (dsha raw) (dsha (nth j raws []))
                    = Some (x, y) /\ x <> y /\ dsha x = dsha y.
Proof. exact verified_tx_in_block. Qed.
Print Assumptions C08_verified_tx_in_block.

(* Why a flipped position bit can stay accepted (the reading of "altering the position"): a block
   with an odd number n >= 3 of transactions and the same block with its last transaction repeated
   have the SAME Merkle root, so position n of the longer block is a genuine proof for the same header. *)
Theorem C08_dup_last_same_root : forall (dsha : bytes -> bytes) (l : list bytes),
  Nat.odd (length l) = true -> (3 <= length l)%nat ->
  merkle_root dsha (l ++ [last l []]) = merkle_root dsha l.
Proof. exact dup_last_same_root. Qed.
Print Assumptions C08_dup_last_same_root.

(* ---------- the cache around maybe_verify_transaction (request_transactions(cached=True), update_headers) ---------- *)
(* For EVERY sequence of cached requests, header extensions and reorganisations, starting from an empty
   cache: a request that is answered from the cache returns a transaction flagged verified whose stored
   bytes and proof check against the header the wallet holds NOW at that height. *)
Theorem C08_cache_hit_sound : forall (dsha : bytes -> bytes) headers0 ops key raw h arg net st,
  let s := final dsha {| w_headers := headers0; w_cache := [] |} ops in
  snd (request dsha s key raw h arg net) = Hit st ->
  t_verified st = true /\
  exists e, lookup key (w_cache s) = Some (Some e) /\ c_st e = st /\
            (0 < t_height st < Z.of_nat (length (w_headers s)))%Z /\
            proof_checks dsha (w_headers s) (c_raw e) (t_height st) (c_resp e).
Proof. exact (fun dsha headers0 ops => cache_hit_sound dsha _ (run_inv dsha ops _ (inv_empty dsha headers0))). Qed.
Print Assumptions C08_cache_hit_sound.

(* ... and the same for whatever sits in the cache after a request (served or downloaded). *)
Theorem C08_cache_entries_sound : forall (dsha : bytes -> bytes) headers0 ops key raw h arg net,
  let s := final dsha {| w_headers := headers0; w_cache := [] |} ops in
  let s' := fst (request dsha s key raw h arg net) in
  forall e, lookup key (w_cache s') = Some (Some e) -> entry_ok dsha (w_headers s') e.
Proof. exact (fun dsha headers0 ops key raw h arg net => cache_entries_sound dsha _ (run_inv dsha ops _ (inv_empty dsha headers0)) key raw h arg net key). Qed.
Print Assumptions C08_cache_entries_sound.

(* An item cached while it could not be verified (e.g. its header was not known yet) never answers a
   request: the transaction is downloaded and checked again ... *)
Theorem C08_cached_unverified_is_refetched : forall (dsha : bytes -> bytes) s key raw h arg net e,
  lookup key (w_cache s) = Some (Some e) -> t_verified (c_st e) = false ->
  snd (request dsha s key raw h arg net) =
  Fetched (mv_state (maybe_verify dsha (w_headers s) (fresh h) raw h arg net))
          (mv_outcome (maybe_verify dsha (w_headers s) (fresh h) raw h arg net)).
Proof. exact unverified_item_is_refetched. Qed.
Print Assumptions C08_cached_unverified_is_refetched.

(* ... so a genuine proof presented through the cached path at a height that now has the block's header
   always comes back verified, whatever the cache held. *)
Theorem C08_genuine_request_verified : forall (dsha : bytes -> bytes) s key raws idx h arg net r,
  (idx < length raws)%nat -> in_range (w_headers s) h ->
  merkle_root dsha (map dsha raws) = Some r ->
  header_root_raw (nth (Z.to_nat h) (w_headers s) []) = r ->
  effective arg net = {| m_merkle := Some (map wire (branch dsha (map dsha raws) idx));
                         m_pos := Some (Z.of_nat idx) |} ->
  match snd (request dsha s key (nth idx raws []) h arg net) with
  | Hit st => t_verified st = true
  | Fetched st out => t_verified st = true /\ t_height st = h /\ t_position st = Z.of_nat idx /\ out = RetTx
  end.
Proof. exact genuine_request_verified. Qed.
Print Assumptions C08_genuine_request_verified.

(* ---------- checkpointed header chunks fetched on demand (Headers.get -> ensure_chunk_at -> fetch_chunk) ---------- *)
(* Starting with every checkpointed chunk missing, for EVERY sequence of verification attempts and WHATEVER
   the server answers to the chunk getter: an attempt that ends with the transaction flagged verified
   read its header from a chunk c whose hash equals the built-in checkpoint of that chunk, and the proof
   checks against that header; an attempt that ends in "Checkpoint mismatch" leaves the flag false. *)
Theorem C08_chunk_attempts_sound : forall (dsha : bytes -> bytes) (csize : nat) (cps : list bytes) l,
  Forall2 (fun a o =>
    match o with
    | AttDone r _ =>
        t_verified (mv_state r) = true ->
        exists c, nth_error cps (Z.to_nat (a_height a) / csize) = Some (dsha (concat c)) /\
                  in_range (table csize cps (Z.to_nat (a_height a) / csize) c) (a_height a) /\
                  proof_checks dsha (table csize cps (Z.to_nat (a_height a) / csize) c) (a_raw a) (a_height a)
                               (effective (a_arg a) (a_net a))
    | AttMismatch st => t_verified st = false
    end) l (snd (attempts dsha csize cps [] l)).
Proof. exact (fun dsha csize cps l => attempts_ok dsha csize cps l [] (Forall_nil _)). Qed.
Print Assumptions C08_chunk_attempts_sound.

(* The same after a RESTART on a header file with arbitrary content (edited header inside a chunk, torn
   write, anything): Headers.open keeps a checkpointed chunk only if the stored bytes hash to its
   checkpoint, so every later verified result again read a header of a checkpoint-matching chunk. *)
Theorem C08_chunk_reopen_sound : forall (dsha : bytes -> bytes) (csize : nat) (cps : list bytes) disk l,
  Forall2 (att_ok dsha csize cps) l (snd (attempts dsha csize cps (reopen dsha cps disk) l)).
Proof. exact (fun dsha csize cps disk l => attempts_ok dsha csize cps l _ (reopen_legit dsha cps disk)). Qed.
Print Assumptions C08_chunk_reopen_sound.

(* the header such a verification reads at height h is header (h - k*csize) of chunk k *)
Theorem C08_chunk_table_reads_chunk : forall (dsha : bytes -> bytes) (csize : nat) (cps : list bytes) k c h d,
  (k * csize <= h < k * csize + length c)%nat -> (h < total csize cps)%nat ->
  nth h (table csize cps k c) d = nth (h - k * csize) c d.
Proof. exact nth_table. Qed.
Print Assumptions C08_chunk_table_reads_chunk.

(* ---------- the leaf of a witness-serialised transaction ---------- *)
(* The txid preimage of the witness encoding of (t, flag, witnesses), trailing bytes included, is the
   legacy encoding of t -- for every well-formed t, i.e. every script length and every number of inputs
   and outputs (252, 253, 254, 65535, 65536, ...). *)
Theorem C08_witness_txid_preimage : forall t flag wits rest,
  wf_tx t -> wf_wits t wits -> (0 < flag < 256)%N ->
  txid_preimage (serialize_segwit t flag wits ++ rest) = Some (serialize t).
Proof. exact preimage_segwit. Qed.
Print Assumptions C08_witness_txid_preimage.

(* End to end: a block whose idx-th transaction has the legacy encoding of t; the server returns t
   witness-serialised together with the genuine proof: verified, position idx recorded. *)
Theorem C08_witness_tx_genuine_verified : forall (dsha : bytes -> bytes) headers st pres idx t flag wits rest h arg net r,
  wf_tx t -> wf_wits t wits -> (0 < flag < 256)%N ->
  (idx < length pres)%nat -> nth idx pres [] = serialize t ->
  in_range headers h ->
  merkle_root dsha (map dsha pres) = Some r ->
  header_root_raw (nth (Z.to_nat h) headers []) = r ->
  effective arg net = {| m_merkle := Some (map wire (branch dsha (map dsha pres) idx));
                         m_pos := Some (Z.of_nat idx) |} ->
  exists res, maybe_verify_raw dsha headers st (serialize_segwit t flag wits ++ rest) h arg net = Some res /\
    t_verified (mv_state res) = true /\ t_position (mv_state res) = Z.of_nat idx /\
    t_height (mv_state res) = h /\ mv_outcome res = RetTx.
Proof. exact witness_tx_genuine_verified. Qed.
Print Assumptions C08_witness_tx_genuine_verified.

(* ---------- restarts and the persisted verdict ---------- *)
(* A restart (close writes the chain held in memory, a new process opens the file) leaves exactly the
   header list the last extension / reorganisation produced, for every history -- in particular after a
   reorganisation that did not change the chain length. *)
Theorem C08_restart_keeps_validated_headers : forall (dsha : bytes -> bytes) headers0 ops,
  w_headers (final dsha {| w_headers := headers0; w_cache := [] |} (ops ++ [OpRestart])) =
  w_headers (final dsha {| w_headers := headers0; w_cache := [] |} ops).
Proof. exact (fun dsha headers0 ops => f_equal w_headers (final_app dsha _ ops [OpRestart])). Qed.
Print Assumptions C08_restart_keeps_validated_headers.

Theorem C08_reorg_survives_restart : forall (dsha : bytes -> bytes) headers0 ops fork newh,
  w_headers (final dsha {| w_headers := headers0; w_cache := [] |} (ops ++ [OpReorg fork newh; OpRestart])) =
  firstn fork (w_headers (final dsha {| w_headers := headers0; w_cache := [] |} ops)) ++ newh.
Proof. exact (fun dsha headers0 ops fork newh => f_equal w_headers (final_app dsha _ ops [OpReorg fork newh; OpRestart])). Qed.
Print Assumptions C08_reorg_survives_restart.

(* The database row read back after a history sync is exactly the verdict of THAT verification (fresh
   transaction, the height the server reports now): earlier verdicts leave no trace. *)
Theorem C08_db_row_is_latest_verdict : forall (dsha : bytes -> bytes) s key raw h arg net,
  let r := maybe_verify dsha (d_headers s) (fresh h) raw h arg net in
  (mv_outcome r = RetTx \/ mv_outcome r = RetNone) ->
  row_lookup key (d_rows (dstep dsha s (DSync key raw h arg net))) =
  Some {| c_raw := raw; c_resp := effective arg net; c_st := mv_state r |}.
Proof. exact row_is_latest_verdict. Qed.
Print Assumptions C08_db_row_is_latest_verdict.

(* So a transaction once verified at height A and re-synced at a height that has no header, or with a
   branch that does not lead to that header's root, is stored unverified at the new height. *)
Theorem C08_db_resync_without_proof_unverifies : forall (dsha : bytes -> bytes) s key raw h arg net,
  let r := maybe_verify dsha (d_headers s) (fresh h) raw h arg net in
  (mv_outcome r = RetTx \/ mv_outcome r = RetNone) ->
  ~ (in_range (d_headers s) h /\ proof_checks dsha (d_headers s) raw h (effective arg net)) ->
  exists e, row_lookup key (d_rows (dstep dsha s (DSync key raw h arg net))) = Some e /\
            t_verified (c_st e) = false /\ t_height (c_st e) = h.
Proof. exact resync_without_proof_unverifies. Qed.
Print Assumptions C08_db_resync_without_proof_unverifies.

(* For EVERY sequence of history syncs, header extensions and restarts from an empty table, a stored row
   flagged verified has a header at its height and its proof leads to that header's root. *)
Theorem C08_db_rows_sound : forall (dsha : bytes -> bytes) headers0 ops key e,
  let s := drun dsha {| d_headers := headers0; d_rows := [] |} ops in
  row_lookup key (d_rows s) = Some e -> t_verified (c_st e) = true ->
  in_range (d_headers s) (t_height (c_st e)) /\
  proof_checks dsha (d_headers s) (c_raw e) (t_height (c_st e)) (c_resp e).
Proof. exact db_rows_sound. Qed.
Print Assumptions C08_db_rows_sound.

(* ---------- non-vacuity (each a closed computation: tuples compared component-wise) ---------- *)
(* a 5-leaf tree (two odd levels), index 4: branch of 3 siblings, fold reaches the root *)
Example C08_ex_genuine :
  let l := map leaf_n [1; 2; 3; 4; 5]%N in
  (length (branch toy_hash l 4), Some (fold_branch toy_hash (branch toy_hash l 4) 4 (nth 4 l []))) =
  (3%nat, merkle_root toy_hash l).
Proof. exact ex_genuine. Qed.

(* hypotheses of C08_binding are inhabited and the collision it returns is explicit *)
Example C08_ex_binding :
  (fold_branch const_hash [leaf_n 1] 0 (leaf_n 9),
   collision const_hash [leaf_n 1] [leaf_n 2] 0 0 (leaf_n 9) (leaf_n 9)) =
  (fold_branch const_hash [leaf_n 2] 0 (leaf_n 9),
   Some (leaf_n 9 ++ leaf_n 1, leaf_n 9 ++ leaf_n 2)).
Proof. vm_compute. reflexivity. Qed.

(* the duplicated-last-node exception is real even for a collision-free hash (the identity):
   block of 3, index 2, branch [l2; l0++l1]: the first sibling is the leaf itself, position 2 folds
   to the root, position 3 (bit 0 flipped) folds to the same root, and no collision exists *)
Example C08_ex_dup_sibling :
  let l := map leaf_n [1; 2; 3]%N in
  let br := branch id_hash l 2 in
  (nth 0 br [], Some (fold_branch id_hash br 2 (nth 2 l [])), fold_branch id_hash br 3 (nth 2 l []),
   collision id_hash br br 3 2 (nth 2 l []) (nth 2 l [])) =
  (nth 2 l [], merkle_root id_hash l, fold_branch id_hash br 2 (nth 2 l []), None).
Proof. vm_compute. reflexivity. Qed.

(* maybe_verify on a 3-header table: genuine proof at height 2 verified with position recorded;
   the same call at height 3 (= len headers) and at height 0 leaves the flag alone; another
   transaction with this proof (dict fetched from the network) is evaluated and not verified *)
Example C08_ex_maybe_verify :
  let raws := map leaf_n [1; 2; 3]%N in
  let l := map toy_hash raws in
  let hdrs := [header_with_root (leaf_n 0); header_with_root (leaf_n 0);
               header_with_root (match merkle_root toy_hash l with Some r => r | None => [] end)] in
  let m := {| m_merkle := Some (map wire (branch toy_hash l 2)); m_pos := Some 2%Z |} in
  let st := {| t_height := (-2)%Z; t_position := (-1)%Z; t_verified := false |} in
  (maybe_verify toy_hash hdrs st (nth 2 raws []) 2 (Some m) m,
   maybe_verify toy_hash hdrs st (nth 2 raws []) 3 (Some m) m,
   maybe_verify toy_hash hdrs st (nth 2 raws []) 0 (Some m) m,
   maybe_verify toy_hash hdrs st (nth 1 raws []) 2 None m) =
  (({| t_height := 2; t_position := 2; t_verified := true |}, RetTx, false),
   ({| t_height := 3; t_position := (-1)%Z; t_verified := false |}, RetTx, false),
   ({| t_height := 0; t_position := (-1)%Z; t_verified := false |}, RetTx, false),
   ({| t_height := 2; t_position := 2; t_verified := false |}, RetTx, true)).
Proof. exact ex_maybe_verify. Qed.

(* ---------- legacy claim_proofs.verify_proof: CORRESPONDENCE ONLY, no theorem ----------
   the model (Model/C08_Claim.v) is only run against the real function; this closed computation just
   shows the model accepts a one-node proof of the empty name and rejects it for another name *)
Example C08_ex_legacy_claim_model :
  let th := leaf_n 7 in
  let pf := {| p_nodes := [{| n_children := []; n_value_hash := None |}];
               p_txhash := Some (wire th); p_nout := Some 1%Z; p_takeover := Some 5%Z |} in
  let root := match outpoint_hash toy_hash th 1 5 with Some oh => toy_hash oh | None => [] end in
  (verify_proof toy_hash pf (wire root) [], verify_proof toy_hash pf (wire root) [x61],
   verify_proof toy_hash pf (wire (leaf_n 1)) []) = (CpTrue, CpInvalid, CpInvalid).
Proof. exact ex_legacy_claim_model. Qed.

(* cache: verified at height 2, served from the cache after an extension, downloaded again (and now
   rejected) after a reorganisation whose lowest replaced height is 2; a transaction first requested
   above the tip is cached unverified and verified on the next request once its header arrived *)
Example C08_ex_cache :
  let raws := map leaf_n [1; 2; 3]%N in
  let l := map toy_hash raws in
  let root := match merkle_root toy_hash l with Some r => r | None => [] end in
  let m := {| m_merkle := Some (map wire (branch toy_hash l 1)); m_pos := Some 1%Z |} in
  let req := OpRequest (leaf_n 77) (nth 1 raws []) 2 (Some m) m in
  let h0 := [header_with_root (leaf_n 0); header_with_root (leaf_n 0)] in
  snd (run toy_hash {| w_headers := h0; w_cache := [] |}
         [req; OpExtend [header_with_root root]; req; OpExtend [header_with_root (leaf_n 9)]; req;
          OpReorg 2 [header_with_root (leaf_n 5); header_with_root (leaf_n 6)]; req]) =
  [Some (Fetched {| t_height := 2; t_position := (-1)%Z; t_verified := false |} RetTx); None;
   Some (Fetched {| t_height := 2; t_position := 1; t_verified := true |} RetTx); None;
   Some (Hit {| t_height := 2; t_position := 1; t_verified := true |}); None;
   Some (Fetched {| t_height := 2; t_position := 1; t_verified := false |} RetTx)].
Proof. exact ex_cache. Qed.

(* chunks of 2 headers, one checkpoint: a lying server is refused on every attempt (and nothing is
   stored), the honest chunk is accepted, after which the forged proof is evaluated and rejected *)
Example C08_ex_chunk :
  let raws := map leaf_n [1; 2; 3]%N in
  let l := map toy_hash raws in
  let root := match merkle_root toy_hash l with Some r => r | None => [] end in
  let real := [header_with_root (leaf_n 0); header_with_root (leaf_n 4)] in
  let fake := [header_with_root (leaf_n 0); header_with_root root] in
  let m := {| m_merkle := Some (map wire (branch toy_hash l 1)); m_pos := Some 1%Z |} in
  let att c := {| a_served := c; a_raw := nth 1 raws []; a_height := 1; a_arg := Some m; a_net := m |} in
  attempts toy_hash 2 [toy_hash (concat real)] [] [att fake; att fake; att real; att fake] =
  ([(0%nat, real)],
   [AttMismatch {| t_height := 1; t_position := (-1)%Z; t_verified := false |};
    AttMismatch {| t_height := 1; t_position := (-1)%Z; t_verified := false |};
    AttDone ({| t_height := 1; t_position := 1; t_verified := false |}, RetTx, false) true;
    AttDone ({| t_height := 1; t_position := 1; t_verified := false |}, RetTx, false) false]).
Proof. exact ex_chunk. Qed.

(* database row: verified at height 2, re-synced at height 7 (no header): stored (7, unverified) *)
Example C08_ex_db_row :
  let raws := map leaf_n [1; 2; 3]%N in
  let l := map toy_hash raws in
  let root := match merkle_root toy_hash l with Some r => r | None => [] end in
  let m := {| m_merkle := Some (map wire (branch toy_hash l 1)); m_pos := Some 1%Z |} in
  let h0 := [header_with_root (leaf_n 0); header_with_root (leaf_n 0); header_with_root root] in
  let s1 := drun toy_hash {| d_headers := h0; d_rows := [] |} [DSync (leaf_n 77) (nth 1 raws []) 2 (Some m) m] in
  let s2 := drun toy_hash s1 [DSync (leaf_n 77) (nth 1 raws []) 7 (Some m) m; DRestart] in
  (map (fun kv => c_st (snd kv)) (d_rows s1), map (fun kv => c_st (snd kv)) (d_rows s2)) =
  ([{| t_height := 2; t_position := 1; t_verified := true |}],
   [{| t_height := 7; t_position := (-1)%Z; t_verified := false |}]).
Proof. exact ex_db_row. Qed.

(* REFUTED old behaviour (before fix af7a9e2): when a competing tip of the same height replaced header 2
   without a rewind and the cache was kept, the cached request was a Hit flagged verified although the
   stored proof no longer leads to the root of the header now held at height 2 *)
Example C08_cache_kept_on_replacement_refuted :
  let raws := map leaf_n [1; 2; 3]%N in
  let l := map toy_hash raws in
  let root := match merkle_root toy_hash l with Some r => r | None => [] end in
  let m := {| m_merkle := Some (map wire (branch toy_hash l 1)); m_pos := Some 1%Z |} in
  let h0 := [header_with_root (leaf_n 0); header_with_root (leaf_n 0); header_with_root root] in
  let s1 := final toy_hash {| w_headers := h0; w_cache := [] |} [OpRequest (leaf_n 77) (nth 1 raws []) 2 (Some m) m] in
  let s_old := old_replace s1 2 [header_with_root (leaf_n 5)] in
  let s_new := final toy_hash s1 [OpReplace 2 [header_with_root (leaf_n 5)]] in
  (snd (request toy_hash s_old (leaf_n 77) (nth 1 raws []) 2 (Some m) m),
   bytes_eqb (fold_branch toy_hash (branch toy_hash l 1) 1 (toy_hash (nth 1 raws [])))
             (header_root_raw (nth 2 (w_headers s_old) [])),
   snd (request toy_hash s_new (leaf_n 77) (nth 1 raws []) 2 (Some m) m)) =
  (Hit {| t_height := 2; t_position := 1; t_verified := true |}, false,
   Fetched {| t_height := 2; t_position := 1; t_verified := false |} RetTx).
Proof. exact cache_kept_on_replacement_refuted. Qed.

(* position must fit the branch: the fold alone would still reach the root with position 2+4 (bit 2 is
   not consumed by a 2-sibling branch), maybe_verify refuses it and does not record it *)
Example C08_ex_position_must_fit :
  let raws := map leaf_n [1; 2; 3]%N in
  let l := map toy_hash raws in
  let root := match merkle_root toy_hash l with Some r => r | None => [] end in
  let hdrs := [header_with_root (leaf_n 0); header_with_root root] in
  let m := {| m_merkle := Some (map wire (branch toy_hash l 2)); m_pos := Some 6%Z |} in
  let st := {| t_height := (-2)%Z; t_position := (-1)%Z; t_verified := false |} in
  (bytes_eqb (fold_branch toy_hash (branch toy_hash l 2) 6 (nth 2 l [])) root,
   maybe_verify toy_hash hdrs st (nth 2 raws []) 1 (Some m) m) =
  (true, ({| t_height := 1; t_position := (-1)%Z; t_verified := false |}, RetTx, false)).
Proof. exact ex_position_must_fit. Qed.

(* the sample witness transaction of C05: its preimage is the legacy encoding *)
Example C08_ex_witness_preimage :
  txid_preimage (serialize_segwit sample_tx 1 sample_wits) = Some (serialize sample_tx).
Proof. vm_compute. reflexivity. Qed.
