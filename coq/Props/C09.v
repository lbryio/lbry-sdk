(* C09 property theorems: statements only, each closed by [exact].
   A run is ANY list of steps (Server / Begin a / Save a / SetHist a / Gap a / GapChain c / Restart) accepted by [run]:
   steps of different addresses interleave freely, the per-address lock is the only ordering constraint;
   a Server step is accepted only for a consistent state (unique non-null ids, parents present, listed in
   the canonical order: confirmed by (height, id), then mempool by id) that retracts nothing.
   Restart = the wallet process dies at any point (all running updates and their locks are gone, the database keeps
   what was committed) and starts again, ensuring the gap of every chain; [no_server ops] excludes both a server
   change and a restart. *)
From Coq Require Import NArith ZArith List Bool.
From LV Require Import Model.C09 Proofs.C09.
Import ListNotations.

(* Rows only grow: along any run no txo / txi row disappears, no transaction id leaves the tx table and
   no generated address is forgotten. *)
Theorem C09_rows_monotone : forall ops s s', run s ops = Some s' ->
  (forall r, In r (txo_t s) -> In r (txo_t s')) /\ (forall r, In r (txi_t s) -> In r (txi_t s')) /\
  (forall p, In p (ids (tx_t s)) -> In p (ids (tx_t s'))) /\ (forall a, known s a = true -> known s' a = true).
Proof. exact run_le. Qed.
Print Assumptions C09_rows_monotone.

(* Nothing is invented: in every reachable state each txo row is an output of a transaction the server
   has, each txi row is an input of such a transaction spending an output that pays the row's address,
   each stored transaction is the server's. *)
Theorem C09_rows_sound : forall g ops s, run (init g) ops = Some s ->
  (forall r, In r (txo_t s) -> exists t h, In (t, h) (server s) /\ r_txid r = t_id t /\
       nth_error (t_outs t) (r_pos r) = Some (r_out r) /\ r_type r = txo_type t (r_pos r) (r_out r)) /\
  (forall i, In i (txi_t s) -> exists t h t' h' o, In (t, h) (server s) /\ i_txid i = t_id t /\
       nth_error (t_ins t) (i_ipos i) = Some (i_prev i, i_ppos i) /\ In (t', h') (server s) /\ t_id t' = i_prev i /\
       nth_error (t_outs t') (i_ppos i) = Some o /\ pays (i_addr i) o = true) /\
  (forall x, In x (tx_t s) -> exists h, In (fst x, h) (server s)).
Proof. exact rows_sound. Qed.
Print Assumptions C09_rows_sound.

(* One address: after an update_history of [a] that was notified of the current server status began at some
   point of a stretch [ops2] without server change (arbitrary steps of other addresses interleaved, stale or
   duplicate notifications of [a] included), as soon as it has written the history (and ever after, lock
   released or not) the stored history of [a] IS the server's history, as a list. *)
Theorem C09_address_history : forall g ops1 ops2 s1 s2 a,
  run (init g) ops1 = Some s1 -> run s1 ops2 = Some s2 -> no_server ops2 ->
  In (Begin a (server_hist (server s1) a)) ops2 ->
  server s2 = server s1 /\
  (aget (pend s2) a = Some HistSet \/ aget (pend s2) a = None -> get_hist s2 a = server_hist (server s2) a).
Proof.
  exact (fun g ops1 ops2 s1 s2 a R1 => history_synced ops2 s1 s2 a (reach_hinv g ops1 s1 R1)).
Qed.
Print Assumptions C09_address_history.

(* ... and whenever the stored history of [a] contains the server's, every output paying [a] and every spend
   of such an output by a transaction the server knows is recorded. *)
Theorem C09_address_complete : forall g ops s a, run (init g) ops = Some s ->
  incl (server_hist (server s) a) (get_hist s a) ->
  (forall t h pos o, In (t, h) (server s) -> nth_error (t_outs t) pos = Some o -> o_kind o = PKH a ->
     has_txo (txo_t s) (t_id t) pos = true) /\
  (forall t h k p i t' h' o, In (t, h) (server s) -> nth_error (t_ins t) k = Some (p, i) ->
     In (t', h') (server s) -> t_id t' = p -> nth_error (t_outs t') i = Some o -> o_kind o = PKH a ->
     has_txi (txi_t s) p i = true).
Proof. exact address_recorded. Qed.
Print Assumptions C09_address_complete.

(* Convergence, schedule part: after the last server change every generated address has had one sync begun
   with the current status, in any order and interleaving, and nothing is in flight: every stored history
   equals the server's and (hence) every address is in sync. *)
Theorem C09_all_synced : forall g ops1 ops2 s1 s2,
  run (init g) ops1 = Some s1 -> run s1 ops2 = Some s2 -> no_server ops2 -> quiescent s2 ->
  (forall a, known s2 a = true -> In (Begin a (server_hist (server s1) a)) ops2) ->
  in_sync s2 /\ forall a, known s2 a = true -> get_hist s2 a = server_hist (server s2) a.
Proof.
  exact (fun g ops1 ops2 s1 s2 R1 => all_synced ops2 s1 s2 (reach_hinv g ops1 s1 R1)).
Qed.
Print Assumptions C09_all_synced.

(* Convergence, state part: in a reachable state where every generated address is in sync, the wallet's unspent
   rows are exactly the specification set: outputs of server transactions paying a generated address of the
   account's chains that no server transaction spends. *)
Theorem C09_converges : forall g ops s, run (init g) ops = Some s -> in_sync s ->
  forall cs r, In r (utxos s cs) <-> In r (spec_utxos (server s) s cs).
Proof. exact conv_utxos. Qed.
Print Assumptions C09_converges.

(* ... hence the balances the wallet reports are the sums over that specification set: spendable funds
   (types other / purchase), value locked in claims, value locked in supports, and the total, each apart. *)
Theorem C09_balance : forall g ops s, run (init g) ops = Some s -> in_sync s -> forall cs,
  balance s cs = sum_amount (filter (fun r => spendable_type (r_type r)) (spec_utxos (server s) s cs)) /\
  claims_total s cs = sum_amount (filter (fun r => claim_type (r_type r)) (spec_utxos (server s) s cs)) /\
  supports_total s cs = sum_amount (filter (fun r => N.eqb (r_type r) 3) (spec_utxos (server s) s cs)) /\
  total s cs = sum_amount (spec_utxos (server s) s cs).
Proof.
  exact (fun g ops s R SY cs =>
           let (A, B) := balance_spec g ops s R SY cs in conj (A _) (conj (A _) (conj (A _) B))).
Qed.
Print Assumptions C09_balance.

(* Gap: at a quiescent in-sync point, if the server has history for the n'-th address of a chain then every
   address up to n' + gap has been generated (hence, by C09_converges, funds sent there are found). *)
Theorem C09_gap_found : forall g ops s, run (init g) ops = Some s -> quiescent s -> in_sync s ->
  forall c n n', known s (W c n') = true -> server_hist (server s) (W c n') <> [] -> n <= n' + nget (gaps s) c ->
  known s (W c n) = true.
Proof.
  exact (fun g ops s R Q SY c n n' K H L =>
           gap_quiescent s (reach_ginv g ops s R) Q c n n' (in_sync_used s (W c n') SY K H) L).
Qed.
Print Assumptions C09_gap_found.

(* subscribe_addresses (the paging loop through which a (re)subscription or a freshly generated stretch of
   addresses reaches the server): for every batch size b > 0 and every address list - in particular lists longer
   than one batch of 1000 - each address gets exactly one update task, in order, carrying the status the server
   answered for that very address. *)
Theorem C09_subscribe_all : forall b (status : addr -> hist) addrs, 0 < b ->
  subscribe_plan b addrs (map status) = map (fun a => (a, status a)) addrs.
Proof. exact subscribe_all. Qed.
Print Assumptions C09_subscribe_all.

(* non-vacuity: a consistent two-transaction server (fund address 0; spend it to address 1 with a claim back to
   address 0 and a third-party output), the two addresses synced INTERLEAVED (address 1 saves first and cannot
   resolve the spend; address 0 then records it), gap 2: the run is accepted, ends quiescent and in sync with
   balance 600 spendable + 300 in claims, utxos = specification set, 4 addresses generated. *)
Example C09_ex_run : option_map ex_report (run (init [(0%N, 2)]) ex_ops)
  = Some (600%N, 300%N, [(2%N, 0); (2%N, 1)], [(2%N, 0); (2%N, 1)], 4, 0, true).
Proof. vm_compute. reflexivity. Qed.
Example C09_ex_server_ok : server_ok_b ex_S = true.
Proof. vm_compute. reflexivity. Qed.
Example C09_ex_subscribe : subscribe_plan 2 [W 0 0; W 0 1; W 0 2; W 0 3; W 0 4] (map (fun a => match a with W _ n => [(N.of_nat n, 1%Z)] | _ => [] end))
  = [(W 0 0, [(0%N, 1%Z)]); (W 0 1, [(1%N, 1%Z)]); (W 0 2, [(2%N, 1%Z)]); (W 0 3, [(3%N, 1%Z)]); (W 0 4, [(4%N, 1%Z)])].
Proof. vm_compute. reflexivity. Qed.
