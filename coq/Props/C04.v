(* C04 property theorems: statements only, each closed by [exact]. *)
From Coq Require Import NArith ZArith List Bool.
From Coq.Strings Require Import Byte.
From LV Require Import Lib.Bytes Wire.CompactSize Wire.Tx Model.C04 Proofs.C04 Model.C04_Obj Proofs.C04_Obj.
Import ListNotations.
Local Open Scope N_scope.

(* What Transaction._serialize_for_signature(i) writes is exactly the legacy Bitcoin SIGHASH_ALL preimage:
   version, every outpoint and sequence, the spent script in input i and the empty script elsewhere,
   all outputs, locktime, hash type 1 -- for every transaction, index and script. *)
Theorem C04_preimage_is_spec : forall t i script, sighash_preimage t i script = sighash_spec t i script.
Proof. exact preimage_is_spec. Qed.
Print Assumptions C04_preimage_is_spec.

(* The preimage binds the whole transaction: two well-formed transactions with equal preimages agree on
   version, locktime, every output, every outpoint and every sequence number, and (for non-empty spent
   scripts, in-range indices) on the signed input's index and script.  Hence changing any of these changes
   the bytes that are double-hashed and signed. *)
Theorem C04_preimage_binds_tx : forall t1 t2 i1 i2 s1 s2,
  wf_tx t1 -> wf_tx t2 ->
  N.of_nat (length s1) < MAXSIZE1 -> N.of_nat (length s2) < MAXSIZE1 ->
  sighash_preimage t1 i1 s1 = sighash_preimage t2 i2 s2 ->
  tx_version t1 = tx_version t2 /\ tx_locktime t1 = tx_locktime t2 /\ tx_outs t1 = tx_outs t2 /\
  map outpoint (tx_ins t1) = map outpoint (tx_ins t2) /\ map ti_seq (tx_ins t1) = map ti_seq (tx_ins t2) /\
  ((i1 < length (tx_ins t1))%nat -> (i2 < length (tx_ins t2))%nat -> s1 <> [] -> s2 <> [] -> i1 = i2 /\ s1 = s2).
Proof. exact preimage_binds. Qed.
Print Assumptions C04_preimage_binds_tx.

(* Channel signatures: the digest preimage (36-byte first-input outpoint, 20-byte channel claim hash, claim
   message bytes) determines all three pieces; so does the legacy preimage (25-byte address, payload,
   reversed 20-byte channel hash).  Changing the claim content, the channel or the first input therefore
   changes the bytes that are hashed; no assumption on the hash. *)
Theorem C04_channel_digest_binds : forall fo fo' ch ch' m m',
  length fo = 36%nat -> length fo' = 36%nat -> length ch = 20%nat -> length ch' = 20%nat ->
  channel_pieces fo ch m = channel_pieces fo' ch' m' -> fo = fo' /\ ch = ch' /\ m = m'.
Proof. exact channel_pieces_inj. Qed.
Print Assumptions C04_channel_digest_binds.

Theorem C04_legacy_digest_binds : forall a a' p p' ch ch',
  length a = 25%nat -> length a' = 25%nat -> length ch = 20%nat -> length ch' = 20%nat ->
  legacy_pieces a p ch = legacy_pieces a' p' ch' -> a = a' /\ p = p' /\ ch = ch'.
Proof. exact legacy_pieces_inj. Qed.
Print Assumptions C04_legacy_digest_binds.

Theorem C04_outpoint_binds : forall h h' p p', length h = 32%nat -> length h' = 32%nat ->
  p < 4294967296 -> p' < 4294967296 -> outpoint_bytes h p = outpoint_bytes h' p' -> h = h' /\ p = p'.
Proof. exact outpoint_bytes_inj. Qed.
Print Assumptions C04_outpoint_binds.

(* Model-level signing: for every hash, key map and signature scheme with verify (pub sk) d (sign sk d) = true,
   a claim signed by a channel validates against that channel, and an input signature is the scheme's
   signature over the double hash of the SIGHASH_ALL preimage followed by the hash-type byte 0x01. *)
Theorem C04_signed_validates : forall (sha256 : bytes -> bytes) (pub : bytes -> bytes)
  (sign : bytes -> bytes -> bytes) (verify : bytes -> bytes -> bytes -> bool),
  (forall sk d, verify (pub sk) d (sign sk d) = true) ->
  forall sk fo ch m, is_signed_by sha256 verify (pub sk) fo ch m (sign_claim sha256 sign sk fo ch m) = true.
Proof. exact (fun sha256 pub sign verify V sk fo ch m => V sk _). Qed.
Print Assumptions C04_signed_validates.

Theorem C04_input_signature_validates : forall (sha256 : bytes -> bytes) (pub : bytes -> bytes)
  (sign : bytes -> bytes -> bytes) (verify : bytes -> bytes -> bytes -> bool),
  (forall sk d, verify (pub sk) d (sign sk d) = true) ->
  forall sk t i script, exists sg,
    input_signature sha256 sign sk t i script = sg ++ [byte_of_N 1] /\
    verify (pub sk) (input_digest sha256 t i script) sg = true.
Proof. exact (fun sha256 pub sign verify V sk t i script => ex_intro _ _ (conj eq_refl (V sk _))). Qed.
Print Assumptions C04_input_signature_validates.

(* Object histories.  One signable object held by an output of a fixed transaction (first outpoint fo, holder address
   addr) goes through ANY history of sign / clear_signature / edit / re-read steps starting from ANY state -- fresh,
   signed in the current format, or decoded from an earlier release (o_legacy = Some payload).  Once a channel signs
   it, and as long as only re-reads and edits that leave the serialisation unchanged follow, it validates against that
   channel; for every scheme with verify (pub sk) d (sign sk d) = true. *)
Theorem C04_resigned_validates : forall (sha256 : bytes -> bytes) (pub : bytes -> bytes)
  (sign : bytes -> bytes -> bytes) (verify : bytes -> bytes -> bytes -> bool) (fo addr : bytes),
  (forall sk d, verify (pub sk) d (sign sk d) = true) ->
  forall o0 before sk ch after,
  forallb (keeps (o_msg (orun sha256 sign fo o0 before))) after = true ->
  obj_valid sha256 verify fo addr (pub sk) (orun sha256 sign fo o0 (before ++ OSign sk ch :: after)) = true.
Proof. exact resigned_validates. Qed.
Print Assumptions C04_resigned_validates.

(* ... and what is hashed then is the current-format preimage over the signer's channel hash and the message as it
   was when signed: nothing of an earlier release's payload survives a new signature. *)
Theorem C04_resigned_digest_current : forall (sha256 : bytes -> bytes) (sign : bytes -> bytes -> bytes) (fo addr : bytes)
  o0 before sk ch after,
  forallb (keeps (o_msg (orun sha256 sign fo o0 before))) after = true ->
  let o := orun sha256 sign fo o0 (before ++ OSign sk ch :: after) in
  o_legacy o = None /\ o_ch o = ch /\
  obj_pieces fo addr o = channel_pieces fo ch (o_msg (orun sha256 sign fo o0 before)).
Proof. exact resigned_digest_current. Qed.
Print Assumptions C04_resigned_digest_current.

(* Validation against a CHANNEL (public key pk, claim hash ch), as Output.is_signed_by does since /repo fb0a075: a re-signed
   object validates against its signer, and a channel with any other claim hash is refused whatever key it carries --
   the signer's own key included ("stops validating if ... the channel ... is changed"). *)
Theorem C04_resigned_validates_channel : forall (sha256 : bytes -> bytes) (pub : bytes -> bytes)
  (sign : bytes -> bytes -> bytes) (verify : bytes -> bytes -> bytes -> bool) (fo addr : bytes),
  (forall sk d, verify (pub sk) d (sign sk d) = true) ->
  forall o0 before sk ch after,
  forallb (keeps (o_msg (orun sha256 sign fo o0 before))) after = true ->
  obj_valid_channel sha256 verify fo addr (pub sk) ch (orun sha256 sign fo o0 (before ++ OSign sk ch :: after)) = true.
Proof. exact resigned_validates_channel. Qed.
Print Assumptions C04_resigned_validates_channel.

Theorem C04_other_channel_refused : forall (sha256 : bytes -> bytes) (verify : bytes -> bytes -> bytes -> bool)
  (fo addr : bytes) o pk ch, ch <> o_ch o -> obj_valid_channel sha256 verify fo addr pk ch o = false.
Proof. exact other_channel_refused. Qed.
Print Assumptions C04_other_channel_refused.

(* clear_signature: until somebody signs again the object validates against no key at all. *)
Theorem C04_cleared_never_validates : forall (sha256 : bytes -> bytes) (sign : bytes -> bytes -> bytes)
  (verify : bytes -> bytes -> bytes -> bool) (fo addr : bytes) o0 before after pk,
  forallb not_sign after = true ->
  obj_valid sha256 verify fo addr pk (orun sha256 sign fo o0 (before ++ OClear :: after)) = false.
Proof. exact cleared_never_validates. Qed.
Print Assumptions C04_cleared_never_validates.

(* a reader of the transaction reaches the same verdict as the holder of a current-format object *)
Theorem C04_reread_preserves_current : forall (sha256 : bytes -> bytes) (sign : bytes -> bytes -> bytes)
  (verify : bytes -> bytes -> bytes -> bool) (fo addr : bytes) o pk,
  o_legacy o = None ->
  obj_valid sha256 verify fo addr pk (ostep sha256 sign fo o OReread) = obj_valid sha256 verify fo addr pk o.
Proof. exact reread_preserves_current. Qed.
Print Assumptions C04_reread_preserves_current.

(* The behaviour of Output.sign before /repo commit a3011f6 (the legacy marker survives a new signature) is REFUTED
   by a witness: a scheme satisfying the hypothesis above under which the freshly signed object does not validate. *)
Theorem C04_old_sign_refuted :
  (forall sk d, toy_verify sk d (toy_sign sk d) = true) /\
  obj_valid toy_sha toy_verify [x0a] [x0b] [x07]
    (ostep_old toy_sha toy_sign [x0a] legacy_start (OSign [x07] [x06])) = false /\
  obj_valid toy_sha toy_verify [x0a] [x0b] [x07]
    (ostep toy_sha toy_sign [x0a] legacy_start (OSign [x07] [x06])) = true.
Proof. exact (conj toy_verify_sign (conj eq_refl eq_refl)). Qed.
Print Assumptions C04_old_sign_refuted.

(* non-vacuity *)
Example C04_ex_wf : wf_tx sample_tx4.
Proof. exact sample_tx4_wf. Qed.
Example C04_ex_preimage_len : length (sighash_preimage sample_tx4 1 [byte_of_N 118; byte_of_N 169; byte_of_N 20]) = 151%nat.
Proof. vm_compute. reflexivity. Qed.
