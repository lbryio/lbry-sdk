(* C11 property theorems: statements only, each closed by [exact].
   Vocabulary (Model/C11Spec.v): [run own ops] is the routing table of the node [own] after the history [ops]
   (adds with arbitrary peer-manager facts and probe outcomes, adds/removes without node id, removals),
   started from the single bucket [0, 2^384); [op_valid] only says node ids are 48-byte strings. *)
From Coq Require Import NArith ZArith List Bool.
From LV Require Import Model.C11 Model.C11Spec Proofs.C11Sys Proofs.C11.
Import ListNotations.
Local Open Scope N_scope.

(* After ANY history, for ANY own id and ANY probe outcomes / peer-manager facts: buckets are contiguous from 0 to
   2^384 with non-empty ranges, every contact lies in its bucket's range, no bucket holds more than K contacts,
   no node id and no (address, port) occurs twice. *)
Theorem C11_wellformed : forall own ops,
  own < M -> Forall op_valid ops ->
  chain 0 (run own ops) M /\ Forall (bucket_ok own) (run own ops) /\
  NoDup (map pid (contacts (run own ops))) /\ NoDup (map pkey (contacts (run own ops))).
Proof. exact (fun own ops Ho V => wf_fields own _ (run_wf own ops Ho V)). Qed.
Print Assumptions C11_wellformed.

(* Every distance below 2^384 is covered by exactly one bucket, every other number by none. *)
Theorem C11_covered_once : forall own ops d,
  own < M -> Forall op_valid ops -> covering (run own ops) d = if d <? M then 1%nat else 0%nat.
Proof. exact (fun own ops d Ho V => covered_once own _ d (run_wf own ops Ho V)). Qed.
Print Assumptions C11_covered_once.

(* The recursion of add_peer is bounded: with fuel 386 (one level per halving of a 384-bit range, plus the probe
   retry) it never runs out and it never fails to find a bucket; unless a probe fails locally it returns. *)
Theorem C11_fuel_suffices : forall own ops p e fuel,
  own < M -> Forall op_valid ops -> pid p < M -> (386 <= fuel)%nat ->
  exists r probed t', add_peer true own e fuel (run own ops) p = (r, probed, t') /\ r <> ErrFuel /\ r <> ErrIndex /\
    ((forall q, probe e q <> PLocalFail) -> exists v, r = Ret v).
Proof. exact (fun own ops p e fuel Ho V => fuel_suffices own _ p e fuel (run_wf own ops Ho V) Ho). Qed.
Print Assumptions C11_fuel_suffices.

(* No operation of any history raises IndexError or runs out of fuel (the only exception that can leave add_peer is the
   probe's own, see C11_local_failure_displaces_nobody). *)
Theorem C11_no_error : forall own ops, own < M -> Forall op_valid ops -> Forall out_ok (outs own ops).
Proof. exact no_error. Qed.
Print Assumptions C11_no_error.

(* find_close_peers returns exactly the [count] (K when count is 0/None) nearest contacts other than the node itself
   and the requester: strictly ascending by XOR distance, only eligible contacts, every eligible contact left out
   is farther than every contact returned, and the length is min(count, number of eligible contacts). *)
Theorem C11_closest_exact : forall own ops key count sender,
  own < M -> Forall op_valid ops -> (0 <= count)%Z ->
  exact_closest own sender (run own ops) key (if (count =? 0)%Z then K else Z.to_nat count)
                (find_close own (run own ops) key count sender).
Proof. exact (fun own ops key count sender Ho V => find_close_exact own _ key count sender (run_wf own ops Ho V)). Qed.
Print Assumptions C11_closest_exact.

(* The RPC layer (KademliaRPC.find_node, and the contacts of find_value) answers a requester with exactly the K
   nearest contacts other than the node itself and the requester: the requester is excluded BEFORE truncation. *)
Theorem C11_rpc_closest_exact : forall own ops key requester,
  own < M -> Forall op_valid ops ->
  exact_closest own (Some requester) (run own ops) key K (rpc_find_node own (run own ops) key requester) /\
  exact_closest own (Some requester) (run own ops) key K (rpc_find_value_contacts own (run own ops) key requester).
Proof. exact (fun own ops key requester Ho V => rpc_exact own _ key requester (run_wf own ops Ho V)). Qed.
Print Assumptions C11_rpc_closest_exact.

(* A contact that answers the probe -- or that could not even be asked because the local send failed (PLocalFail) -- is
   still in the table after a newcomer with another id at another address was offered, whatever the rest of the
   environment says: only a timeout or an error answer (PDead) can cost a contact its place. *)
Theorem C11_live_contact_kept : forall own ops p e x,
  own < M -> Forall op_valid ops -> pid p < M ->
  In x (contacts (run own ops)) -> pid x <> pid p -> pkey x <> pkey p -> probe e x <> PDead ->
  In x (contacts (fst (step true own (run own ops) (Add p e)))).
Proof. exact (fun own ops p e x Ho V => live_contact_kept own _ p e x (run_wf own ops Ho V) Ho). Qed.
Print Assumptions C11_live_contact_kept.

(* Sharper: such a contact disappears only if it was the one probed and the probe failed. *)
Theorem C11_displaced_only_if_probed : forall own ops p e x,
  own < M -> Forall op_valid ops -> pid p < M ->
  In x (contacts (run own ops)) -> pid x <> pid p -> pkey x <> pkey p ->
  match step true own (run own ops) (Add p e) with
  | (t', OAdd _ probed) => In x (contacts t') \/ (In x probed /\ probe e x = PDead)
  | _ => False
  end.
Proof. exact (fun own ops p e x Ho V => displaced_only_if_probed own _ p e x (run_wf own ops Ho V) Ho). Qed.
Print Assumptions C11_displaced_only_if_probed.

(* A newcomer closer to the own id than the K-th closest known contact (fewer than K known contacts are at least
   as close) is always admitted: add_peer returns True and the newcomer is in the table. *)
Theorem C11_closer_admitted : forall own ops p e,
  own < M -> Forall op_valid ops -> pid p < M ->
  (at_least_as_close own (run own ops) p < K)%nat ->
  exists probed, snd (step true own (run own ops) (Add p e)) = OAdd (Ret true) probed /\
                 In p (contacts (fst (step true own (run own ops) (Add p e)))).
Proof. exact (fun own ops p e Ho V => closer_admitted own _ p e (run_wf own ops Ho V) Ho). Qed.
Print Assumptions C11_closer_admitted.

(* remove_peer removes exactly the given contact (same id, address and port) and nothing else. *)
Theorem C11_remove_exact : forall own ops p,
  own < M -> Forall op_valid ops -> pid p < M ->
  snd (step true own (run own ops) (Remove p)) = ORemove true /\
  forall x, In x (contacts (fst (step true own (run own ops) (Remove p)))) <-> In x (contacts (run own ops)) /\ x <> p.
Proof. exact (fun own ops p Ho V => remove_exact own _ p (run_wf own ops Ho V) Ho). Qed.
Print Assumptions C11_remove_exact.

(* get_peer finds the contact with the given node id exactly when the table knows one. *)
Theorem C11_get_peer_exact : forall own ops id,
  own < M -> Forall op_valid ops -> id < M ->
  exists r, get_peer own (run own ops) id = Some r /\
    match r with
    | Some q => In q (contacts (run own ops)) /\ pid q = id
    | None => forall q, In q (contacts (run own ops)) -> pid q <> id
    end.
Proof. exact (fun own ops id Ho V => get_peer_exact own _ id (run_wf own ops Ho V) Ho). Qed.
Print Assumptions C11_get_peer_exact.

(* Among several buckets none is empty: _join_buckets always runs to completion (as long as no probe failed locally:
   that exception leaves add_peer past the pending _join_buckets calls). *)
Theorem C11_no_empty_bucket : forall own ops,
  own < M -> Forall op_valid ops -> Forall op_nofail ops ->
  (length (run own ops) <= 1)%nat \/ Forall (fun b => bpeers b <> []) (run own ops).
Proof. exact no_empty_bucket. Qed.
Print Assumptions C11_no_empty_bucket.

(* A probe that fails locally (the OSError of sendto() that KademliaProtocol._send puts on the pending future) is not
   evidence against the incumbent: the exception leaves add_peer, exactly one contact was probed and it is still in
   the table, the newcomer is not inserted, nothing new appears and every contact at another address is kept. *)
Theorem C11_local_failure_displaces_nobody : forall own ops p e probed,
  own < M -> Forall op_valid ops -> pid p < M ->
  snd (step true own (run own ops) (Add p e)) = OAdd ErrProbe probed ->
  let t' := fst (step true own (run own ops) (Add p e)) in
  (exists q, probed = [q] /\ probe e q = PLocalFail /\ In q (contacts t')) /\
  (forall x, In x (contacts t') -> pid x <> pid p) /\
  (forall x, In x (contacts t') -> In x (contacts (run own ops))) /\
  (forall x, In x (contacts (run own ops)) -> pkey x <> pkey p -> In x (contacts t')).
Proof. exact (fun own ops p e probed Ho V => local_failure_displaces_nobody own _ p e probed (run_wf own ops Ho V) Ho). Qed.
Print Assumptions C11_local_failure_displaces_nobody.

(* One add_peer call sends at most one probe. *)
Theorem C11_single_probe : forall own ops p e,
  own < M -> Forall op_valid ops -> pid p < M ->
  match snd (step true own (run own ops) (Add p e)) with
  | OAdd _ probed => (length probed <= 1)%nat
  | _ => False
  end.
Proof. exact (fun own ops p e Ho V => single_probe own _ p e (run_wf own ops Ho V) Ho). Qed.
Print Assumptions C11_single_probe.

(* A rejected newcomer (add_peer returns False) is not in the table, nothing new appears, and every contact at
   another address is still there. *)
Theorem C11_rejected_unchanged : forall own ops p e probed,
  own < M -> Forall op_valid ops -> pid p < M ->
  snd (step true own (run own ops) (Add p e)) = OAdd (Ret false) probed ->
  let t' := fst (step true own (run own ops) (Add p e)) in
  (forall x, In x (contacts t') -> pid x <> pid p) /\
  (forall x, In x (contacts t') -> In x (contacts (run own ops))) /\
  (forall x, In x (contacts (run own ops)) -> pkey x <> pkey p -> In x (contacts t')).
Proof. exact (fun own ops p e probed Ho V => rejected_unchanged own _ p e probed (run_wf own ops Ho V) Ho). Qed.
Print Assumptions C11_rejected_unchanged.

(* The table driven by the modelled PeerManager (report_failure / report_last_replied / report_last_requested,
   contact_triple_is_good, get_last_replied), clock and protocol (KademliaProtocol._add_peer with its real ping, the
   add queue of routing_table_task) is one of the histories quantified over above, so every theorem of this file applies
   to it; reached only through the protocol, no probe outcome arrives at the table as a local failure. *)
Theorem C11_pm_refines : forall own sops,
  Forall sop_valid sops ->
  exists ops, Forall op_valid ops /\ s_tab (sys_run own sops) = run own ops /\
              (Forall sop_proto sops -> Forall op_nofail ops).
Proof. exact pm_refines. Qed.
Print Assumptions C11_pm_refines.

(* The queue of routing_table_task loses nobody: a contact handed to KademliaProtocol.add_peer (other than the own id)
   is still queued or has been offered to TreeRoutingTable.add_peer -- whatever else was reported, popped or probed
   in between, in whatever order the task pops. *)
Theorem C11_reported_never_lost : forall own sops p,
  pid p <> own -> In (SReport p) sops ->
  In p (s_pending (sys_run own sops)) \/ exists e, In (Add p e) (compile own sys_init sops).
Proof. exact (fun own sops p Np H => offered_or_pending own sops sys_init p Np (or_intror H)). Qed.
Print Assumptions C11_reported_never_lost.

(* ... and when the task pops a queued contact that is closer than the K-th closest known one, it is admitted. *)
Theorem C11_queued_closer_admitted : forall own sops p pr w,
  own < M -> Forall sop_valid sops -> pid p < M ->
  In p (s_pending (sys_run own sops)) ->
  (at_least_as_close own (s_tab (sys_run own sops)) p < K)%nat ->
  In p (contacts (s_tab (fst (sys_step true own (sys_run own sops) (SDrainPick p pr w))))).
Proof. exact (fun own sops p pr w Ho V => queued_closer_admitted own _ p pr w (sys_wf own sops Ho V) Ho). Qed.
Print Assumptions C11_queued_closer_admitted.

(* Through the protocol a failed local send of the probe keeps the incumbent and raises nothing, so no empty bucket
   survives among several. *)
Theorem C11_sys_no_empty_bucket : forall own sops,
  own < M -> Forall sop_valid sops -> Forall sop_proto sops ->
  (length (s_tab (sys_run own sops)) <= 1)%nat \/ Forall (fun b => bpeers b <> []) (s_tab (sys_run own sops)).
Proof. exact sys_no_empty_bucket. Qed.
Print Assumptions C11_sys_no_empty_bucket.

Theorem C11_sys_wellformed : forall own sops,
  own < M -> Forall sop_valid sops ->
  chain 0 (s_tab (sys_run own sops)) M /\ Forall (bucket_ok own) (s_tab (sys_run own sops)) /\
  NoDup (map pid (contacts (s_tab (sys_run own sops)))) /\ NoDup (map pkey (contacts (s_tab (sys_run own sops)))).
Proof. exact (fun own sops Ho V => wf_fields own _ (sys_wf own sops Ho V)). Qed.
Print Assumptions C11_sys_wellformed.

(* The OLD _join_buckets (range_max = midpoint - 1), same model with rp = false: after the history gap_ops the
   distance 2^382 + 2^381 - 1 is in no bucket and adding that id raises IndexError; the repaired code covers it
   once and admits the contact. *)
Theorem C11_join_gap_refuted :
  let t := fst (run_from false 0 init gap_ops) in
  Forall op_valid gap_ops /\ gap_d < M /\
  covering t gap_d = 0%nat /\
  snd (step false 0 t (Add (pk gap_d 14) env0)) = OAdd ErrIndex [] /\
  covering (run 0 gap_ops) gap_d = 1%nat /\
  snd (step true 0 (run 0 gap_ops) (Add (pk gap_d 14) env0)) = OAdd (Ret true) [].
Proof. exact join_gap_refuted. Qed.
Print Assumptions C11_join_gap_refuted.

(* non-vacuity: the histories quantified over reach split tables, full buckets, probes and admissions *)
Example C11_ex_split : (length (run 0 gap_ops), length (contacts (run 0 gap_ops))) = (2%nat, 12%nat).
Proof. vm_compute. reflexivity. Qed.
(* bucket 0 is full (8 contacts), yet a newcomer at distance 5 has only 4 known contacts at least as close *)
Example C11_ex_admit_hyp :
  (map (fun b => length (bpeers b)) (run 0 gap_ops), at_least_as_close 0 (run 0 gap_ops) (pk 5 20)) = ([8%nat; 4%nat], 4%nat).
Proof. vm_compute. reflexivity. Qed.
(* a ninth far contact: the full far bucket cannot split, its first contact is probed, answers, and is kept *)
Example C11_ex_probe :
  let far := map (fun i => Add (pk (2 ^ 383 + i) i) env0) [1; 2; 3; 4; 5; 6; 7; 8] in
  snd (step true 0 (run 0 far) (Add (pk (2 ^ 383 + 9) 9) env0)) = OAdd (Ret false) [pk (2 ^ 383 + 1) 1].
Proof. vm_compute. reflexivity. Qed.
(* the three nearest to key 3 for requester 2 among the twelve contacts of that table *)
Example C11_ex_find : map pid (find_close 0 (run 0 gap_ops) 3 3 (Some 2)) = [3; 1; 4].
Proof. vm_compute. reflexivity. Qed.
(* REFUTED for the code as it is (clean-tree finding, reported): taken literally, "a contact that still answers pings is
   never displaced by a newcomer at a different address" also covers a newcomer that claims a KNOWN node id from another
   endpoint.  KBucket.add_peer replaces the stored entry at once, without a ping to the stored endpoint: the probe
   answers (env0), nothing is probed, yet the contact at endpoint 100 is gone.  This is why C11_live_contact_kept
   carries the hypothesis pid x <> pid p; the monitor reports every such event under the signature
   {"finding": "C11-same-id-other-endpoint-replaces-without-probe"}. *)
Example C11_same_id_other_endpoint_refuted :
  step true 0 (run 0 [Add (mkPeer 7 100 4444) env0]) (Add (mkPeer 7 200 4444) env0)
  = ([mkB 0 M [mkPeer 7 200 4444]], OAdd (Ret true) []).
Proof. vm_compute. reflexivity. Qed.
(* requester 3 looks up its own id in a table of twelve contacts: eight answers, itself left out, the ninth nearest in *)
Example C11_ex_rpc : map pid (rpc_find_node 0 (run 0 gap_ops) 3 3) = [2; 1; 4; 11; 10; 12; 20; 2 ^ 383 + 3].
Proof. vm_compute. reflexivity. Qed.
(* the same ninth far contact while the local send of the ping fails: the exception leaves add_peer, all eight stay *)
Example C11_ex_local_failure :
  let far := map (fun i => Add (pk (2 ^ 383 + i) i) env0) [1; 2; 3; 4; 5; 6; 7; 8] in
  let e := mkEnv (fun _ => false) (fun _ => Stale) (fun _ => PLocalFail) in
  (snd (step true 0 (run 0 far) (Add (pk (2 ^ 383 + 9) 9) e)),
   map pid (contacts (fst (step true 0 (run 0 far) (Add (pk (2 ^ 383 + 9) 9) e)))))
  = (OAdd ErrProbe [pk (2 ^ 383 + 1) 1], map (fun i => 2 ^ 383 + i) [1; 2; 3; 4; 5; 6; 7; 8]).
Proof. vm_compute. reflexivity. Qed.
