(* C13 property theorems: statements only, each closed by [exact].
   P ranges over ALL implementations of the library primitives (SHA, AES-CBC/PKCS7, base64, scrypt, zlib, UTF-8
   validity, word-list membership, extended-key parsing, JSON string escaping); the only facts assumed about them are
   the explicit premises DE / B64 / B64nil / ZZ below. *)
From Coq Require Import NArith ZArith List Bool.
From LV Require Import Lib.Bytes Lib.Decimal Model.C13 Proofs.C13.
Import ListNotations.
Local Open Scope N_scope.

Definition DE (P : prims) := forall k iv p, D P k iv (E P k iv p) = DOk p.
Definition B64 (P : prims) := forall x, b64d P (b64e P x) = Some x.
Definition B64nil (P : prims) := b64d P [] = Some [].
Definition ZZ (P : prims) := forall x, zd P (zc P x) = ZOk x.

(* Lock a wallet (every account encrypted under the wallet's password, any init-vector supply) and unlock it with
   the same password: unlock answers True and every account has exactly the seed, private key, public key (hence
   addresses) and flag it had; in between every account is encrypted and holds no private key object.
   wf_wallet: seeds are str (valid UTF-8) that regenerate the account's public key (true of every account built by
   Account.from_dict from a seed, whatever the words), private keys are parseable extended keys. *)
Theorem C13_unlock_restores : forall P, DE P -> B64 P -> B64nil P ->
  forall w pw rnd, wf_wallet P w -> w_pw w = Some pw -> Forall len16 rnd ->
  exists w1 w2,
    lock P rnd w = Ok w1
    /\ Forall (fun b => a_encrypted b = true /\ a_priv b = None) (w_accounts w1)
    /\ unlock P pw w1 = (UTrue, w2)
    /\ map secrets (w_accounts w2) = map secrets (w_accounts w)
    /\ is_locked w2 = false /\ w_pw w2 = Some pw /\ w_name w2 = w_name w /\ w_prefs w2 = w_prefs w.
Proof. exact unlock_restores. Qed.
Print Assumptions C13_unlock_restores.

(* Deterministic channel keys (account key / CHANNEL / k, what DeterministicChannelKeyManager hands out): none while
   locked, and after unlock with the same password exactly those the accounts had before locking, for every k. *)
Theorem C13_channel_keys_restored : forall P, DE P -> B64 P -> B64nil P ->
  forall w pw rnd k, wf_wallet P w -> w_pw w = Some pw -> Forall len16 rnd ->
  exists w1 w2,
    lock P rnd w = Ok w1 /\ Forall (fun b => channel_view P b k = None) (w_accounts w1)
    /\ unlock P pw w1 = (UTrue, w2)
    /\ map (fun a => channel_view P a k) (w_accounts w2) = map (fun a => channel_view P a k) (w_accounts w).
Proof. exact channel_keys_restored. Qed.
Print Assumptions C13_channel_keys_restored.

(* The same through the disk: the dict of an encrypted save (what storage.write renders), read back as
   Wallet.from_storage does (keys sorted, every account flagged encrypted, no password in memory), then unlocked
   with the password of the save: True, and the same seeds, private keys, public keys as before the save. *)
Theorem C13_disk_roundtrip : forall P, DE P -> B64 P -> B64nil P ->
  forall w (pw : bytes) rnd, wf_wallet P w -> Forall len16 rnd ->
  exists w1 w2,
    wallet_of_dict P (fst (wallet_to_dict P (Some pw) rnd w)) = Some w1
    /\ Forall (fun b => a_encrypted b = true /\ a_priv b = None) (w_accounts w1)
    /\ w_pw w1 = None /\ w_name w1 = w_name w
    /\ unlock P pw w1 = (UTrue, w2)
    /\ map secrets (w_accounts w2) = map secrets (w_accounts w)
    /\ w_pw w2 = Some pw.
Proof. exact disk_roundtrip. Qed.
Print Assumptions C13_disk_roundtrip.

(* Wallet.unlock answers False -- whichever account refused the password, or because the wallet is already unlocked and
   has another password (6c52396) -- then the wallet is as locked as it was (locked stays locked) and
   password, name, preferences and EVERY account (all fields but the init vectors remembered by the refusing
   account) are what they were: accounts that did open have been encrypted again, bit for bit.
   Premise [sealed_if_opened]: an account that this password opens was sealed under it by Account.encrypt (nothing is
   assumed about what a key decrypts that did not encrypt, so a foreign ciphertext that happens to open could not be
   restored bit for bit).
   PARTIAL in one respect only: that a wrong password IS refused is cryptographic chance (padding, UTF-8, public key
   of the seed, Base58 checksum) and is not claimed; the theorem starts from the refusal. *)
Theorem C13_failed_unlock_unchanged_partial : forall P, DE P -> B64 P -> B64nil P ->
  forall w pw,
  Forall (sealed_if_opened P pw) (w_accounts w) ->
  fst (unlock P pw w) = UFalse ->
  is_locked (snd (unlock P pw w)) = is_locked w
  /\ w_pw (snd (unlock P pw w)) = w_pw w
  /\ w_name (snd (unlock P pw w)) = w_name w /\ w_prefs (snd (unlock P pw w)) = w_prefs w
  /\ map strip_iv (w_accounts (snd (unlock P pw w))) = map strip_iv (w_accounts w).
Proof. exact failed_unlock_unchanged. Qed.
Print Assumptions C13_failed_unlock_unchanged_partial.

(* Refusal of any kind (False, or a Base58Error escaping from Account.decrypt) by the FIRST encrypted account: the
   same conclusion for every P with no premise at all about the accounts.  (An exception raised by a LATER account
   skips the re-locking; it needs a corrupted private-key ciphertext under the right password.) *)
Theorem C13_failed_unlock_first_account_unchanged : forall P w pw pre a post,
  w_accounts w = pre ++ a :: post ->
  Forall (fun x => a_encrypted x = false) pre -> a_encrypted a = true ->
  fst (account_decrypt P pw a) <> DTrue ->
  fst (unlock P pw w) <> UTrue
  /\ is_locked (snd (unlock P pw w)) = true
  /\ w_pw (snd (unlock P pw w)) = w_pw w
  /\ w_name (snd (unlock P pw w)) = w_name w /\ w_prefs (snd (unlock P pw w)) = w_prefs w
  /\ map strip_iv (w_accounts (snd (unlock P pw w))) = map strip_iv (w_accounts w).
Proof. exact failed_unlock_unchanged_first. Qed.
Print Assumptions C13_failed_unlock_first_account_unchanged.

(* An already unlocked wallet that has a password: unlock accepts exactly that password and changes nothing either
   way -- a typo can no longer replace the password the next save encrypts with (6c52396). *)
Theorem C13_unlock_of_unlocked_wallet_keeps_password : forall P w pw q,
  is_locked w = false -> w_pw w = Some q ->
  unlock P pw w = (if bytes_eqb pw q then UTrue else UFalse, w).
Proof. exact unlock_of_unlocked. Qed.
Print Assumptions C13_unlock_of_unlocked_wallet_keeps_password.

(* REFUTED claims about the code before the two repairs (cfbbf5f, a1c8e7f), kept machine-checked:
   the old Wallet.unlock left the accounts before the refusing one decrypted ... *)
Theorem C13_old_unlock_left_earlier_accounts_decrypted_refuted : forall P pw pre a post pre',
  unlock_accounts_old P pw pre = (UTrue, pre') -> a_encrypted a = true ->
  fst (account_decrypt P pw a) <> DTrue ->
  fst (unlock_accounts_old P pw (pre ++ a :: post)) <> UTrue /\
  snd (unlock_accounts_old P pw (pre ++ a :: post)) = pre' ++ snd (account_decrypt P pw a) :: post.
Proof. exact old_unlock_left_earlier_accounts_decrypted. Qed.
Print Assumptions C13_old_unlock_left_earlier_accounts_decrypted_refuted.

(* ... and the old Account.decrypt (English word-list check on the decrypted seed) refused the very password an
   account was encrypted with whenever its seed did not pass that check *)
Theorem C13_old_seed_check_refused_correct_password_refuted : forall P, DE P -> B64 P -> B64nil P ->
  forall a pw rnd,
  a_encrypted a = false -> nonempty (a_seed a) = true -> utf8_ok P (a_seed a) = true ->
  seed_ok P (a_seed a) = false -> iv_ok (a_iv_seed a) -> Forall len16 rnd ->
  fst (account_decrypt_old P pw (fst (account_encrypt P pw rnd a))) = DFalse.
Proof. exact old_seed_check_refused_correct_password. Qed.
Print Assumptions C13_old_seed_check_refused_correct_password_refuted.

(* With the encrypt-on-disk preference on and a password set -- ANY string, the empty one included (55a4e60) -- the dict
   Wallet.save hands to storage.write is [public_image] of name, preferences, the init-vector supply and, per account,
   its public part (a record with no seed / private-key field; it does hold the channel keys, which are written as they
   are) and the two functions iv |-> E key iv seed, iv |-> E key iv private_key_string: seed and private key reach the
   file only as outputs of E.  Holds for every P, no hypothesis. *)
Theorem C13_no_plaintext_on_disk : forall P w pw ts rnd,
  pref_on w = true -> w_pw w = Some pw ->
  fst (save_dict P ts rnd w) = public_image P (w_name w) (w_prefs w) rnd (map (seal P pw) (w_accounts w)).
Proof. exact no_plaintext_on_disk. Qed.
Print Assumptions C13_no_plaintext_on_disk.

(* hence: same public parts and same ciphertexts => byte-identical files, whatever the seeds and keys are *)
Theorem C13_file_depends_on_ciphertexts_only : forall P w1 w2 pw ts rnd,
  pref_on w1 = true -> pref_on w2 = true -> w_pw w1 = Some pw -> w_pw w2 = Some pw ->
  w_name w1 = w_name w2 -> w_prefs w1 = w_prefs w2 ->
  Forall2 same_sealed (map (seal P pw) (w_accounts w1)) (map (seal P pw) (w_accounts w2)) ->
  render_file P (fst (save_dict P ts rnd w1)) = render_file P (fst (save_dict P ts rnd w2)).
Proof. exact file_depends_on_ciphertexts_only. Qed.
Print Assumptions C13_file_depends_on_ciphertexts_only.

(* WalletStorage.write (temp file, write, flush, fsync, close, exists, [stat], rename, chmod): for EVERY crash
   point -- before any operation, after all of them, or inside the write after any prefix of its bytes -- and every
   initial file system (wallet file present or absent, stale temp file or not) the wallet file holds either exactly
   its previous content (or is still absent) or exactly the new content. *)
Theorem C13_save_atomic : forall umask path pid data t t',
  crashes umask (storage_write path pid data t) t t' ->
  fdata (t' path) = fdata (t path) \/ fdata (t' path) = Some data.
Proof. exact save_atomic. Qed.
Print Assumptions C13_save_atomic.

(* the same for Wallet.save as a whole (the new content is the rendering of the dict this save computed) *)
Theorem C13_wallet_save_atomic : forall P umask path pid ts rnd w t t',
  crashes umask (storage_write path pid (render_file P (fst (save_dict P ts rnd w))) t) t t' ->
  fdata (t' path) = fdata (t path) \/ fdata (t' path) = Some (render_file P (fst (save_dict P ts rnd w))).
Proof. exact (fun P umask path pid ts rnd w => save_atomic umask path pid (render_file P (fst (save_dict P ts rnd w)))). Qed.
Print Assumptions C13_wallet_save_atomic.

Theorem C13_save_completes : forall umask path pid data t,
  run_ops umask (storage_write path pid data t) t path =
    Some (mkFile data (match t path with Some f => f_mode f | None => 384 end)).
Proof. exact save_completes. Qed.
Print Assumptions C13_save_completes.

(* the except branch of write (remove, then rename; taken when os.rename refuses an existing target, i.e. on
   Windows) is not atomic: some crash leaves no wallet file at all *)
Theorem C13_fallback_not_atomic : forall umask path pid data t f, t path = Some f ->
  exists t', crashes umask (storage_write_fallback path pid data t) t t' /\ t' path = None.
Proof. exact fallback_not_atomic. Qed.
Print Assumptions C13_fallback_not_atomic.

(* histories: for every sequence of wallet operations (encrypt, decrypt, lock, unlock, save, reload, add account,
   set preference, account-level encrypt/decrypt, overwritten ciphertexts) with the process killed at ANY point of
   ANY of the saves (MSaveCrash n k, all n k), the wallet file is always the complete rendering of a dict that a
   save handed to storage.write, or absent if there never was one *)
Theorem C13_file_always_complete : forall P path umask ops st,
  coherent P path st -> coherent P path (run P path umask ops st).
Proof. exact file_always_complete. Qed.
Print Assumptions C13_file_always_complete.

(* Daemon start-up (WalletManager.from_lbrynet_config): a wallet file whose accounts are stored encrypted and that has
   no (or a null) encrypt-on-disk preference -- a file older than the preference -- comes up with the preference ON ... *)
Theorem C13_start_enables_encryption : forall P path umask ts rnd pid st st' w0,
  reload P (m_img st) = Some w0 -> is_locked w0 = true -> pref_is_none w0 = true ->
  step P path umask (MStart ts rnd pid) st = (OTrue, st') ->
  pref_on (m_w st') = true.
Proof. exact start_enables_encryption. Qed.
Print Assumptions C13_start_enables_encryption.

(* ... so that after unlocking it with its password every later save writes the sealed image
   (seed and private key only as outputs of E), exactly as for a wallet encrypted by Wallet.encrypt *)
Theorem C13_start_unlock_save_sealed : forall P path umask ts rnd pid st st' w0 (pw : bytes) ts' rnd',
  reload P (m_img st) = Some w0 -> is_locked w0 = true -> pref_is_none w0 = true ->
  step P path umask (MStart ts rnd pid) st = (OTrue, st') ->
  fst (unlock P pw (m_w st')) = UTrue ->
  let w2 := snd (unlock P pw (m_w st')) in
  fst (save_dict P ts' rnd' w2) = public_image P (w_name w2) (w_prefs w2) rnd' (map (seal P pw) (w_accounts w2)).
Proof. exact start_unlock_save_sealed. Qed.
Print Assumptions C13_start_unlock_save_sealed.

(* pack then unpack with the same password gives back the JSON text of the wallet (any 16-byte salt/iv) *)
Theorem C13_pack_unpack : forall P, DE P -> B64 P -> ZZ P ->
  forall w pw iv, len16 iv -> is_locked w = false ->
  exists packed, pack P pw iv w = Ok packed /\ unpack P pw packed = Ok (to_json P w).
Proof. exact pack_unpack. Qed.
Print Assumptions C13_pack_unpack.

(* Wallet.merge's choice between plain JSON (password None) and an encrypted payload (any string): a payload packed
   with ANY password -- pw = [] is the empty password -- comes back as the wallet's JSON when merged with that password *)
Theorem C13_merge_payload_roundtrip : forall P, DE P -> B64 P -> ZZ P ->
  forall w pw iv, len16 iv -> is_locked w = false ->
  exists packed, pack P pw iv w = Ok packed /\ merge_payload P (Some pw) packed = Ok (to_json P w)
                 /\ merge_payload P None (to_json P w) = Ok (to_json P w).
Proof. exact merge_payload_roundtrip. Qed.
Print Assumptions C13_merge_payload_roundtrip.

(* why the temp file name carries the pid: with ONE shared temp file (pidA = pidB) a second writer that dies right after
   opening its temp file while the first is between fsync and rename makes the first rename an EMPTY file onto the wallet;
   with different pids the same schedule leaves the first writer's complete content *)
Example C13_ex_shared_temp_file_not_atomic :
  let path := [byte_of_N 119] in
  let t := fs_set path (Some (mkFile [byte_of_N 1] 384)) (fun _ => None) in
  (fdata (two_writers 18 path 7 7 [byte_of_N 2] [byte_of_N 3] 5 1 0 t path),
   fdata (two_writers 18 path 7 8 [byte_of_N 2] [byte_of_N 3] 5 1 0 t path))
  = (Some [], Some [byte_of_N 2]).
Proof. vm_compute. reflexivity. Qed.

(* start-up of a file with encrypted accounts and no encrypt-on-disk preference: the preference comes up ON *)
Example C13_ex_start_legacy_file :
  match lock toy [iv_a; iv_b; iv_c] ex_wallet with
  | Ok w1 =>
      let img := fst (wallet_to_dict toy None [] w1) in
      let st := mkState default_wallet (fun _ => None) (Some img) in
      match reload toy (Some img) with
      | Some w0 => (pref_on w0, is_locked w0, pref_is_none w0,
                    pref_on (m_w (snd (step toy [byte_of_N 119] 18 (MStart 5 [] 9) st))))
      | None => (true, false, false, false)
      end
  | Err _ => (true, false, false, false)
  end = (false, true, true, true).
Proof. vm_compute. reflexivity. Qed.

Example C13_ex_merge_empty_password :
  match pack toy [] iv_a ex_wallet with
  | Ok p => merge_payload toy (Some []) p = Ok (to_json toy ex_wallet)
  | Err _ => False end.
Proof. vm_compute. reflexivity. Qed.

(* A sync payload written by ANOTHER writer of the same format with any scrypt parameters n r p in its 's:n:r:p:' header
   (Wallet.pack always writes 8192:16:1) is opened by its own password: the reader derives the key with the parameters the
   header states; merge restores the JSON text. *)
Theorem C13_foreign_payload_merges : forall P, DE P -> B64 P -> ZZ P ->
  forall pw js iv n r p, len16 iv ->
  merge_payload P (Some pw) (foreign_payload P pw (zc P js) iv n r p) = Ok js.
Proof. exact foreign_payload_merges. Qed.
Print Assumptions C13_foreign_payload_merges.

(* Two processes (different pids, hence different temp files '<wallet>.tmp.<pid>') save the same wallet file; their
   operations interleave in ANY order (for either outcome of each one's os.path.exists and any mode it read), and either
   process may die before any of its operations or inside its write: the wallet file always holds its previous content
   or the complete content of one of the two saves. *)
Theorem C13_two_writers_atomic : forall umask path pid1 pid2 d1 d2 s1 m1 s2 m2 t t',
  pid1 <> pid2 ->
  inter umask (wops path (temp_path path pid1) d1 s1 m1) (wops path (temp_path path pid2) d2 s2 m2) t t' ->
  fdata (t' path) = fdata (t path) \/ fdata (t' path) = Some d1 \/ fdata (t' path) = Some d2.
Proof. exact two_writers_atomic. Qed.
Print Assumptions C13_two_writers_atomic.

(* ---- non-vacuity: a toy cipher satisfies the premises, and concrete wallets exercise each statement ---- *)
Example C13_ex_premises : DE toy /\ B64 toy /\ B64nil toy /\ ZZ toy.
Proof. exact (conj toy_DE (conj toy_b64 (conj toy_b64_nil toy_z))). Qed.
Example C13_ex_wf : wf_wallet toy ex_wallet /\ Forall len16 [iv_a; iv_b; iv_c].
Proof. exact (conj ex_wallet_wf ex_rnd_ok). Qed.

(* three accounts (seed + key, key only, watch only): locked, all encrypted; unlocked, all secrets back *)
Example C13_ex_roundtrip :
  match lock toy [iv_a; iv_b; iv_c] ex_wallet with
  | Ok w1 => (is_locked w1, map a_priv (w_accounts w1),
              fst (unlock toy ex_pw w1), map secrets (w_accounts (snd (unlock toy ex_pw w1))))
  | Err _ => (false, [], UFalse, [])
  end = (true, [None; None; None], UTrue, map secrets (w_accounts ex_wallet)).
Proof. vm_compute. reflexivity. Qed.

(* another password: refused by the first account, nothing changes *)
Example C13_ex_wrong_password :
  match lock toy [iv_a; iv_b; iv_c] ex_wallet with
  | Ok w1 => (fst (unlock toy ex_pw2 w1), is_locked (snd (unlock toy ex_pw2 w1)),
              bytes_eqb (a_seed (hd ex_watch (w_accounts (snd (unlock toy ex_pw2 w1)))))
                        (a_seed (hd ex_watch (w_accounts w1))))
  | Err _ => (UTrue, false, false)
  end = (UFalse, true, true).
Proof. vm_compute. reflexivity. Qed.

(* accounts encrypted under different passwords: unlock with the first one is refused by the second account and
   the first account is encrypted again, bit for bit (the old code left it decrypted) *)
Example C13_ex_mixed_passwords :
  let a1 := fst (account_encrypt toy ex_pw [iv_a; iv_b] ex_seeded) in
  let a2 := fst (account_encrypt toy ex_pw2 [iv_c] ex_keyonly) in
  let w := mkWallet [] [] [a1; a2] None in
  (fst (unlock toy ex_pw w), map a_encrypted (w_accounts (snd (unlock toy ex_pw w))),
   map a_seed (w_accounts (snd (unlock toy ex_pw w))), map a_pks (w_accounts (snd (unlock toy ex_pw w))),
   map a_encrypted (snd (unlock_accounts_old toy ex_pw [a1; a2])))
  = (UFalse, [true; true], map a_seed [a1; a2], map a_pks [a1; a2], [false; true]).
Proof. vm_compute. reflexivity. Qed.

(* a seed outside the toy word list: unlocks with its password now; the old check refused it *)
Example C13_ex_seed_outside_word_list :
  let w := mkWallet [] [] [ex_badseed] (Some ex_pw) in
  match lock toy [iv_a; iv_b] w with
  | Ok w1 => (fst (unlock toy ex_pw w1), map secrets (w_accounts (snd (unlock toy ex_pw w1))),
              fst (account_decrypt_old toy ex_pw (hd ex_watch (w_accounts w1))))
  | Err _ => (UFalse, [], DTrue)
  end = (UTrue, [secrets ex_badseed], DFalse).
Proof. vm_compute. reflexivity. Qed.

(* the premises of C13_failed_unlock_unchanged_partial are inhabited: the locked example wallet, another password *)
Example C13_ex_failed_unlock_premises :
  match lock toy [iv_a; iv_b; iv_c] ex_wallet with
  | Ok w1 => Forall (sealed_if_opened toy ex_pw2) (w_accounts w1) /\ fst (unlock toy ex_pw2 w1) = UFalse
  | Err _ => False
  end.
Proof. exact ex_locked_sealed. Qed.

(* a crash just after the rename (n = 8 complete operations) shows the new content; just before it, the old *)
Example C13_ex_crash :
  let path := [byte_of_N 119] in
  let t := fs_set path (Some (mkFile [byte_of_N 1] 420)) (fun _ => None) in
  let ops := storage_write path 7 [byte_of_N 2; byte_of_N 3] t in
  (fdata (crash_at 18 7 0 ops t path), fdata (crash_at 18 8 0 ops t path), fdata (crash_at 18 1 1 ops t (temp_path path 7)))
  = (Some [byte_of_N 1], Some [byte_of_N 2; byte_of_N 3], Some [byte_of_N 2]).
Proof. vm_compute. reflexivity. Qed.

(* encrypted save of the example wallet: the dict holds E outputs (here key ++ plaintext under the toy cipher,
   visibly a function of the key) and the channel key in the clear *)
Example C13_ex_sealed :
  let w := pref_set EOD (JB true) 1 ex_wallet in
  (pref_on w, fst (save_dict toy 1 [iv_a; iv_b; iv_c] w)) =
  (true, public_image toy (w_name w) (w_prefs w) [iv_a; iv_b; iv_c] (map (seal toy ex_pw) (w_accounts w))).
Proof. vm_compute. reflexivity. Qed.

Example C13_ex_disk :
  match wallet_of_dict toy (fst (wallet_to_dict toy (Some ex_pw) [iv_a; iv_b; iv_c] ex_wallet)) with
  | Some w1 => (is_locked w1, fst (unlock toy ex_pw w1), map secrets (w_accounts (snd (unlock toy ex_pw w1))))
  | None => (false, UFalse, [])
  end = (true, UTrue, map secrets (w_accounts ex_wallet)).
Proof. vm_compute. reflexivity. Qed.

Example C13_ex_pack : match pack toy ex_pw iv_a ex_wallet with
                      | Ok p => unpack toy ex_pw p = Ok (to_json toy ex_wallet)
                      | Err _ => False end.
Proof. vm_compute. reflexivity. Qed.
