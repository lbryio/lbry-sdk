(* C01 property theorems: statements only, each closed by [exact].
   Model: Model/C01.v (one blob, any number of writers, the event loop's FIFO ready queue, the executor).
   All theorems hold for EVERY hash function H, every blob name h, both blob kinds (file / in-memory buffer),
   with or without completion callback, and every list of operations
   (SetLength / Open / Write / CloseW / CloseBlob / Tick / Drain / IoDone / Read / Delete), i.e. every chunking,
   every number of writers, every interleaving, every placement of loop iterations and executor completions, and
   any number of re-downloads of the same object after it was read out (BlobBuffer) or deleted.
   [core_ops] = no Read/Delete in the list; [no_delete] = no Delete in the list. *)
From Coq Require Import NArith ZArith List Bool.
From LV Require Import Lib.Bytes Model.C01 Proofs.C01 Model.C01Announce Proofs.C01Announce.
Import ListNotations.
Local Open Scope N_scope.

(* 0. Where a history starts.  [start kd file expected] is the object BlobManager.get_blob(hash, expected) creates
      over a blob directory that holds [file] under the blob's name (None: no such file; the fresh object [init] is
      [start kd None None]).  [start_ok]: the expected length, if given, is at most 2^21, and a file that IS TAKEN
      OVER is an intact copy; a file whose size differs from a non-zero expected length needs no assumption.
      The constructor over an existing file: size = expected (or no / zero expected length) -> taken over, verified,
      length = size; size <> expected -> file deleted, not verified, no length; hence verified with an announced
      length L means the stored file has exactly L bytes. *)
Theorem C01_constructor_over_existing_file : forall f expected,
  let s := start KFile (Some f) expected in
  (taken_over f expected ->
     s_verified s = true /\ s_store s = Some f /\ s_len s = Some (N.of_nat (length f)))
  /\ (~ taken_over f expected -> s_verified s = false /\ s_store s = None /\ s_len s = None)
  /\ (forall L, expected = Some L -> L <> 0 -> s_verified s = true -> s_len s = Some L /\ N.of_nat (length f) = L).
Proof. exact start_existing_file. Qed.
Print Assumptions C01_constructor_over_existing_file.

Theorem C01_fresh_object_is_a_start : forall H h kd, start_ok H h kd None None /\ start kd None None = init.
Proof. exact start_fresh. Qed.
Print Assumptions C01_fresh_object_is_a_start.

(* 1. Whatever has been done to the blob: if it is verified, bytes are stored, they have exactly the accepted
      length, that length is in 1..2^21, and they hash to the blob's name; and anything that is ever in the
      store (file in the blob directory / buffer) has these properties, verified or not. *)
Theorem C01_only_matching_bytes_verified : forall H h kd cb file expected, start_ok H h kd file expected -> forall ops,
  let s := run H h kd cb ops (start kd file expected) in
  (s_verified s = true ->
     exists b L, s_store s = Some b /\ s_len s = Some L /\ N.of_nat (length b) = L
                 /\ 0 < L <= MAX_BLOB_SIZE /\ H b = h)
  /\ (forall b, s_store s = Some b ->
     exists L, s_len s = Some L /\ N.of_nat (length b) = L /\ 0 < L <= MAX_BLOB_SIZE /\ H b = h).
Proof. exact (fun H h kd cb file expected Ok ops => only_matching H h _ (proj1 (start_all H h kd cb file expected Ok ops))). Qed.
Print Assumptions C01_only_matching_bytes_verified.

(* 1b. The result of any writer's future, in any reachable state, is a complete correct copy of admissible size
       (that its size was the length accepted at that moment is theorem 2). *)
Theorem C01_writer_result_is_correct_copy : forall H h kd cb file expected, start_ok H h kd file expected -> forall ops i w b,
  nth_error (s_ws (run H h kd cb ops (start kd file expected))) i = Some w -> w_fut w = FOk b ->
  0 < N.of_nat (length b) <= MAX_BLOB_SIZE /\ H b = h.
Proof. exact (fun H h kd cb file expected Ok ops => writer_result_good H h _ (proj1 (start_all H h kd cb file expected Ok ops))). Qed.
Print Assumptions C01_writer_result_is_correct_copy.

(* 2. Exact outcome of one write on a live writer (open, future pending; then hash input = buffer) of a blob
      of accepted length L > 0, t = bytes received so far ++ this chunk:
      shorter -> still pending; exactly L and H t = h -> finished with result t (and with nothing else);
      exactly L and H t <> h -> InvalidBlobHashError; longer -> InvalidDataError and the buffer is not
      extended.  The call itself returns normally. *)
Theorem C01_writer_result_exact : forall H h L w d,
  live L w ->
  let t := w_buf w ++ d in
  let w' := fst (fst (wr_write H h (Some L) w d)) in
  (N.of_nat (length t) < L -> w' = mkW (w_key w) true t t FPending)
  /\ (N.of_nat (length t) = L -> H t = h -> w' = mkW (w_key w) false t t (FOk t))
  /\ (N.of_nat (length t) = L -> H t <> h -> w' = mkW (w_key w) false t t FErrHash)
  /\ (L < N.of_nat (length t) -> w' = mkW (w_key w) false (w_buf w) t FErrLen)
  /\ (forall b, w_fut w' = FOk b <-> b = t /\ N.of_nat (length t) = L /\ H t = h)
  /\ snd (wr_write H h (Some L) w d) = ROk.
Proof. exact writer_write_exact. Qed.
Print Assumptions C01_writer_result_exact.

(* 2a. History level, for every operation list (resets included) and every writer ever created: let t be the
       concatenation, in order, of the chunks of those Write calls on this writer that got past write()'s guards
       (result ROk or InvalidStateError, i.e. not refused with OSError) - [written].  Then t is exactly what the
       writer has hashed, and: result b => b = t, H t = h, 0 < |t| <= 2^21; InvalidBlobHashError => H t <> h;
       still pending => |t| < the accepted length. *)
Theorem C01_writer_result_exact_history : forall H h kd cb file expected, start_ok H h kd file expected -> forall ops i w,
  nth_error (s_ws (run H h kd cb ops (start kd file expected))) i = Some w ->
  let t := written i ops (results H h kd cb ops (start kd file expected)) in
  w_seen w = t
  /\ (forall b, w_fut w = FOk b -> b = t /\ H t = h /\ 0 < N.of_nat (length t) <= MAX_BLOB_SIZE)
  /\ (w_fut w = FErrHash -> H t <> h)
  /\ (w_fut w = FPending -> forall L, s_len (run H h kd cb ops (start kd file expected)) = Some L -> L <> 0 -> N.of_nat (length t) < L).
Proof. exact (fun H h kd cb file expected Ok => writer_history H h kd cb _ (start_begins H h kd file expected Ok)). Qed.
Print Assumptions C01_writer_result_exact_history.

(* 2b. A write (of anything, by any writer, in any state) never stores, verifies or announces anything by
       itself: it changes that one writer and may schedule that writer's three callbacks, nothing else. *)
Theorem C01_write_stores_nothing : forall H h i d s,
  let s' := fst (write H h i d s) in
  s_store s' = s_store s /\ s_io s' = s_io s /\ s_verified s' = s_verified s /\ s_writing s' = s_writing s
  /\ s_completed s' = s_completed s /\ s_len s' = s_len s /\ s_map s' = s_map s
  /\ (forall b, In (QTask b) (s_q s') -> In (QTask b) (s_q s)).
Proof. exact write_frame. Qed.
Print Assumptions C01_write_stores_nothing.

(* 3. Chunking is irrelevant: two chunkings of the same data (total not above the blob length) leave the
      writer in the same state; and the state-level run of the chunk writes computes exactly [feed]. *)
Theorem C01_chunking_irrelevant : forall H h L w cs1 cs2,
  live L w -> N.of_nat (length (w_buf w)) < L ->
  concat cs1 = concat cs2 -> N.of_nat (length (w_buf w ++ concat cs1)) <= L ->
  feed H h (Some L) w cs1 = feed H h (Some L) w cs2.
Proof. exact chunking_irrelevant. Qed.
Print Assumptions C01_chunking_irrelevant.

Theorem C01_chunk_writes_are_feed : forall H h kd cb i cs s w,
  nth_error (s_ws s) i = Some w ->
  nth_error (s_ws (run H h kd cb (map (Write i) cs) s)) i = Some (feed H h (s_len s) w cs).
Proof. exact run_writes_feed. Qed.
Print Assumptions C01_chunk_writes_are_feed.

(* [nofail s]: no callback of a save whose executor job FAILED (IoFail: disk full, no permission, ...) is still
   queued in s.  A failed write leaves the blob unverified and writeable (theorem 1 covers every history, failed
   writes included: never verified without the bytes stored); the next complete correct copy is then saved again. *)

(* 4. First complete correct copy wins - on a fresh object and on every later delivery to the same object: after
      ANY history (reads and deletes included), if a live writer receives the chunk that completes a correct copy,
      then (a) whatever operations other than a reset follow, as soon as the ready queue is empty and the executor
      has no job, the blob is verified and the store holds bytes of the accepted length hashing to the name;
      (b) drain; io; drain reaches such a state, with writing cleared, and - if nothing was being saved before -
      the completion callback called exactly once more than the calls already made or already queued. *)
Theorem C01_first_complete_copy_wins : forall H h kd cb file expected, start_ok H h kd file expected -> forall ops i w d L,
  let s := run H h kd cb ops (start kd file expected) in
  nth_error (s_ws s) i = Some w -> w_open w = true -> w_fut w = FPending -> s_len s = Some L -> 0 < L ->
  N.of_nat (length (w_buf w ++ d)) = L -> H (w_buf w ++ d) = h ->
  nofail s ->
  let s1 := fst (step H h kd cb (Write i d) s) in
  (forall ops', core_ops ops' -> let s' := run H h kd cb ops' s1 in s_q s' = [] -> s_io s' = None ->
     s_verified s' = true /\ exists b, s_store s' = Some b /\ H b = h /\ N.of_nat (length b) = L)
  /\ (let s4 := run H h kd cb [Drain; IoDone; Drain] s1 in
      s_q s4 = [] /\ s_verified s4 = true /\ s_writing s4 = false
      /\ (exists b, s_store s4 = Some b /\ H b = h /\ N.of_nat (length b) = L)
      /\ (s_verified s = false -> s_writing s = false ->
          s_completed s4 = (s_completed s + cnt is_cp (s_q s) + if cb then 1 else 0)%nat)).
Proof.
  exact (fun H h kd cb file expected Ok ops i w d L => copy_wins H h kd cb _ i w d L (start_all H h kd cb file expected Ok ops)).
Qed.
Print Assumptions C01_first_complete_copy_wins.

(* 4a. "... with exactly those bytes stored".  If, at the moment the live writer completes its correct copy t,
       the blob is neither verified nor being saved and every writer_finished_callback still waiting in the ready
       queue belongs to a writer that finished WITHOUT a result ([loser]) - i.e. this copy is the first - then
       whatever happens afterwards (until the object is reset) nothing but t is ever in the store.  (Without "first", theorem 4 still gives
       bytes of the same length and the same hash: equal to t unless H collides.) *)
Theorem C01_first_complete_copy_exact_bytes : forall H h kd cb file expected, start_ok H h kd file expected -> forall ops i w d L,
  let s := run H h kd cb ops (start kd file expected) in
  nth_error (s_ws s) i = Some w -> w_open w = true -> w_fut w = FPending -> s_len s = Some L -> 0 < L ->
  N.of_nat (length (w_buf w ++ d)) = L -> H (w_buf w ++ d) = h ->
  s_verified s = false -> s_writing s = false ->
  (forall j, In (QWfc j) (s_q s) -> loser s j) ->
  nofail s ->
  let s1 := fst (step H h kd cb (Write i d) s) in
  forall ops' x, core_ops ops' -> s_store (run H h kd cb ops' s1) = Some x -> x = w_buf w ++ d.
Proof.
  exact (fun H h kd cb file expected Ok ops i w d L => copy_exact H h kd cb _ i w d L (start_all H h kd cb file expected Ok ops)).
Qed.
Print Assumptions C01_first_complete_copy_exact_bytes.

(* 4b. ... and every other writer is shut down, after ANY history: after the first drain (and still after
       drain; io; drain) no writer at all is open or pending, and no writer was created meanwhile. *)
Theorem C01_first_complete_copy_closes_others : forall H h kd cb file expected, start_ok H h kd file expected -> forall ops i w d L,
  let s := run H h kd cb ops (start kd file expected) in
  nth_error (s_ws s) i = Some w -> w_open w = true -> w_fut w = FPending -> s_len s = Some L -> 0 < L ->
  N.of_nat (length (w_buf w ++ d)) = L -> H (w_buf w ++ d) = h ->
  let s1 := fst (step H h kd cb (Write i d) s) in
  let s2 := run H h kd cb [Drain] s1 in
  let s4 := run H h kd cb [Drain; IoDone; Drain] s1 in
  (forall j wj, nth_error (s_ws s2) j = Some wj -> w_open wj = false /\ w_fut wj <> FPending)
  /\ (forall j wj, nth_error (s_ws s4) j = Some wj -> w_open wj = false /\ w_fut wj <> FPending)
  /\ length (s_ws s4) = length (s_ws s).
Proof.
  exact (fun H h kd cb file expected Ok ops i w d L => copy_closes_others H h kd cb _ i w d L (start_all H h kd cb file expected Ok ops)).
Qed.
Print Assumptions C01_first_complete_copy_closes_others.

(* 4c. The completion callback never fires twice on an object that is not reset in between. *)
Theorem C01_completed_at_most_once : forall H h kd cb file expected, start_ok H h kd file expected -> forall ops, core_ops ops ->
  (s_completed (run H h kd cb ops (start kd file expected)) <= 1)%nat.
Proof. exact (fun H h kd cb file expected Ok => completed_at_most_once H h kd cb _ (start_begins H h kd file expected Ok)). Qed.
Print Assumptions C01_completed_at_most_once.

(* 4d. Drain really terminates with an empty ready queue, from any state. *)
Theorem C01_drain_quiescent : forall kd cb s, s_q (drain kd cb s) = [].
Proof. exact drain_quiescent. Qed.
Print Assumptions C01_drain_quiescent.

(* 5. An accepted length is at most 2^21 and is changed by nothing but delete(); a length outside 0..2^21 is
      refused in every state; a length inside is accepted when none was accepted before. *)
Theorem C01_length_once_bounded : forall H h kd cb file expected, start_ok H h kd file expected -> forall ops1 ops2 L,
  s_len (run H h kd cb ops1 (start kd file expected)) = Some L ->
  L <= MAX_BLOB_SIZE /\ (no_delete ops2 -> s_len (run H h kd cb (ops1 ++ ops2) (start kd file expected)) = Some L).
Proof. exact (fun H h kd cb file expected Ok => length_once_bounded H h kd cb _ (start_begins H h kd file expected Ok)). Qed.
Print Assumptions C01_length_once_bounded.

Theorem C01_length_outside_refused : forall n s,
  (n < 0 \/ Z.of_N MAX_BLOB_SIZE < n)%Z -> set_length n s = s.
Proof. exact set_length_refused. Qed.
Print Assumptions C01_length_outside_refused.

Theorem C01_length_inside_accepted : forall n s,
  (0 <= n <= Z.of_N MAX_BLOB_SIZE)%Z -> s_len s = None -> s_len (set_length n s) = Some (Z.to_N n).
Proof. exact set_length_accepted. Qed.
Print Assumptions C01_length_inside_accepted.

(* 5b. BlobManager.is_blob_verified(hash, any length) and ensure_completed_blobs_status([hash]) for the object the
       manager holds are pure queries, and they answer "yes" - the latter then records the blob as 'finished', which is
       what gets it announced (theorem 6) - only for a verified blob storing bytes of the accepted length that hash
       to the name, after any history. *)
Theorem C01_manager_says_verified_only_if_verified : forall H h kd cb file expected, start_ok H h kd file expected ->
  forall ops o, (o = Ensure \/ exists n, o = IsVerified n) ->
  snd (step H h kd cb o (run H h kd cb ops (start kd file expected))) = RBool true ->
  let s := run H h kd cb ops (start kd file expected) in
  fst (step H h kd cb o s) = s /\ s_verified s = true /\
  exists b L, s_store s = Some b /\ s_len s = Some L /\ N.of_nat (length b) = L
              /\ 0 < L <= MAX_BLOB_SIZE /\ H b = h.
Proof. exact (fun H h kd cb file expected Ok ops o => manager_yes_only_verified H h kd cb _ o (proj1 (start_all H h kd cb file expected Ok ops))). Qed.
Print Assumptions C01_manager_says_verified_only_if_verified.

(* 6. "... announced only if ...".  The blob table and get_blobs_to_announce (Model/C01Announce.v), for every list
      of table operations (add_blobs pending/finished, set_announce, single announce, update_last_announced,
      downgrade to pending, delete), both settings of announce_head_and_sd_only and every clock value: a hash is
      handed to the announcer only if add_blobs(..., finished=True) was called for it - which only
      BlobManager.blob_completed does, for a BlobFile, i.e. the completion callback of theorems 1 and 4 (so the blob
      is verified and stores bytes of the announced length hashing to its name). *)
Theorem C01_announced_only_if_completed : forall ops head_and_sd_only now h,
  In h (to_announce head_and_sd_only now (arun ops [])) -> In h (completed_of ops).
Proof. exact announce_only_completed. Qed.
Print Assumptions C01_announced_only_if_completed.

(* 6b. A blob whose row is pending (only known from a stream descriptor, or its download failed) is not handed
       out, under either setting; and the head-and-sd-only list is contained in the announce-everything list. *)
Theorem C01_pending_never_announced : forall head_and_sd_only now t h,
  (forall r, In r t -> r_hash r = h -> is_fin r = false) -> ~ In h (to_announce head_and_sd_only now t).
Proof. exact pending_not_announced. Qed.
Print Assumptions C01_pending_never_announced.

Theorem C01_announce_head_only_subset : forall now t h,
  In h (to_announce true now t) -> In h (to_announce false now t).
Proof. exact head_only_subset. Qed.
Print Assumptions C01_announce_head_only_subset.

(* ---- non-vacuity: concrete histories (toy hash: H b = b, so the blob named [1;2;3] is the bytes 1 2 3) ---- *)
Definition Hid (b : bytes) : bytes := b.
Definition nm : bytes := [Byte.x01; Byte.x02; Byte.x03].

(* two peers, the first sends a corrupted copy in two chunks, the second the correct one in three.  After
   [ex_ops] the hypotheses of theorems 4, 4a and 4b hold for writer 1 and the missing chunk [3] ... *)
Definition ex_ops : list op :=
  [SetLength 3; Open 1; Open 2; Write 0 [Byte.x01]; Write 1 [Byte.x01]; Write 0 [Byte.x02; Byte.xff];
   Write 1 [Byte.x02]; Tick].
Example C01_ex_hypotheses :
  let s := run Hid nm KFile true ex_ops init in
  (exists w, nth_error (s_ws s) 1 = Some w /\ w_open w = true /\ w_fut w = FPending
                /\ w_buf w = [Byte.x01; Byte.x02]) /\ s_len s = Some 3
  /\ s_verified s = false /\ s_writing s = false /\ s_q s = [].
Proof. exact ex_hypotheses. Qed.
(* ... and the run ends as the theorems say: written once, verified, callback once, both writers closed *)
Example C01_ex_wins :
  let s := run Hid nm KFile true (ex_ops ++ [Write 1 [Byte.x03]; Drain; IoDone; Drain]) init in
  (s_verified s, s_store s, s_completed s, map w_open (s_ws s), map w_fut (s_ws s), s_q s)
  = (true, Some nm, 1%nat, [false; false], [FErrHash; FOk nm], []).
Proof. vm_compute. reflexivity. Qed.

(* the same object again: a BlobBuffer is read out (consumed), a second peer delivers, verified again, second call;
   a BlobFile is deleted, the length announced again, delivered again *)
Example C01_ex_redownload_buffer :
  let s := run Hid nm KBuffer true [SetLength 3; Open 1; Write 0 nm; Drain; IoDone; Drain; Read; Open 2;
                                     Write 1 [Byte.x01; Byte.x02]; Write 1 [Byte.x03]; Drain; IoDone; Drain] init in
  (s_verified s, s_store s, s_completed s, map w_fut (s_ws s)) = (true, Some nm, 2%nat, [FOk nm; FOk nm]).
Proof. vm_compute. reflexivity. Qed.
Example C01_ex_redownload_file :
  let s := run Hid nm KFile true [SetLength 3; Open 1; Write 0 nm; Drain; IoDone; Drain; Delete; SetLength 3; Open 1;
                                   Write 1 nm; Drain; IoDone; Drain] init in
  (s_verified s, s_store s, s_len s, s_completed s) = (true, Some nm, Some 3, 2%nat).
Proof. vm_compute. reflexivity. Qed.

(* restart over a truncated file with the length known: the file is dropped, nothing verified, and the blob is
   downloaded again; over an intact file: verified at once, a writer is refused *)
Example C01_ex_restart_truncated :
  let s0 := start KFile (Some [Byte.x01; Byte.x02]) (Some 3) in
  let s := run Hid nm KFile true [SetLength 3; Open 1; Write 0 nm; Drain; IoDone; Drain] s0 in
  (s_verified s0, s_store s0, s_len s0, s_verified s, s_store s, s_completed s) = (false, None, None, true, Some nm, 1%nat).
Proof. vm_compute. reflexivity. Qed.
Example C01_ex_restart_intact :
  let s0 := start KFile (Some nm) (Some 3) in
  (s_verified s0, s_store s0, s_len s0, snd (step Hid nm KFile true (Open 1) s0)) = (true, Some nm, Some 3, ROSError).
Proof. vm_compute. reflexivity. Qed.

(* three blobs known from a descriptor (pending); blob 3 is completed, blob 1 got a corrupted copy, blob 2 a
   truncated one: only 3 is handed to the announcer when everything is announced, nothing under head-and-sd-only
   until 3 is flagged *)
Example C01_ex_announce :
  let t := arun [AAdd 1 false; AAdd 2 false; AAdd 3 false; AAdd 3 true] [] in
  (to_announce false 1000 t, to_announce true 1000 t, to_announce true 1000 (arun [AShould 3; AShould 1] t)) = ([3], [], [3]).
Proof. vm_compute. reflexivity. Qed.

(* the defect repaired by 82794e2 (the done-callbacks of save_verified_blob ignored the outcome of the write task),
   on a model of the OLD code ([run_oldfail]) and on the model: a complete correct copy is delivered, the disk write
   fails; old: verified, completion callback fired, nothing stored; now: not verified, writeable, nothing announced,
   and a second delivery is saved *)
Example C01_failed_write_marks_verified_refuted :
  let ops := [SetLength 3; Open 1; Write 0 nm; Drain; IoFail; Drain] in
  let so := run_oldfail Hid nm KFile true ops init in
  let sn := run Hid nm KFile true ops init in
  let sr := run Hid nm KFile true (ops ++ [Open 2; Write 1 nm; Drain; IoDone; Drain]) init in
  (s_verified so, s_store so, s_completed so) = (true, None, 1%nat)
  /\ (s_verified sn, s_store sn, s_completed sn, s_writing sn, s_q sn) = (false, None, 0%nat, false, [])
  /\ (s_verified sr, s_store sr, s_completed sr) = (true, Some nm, 1%nat).
Proof. exact failed_write_old_vs_new. Qed.

(* over-long by one byte: InvalidDataError, nothing stored, nothing verified *)
Example C01_ex_overlong :
  let s := run Hid nm KBuffer true [SetLength 3; Open 0; Write 0 [Byte.x01; Byte.x02]; Write 0 [Byte.x03; Byte.x00];
                                     Drain; IoDone; Drain] init in
  (s_verified s, s_store s, s_completed s, map w_fut (s_ws s)) = (false, None, 0%nat, [FErrLen]).
Proof. vm_compute. reflexivity. Qed.

(* the boundary of the length check *)
Example C01_ex_length :
  (s_len (set_length 2097152 init), s_len (set_length 2097153 init), s_len (set_length (-1) init),
   s_len (set_length 0 init), s_len (set_length 5 (set_length 3 init)))
  = (Some 2097152, None, None, Some 0, Some 3).
Proof. vm_compute. reflexivity. Qed.

(* The defect repaired by 597bcef, as a machine-checked fact about a model of the OLD code ([run_old]:
   remove_writer deleted writers[key] whoever was registered under it): peer 1 fails, is opened again before the
   loop ran, the stale remove_writer of the failed writer unregistered the NEW writer, so when peer 2 delivered the
   blob, writer 1 was neither closed nor cancelled - theorem 4b was false for the old code.  The repaired model
   closes it on the same history. *)
Definition stale_ops : list op :=
  [SetLength 3; Open 1; Write 0 [Byte.x01; Byte.x02; Byte.x03; Byte.x04]; Open 1; Tick; Open 2;
   Write 2 nm; Drain; IoDone; Drain].
Example C01_stale_reopen_orphans_writer_refuted :
  let so := run_old Hid nm KFile true stale_ops init in
  let sn := run Hid nm KFile true stale_ops init in
  (s_verified so, map w_open (s_ws so), map w_fut (s_ws so)) = (true, [false; true; false], [FErrLen; FPending; FOk nm])
  /\ (s_verified sn, map w_open (s_ws sn), map w_fut (s_ws sn))
     = (true, [false; false; false], [FErrLen; FCancelled; FOk nm]).
Proof. exact stale_reopen_old_vs_new. Qed.
