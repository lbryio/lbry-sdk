(* C17 property theorems: statements only, each closed by [exact]. *)
From Coq Require Import String.
From Coq Require Import NArith ZArith List Bool.
From Coq.Strings Require Import Byte.
From LV Require Import Lib.Bytes Lib.Decimal Model.C17 Proofs.C17_Int Proofs.C17_Bencode Proofs.C17_Msg Proofs.C17_Prefix Proofs.C17_Total Proofs.C17_Request Proofs.C17_Size.
Import ListNotations.
Local Open Scope N_scope.

(* Python's int() reads back every integer that '%d' can print (at most 4300 digits: NBOUND = 10^4300). *)
Theorem C17_int_roundtrip : forall z : Z, (Z.abs z < Z.of_N NBOUND)%Z -> py_int_of_bytes (dec_of_Z z) = Some z.
Proof. exact py_int_dec_of_Z. Qed.
Print Assumptions C17_int_roundtrip.

Theorem C17_int_bound : NBOUND = 10 ^ N.of_nat 4300.
Proof. exact NBOUND_pow. Qed.
Print Assumptions C17_int_bound.

(* One call of _bdecode on bencode(v) followed by ANY bytes T returns v and leaves exactly T, for EVERY value
   (dictionaries and lists nested anywhere; [wfv] only asks what Python itself needs: integers and lengths within
   the 4300 digit limit, int / bytes keys listed in key order without repetition), any nesting depth within the
   bound, any loop budget at least the encoding's length. *)
Theorem C17_bdecode_bencode : forall v, wfv v -> forall steps depth T,
  (depth_of v <= depth)%nat -> (length (benc v) <= steps)%nat ->
  bdec steps depth (benc v ++ T) = Ok (v, T).
Proof. exact bdec_benc. Qed.
Print Assumptions C17_bdecode_bencode.

(* decode_datagram (encode m) = m for ALL well-formed requests (ping/store/findNode/findValue), responses
   (any payload in [wfv], nested dictionaries included: contact lists of any length, peer pages, findValue dictionaries, tokens) and errors
   (any valid UTF-8 texts), for every nesting bound that covers the message. *)
Theorem C17_message_roundtrip : forall fuel m,
  wf_message m -> (message_depth m <= fuel)%nat ->
  decode_datagram fuel (encode_message m) = inl (raw_of_message m).
Proof. exact decode_encode_message. Qed.
Print Assumptions C17_message_roundtrip.

(* Truncated datagrams are dropped: EVERY proper prefix of the datagram of a well-formed message (any request,
   response payload, error) is rejected by decode_datagram -- in particular the datagram without its last byte
   (which the decoder accepted before fix 67aa5e2). *)
Theorem C17_truncation_is_rejected : forall fuel m k,
  wf_message m -> (message_depth m <= fuel)%nat -> (k < length (encode_message m))%nat ->
  exists e, decode_datagram fuel (firstn k (encode_message m)) = inr e.
Proof. exact truncated_message_rejected. Qed.
Print Assumptions C17_truncation_is_rejected.

Theorem C17_last_byte_cut_is_rejected : forall fuel m,
  wf_message m -> (message_depth m <= fuel)%nat ->
  exists e, decode_datagram fuel (removelast (encode_message m)) = inr e.
Proof. exact last_byte_cut_rejected. Qed.
Print Assumptions C17_last_byte_cut_is_rejected.

(* the same one level down: on a proper prefix of bencode(v) the decoder fails, or (a cut-off string, read as a
   shorter one) swallows everything so that the enclosing loop fails; for lists and dictionaries it always fails *)
Theorem C17_bdecode_prefix : forall v, wfv v -> forall steps depth p q,
  p ++ q = benc v -> q <> [] -> (depth_of v <= depth)%nat -> (length p <= steps)%nat ->
  match v with
  | BList _ | BDict _ => is_err (bdec steps depth p)
  | _ => stuck (bdec steps depth p)
  end.
Proof. exact (fun v Hw steps depth p q H Hq Hd _ => bdec_prefix_stuck v Hw steps depth p q H Hq Hd). Qed.
Print Assumptions C17_bdecode_prefix.

(* instances: every request and every error needs nesting 4 resp. 2; contact lists and peer pages of ANY length *)
Theorem C17_request_roundtrip : forall fuel rpc node r,
  blen rpc = 20 -> blen node = 48 -> request_ok r -> (4 <= fuel)%nat ->
  decode_datagram fuel (encode_message (Request rpc node r))
  = inl (RReq rpc node (BStr (method_of r)) (BList (args_of node r))).
Proof. exact request_roundtrip. Qed.
Print Assumptions C17_request_roundtrip.

Theorem C17_error_roundtrip : forall fuel rpc node et tx,
  blen rpc = 20 -> blen node = 48 -> small et -> small tx -> utf8_valid et = true -> utf8_valid tx = true ->
  (2 <= fuel)%nat ->
  decode_datagram fuel (encode_message (Error rpc node et tx)) = inl (RErr rpc node et tx).
Proof. exact error_roundtrip. Qed.
Print Assumptions C17_error_roundtrip.

Theorem C17_contacts_response_roundtrip : forall fuel rpc node (l : list (bytes * bytes * Z)),
  blen rpc = 20 -> blen node = 48 -> Forall contact_ok l -> (4 <= fuel)%nat ->
  decode_datagram fuel (encode_message (Response rpc node (contacts_val l))) = inl (RResp rpc node (contacts_val l)).
Proof. exact contacts_roundtrip. Qed.
Print Assumptions C17_contacts_response_roundtrip.

Theorem C17_peers_response_roundtrip : forall fuel rpc node (l : list bytes),
  blen rpc = 20 -> blen node = 48 -> Forall small l -> (3 <= fuel)%nat ->
  decode_datagram fuel (encode_message (Response rpc node (peers_val l))) = inl (RResp rpc node (peers_val l)).
Proof. exact peers_roundtrip. Qed.
Print Assumptions C17_peers_response_roundtrip.

(* The code-shaped encoder (pre-encodes the pairs, insertion-sorts them by key) agrees with a plain structural
   reference encoder on every value whose dictionaries are listed in key order, hence on every message. *)
Theorem C17_reference_agrees_values : forall v, canonical v -> benc v = ref_benc v.
Proof. exact benc_ref. Qed.
Print Assumptions C17_reference_agrees_values.

Theorem C17_reference_agrees : forall m, wf_message m -> encode_message m = ref_benc (value_of_message m).
Proof. exact encode_message_ref. Qed.
Print Assumptions C17_reference_agrees.

(* and the order in which a dictionary's items are listed does not matter to the encoder *)
Theorem C17_encoding_ignores_dict_order : forall d d',
  Permutation.Permutation d d' -> keys_nodup d -> Forall (fun p => hashable (fst p) = true) d ->
  benc (BDict d) = benc (BDict d').
Proof. exact benc_dict_perm. Qed.
Print Assumptions C17_encoding_ignores_dict_order.

(* byte-for-byte wire layout *)
Theorem C17_ping_layout : forall rpc node, blen rpc = 20 -> blen node = 48 ->
  encode_message (Request rpc node Ping)
  = lit "di0ei0ei1e20:" ++ rpc ++ lit "i2e48:" ++ node ++ lit "i3e4:pingi4eld15:protocolVersioni1eeee".
Proof. exact ping_layout. Qed.
Print Assumptions C17_ping_layout.

Theorem C17_find_node_layout : forall rpc node key, blen rpc = 20 -> blen node = 48 -> blen key = 48 ->
  encode_message (Request rpc node (FindNode key))
  = lit "di0ei0ei1e20:" ++ rpc ++ lit "i2e48:" ++ node ++ lit "i3e8:findNodei4el48:" ++ key
    ++ lit "d15:protocolVersioni1eeee".
Proof. exact find_node_layout. Qed.
Print Assumptions C17_find_node_layout.

(* compact addresses: make then decode, and decode then make *)
Theorem C17_compact_address_roundtrip : forall node a b c d port,
  blen node = 48 -> (0 < port < 65536)%Z ->
  make_compact_address node (dotted a b c d) port = Ok ([a; b; c; d] ++ be_encode 2 (Z.to_N port) ++ node)
  /\ decode_compact_address ([a; b; c; d] ++ be_encode 2 (Z.to_N port) ++ node) = Ok (node, dotted a b c d, port).
Proof. exact compact_address_roundtrip. Qed.
Print Assumptions C17_compact_address_roundtrip.

Theorem C17_compact_address_decode_make : forall ca node addr port,
  decode_compact_address ca = Ok (node, addr, port) -> make_compact_address node addr port = Ok ca.
Proof. exact compact_address_decode_make. Qed.
Print Assumptions C17_compact_address_decode_make.

(* Garbage is dropped: for ALL byte strings and nesting bounds, whenever decoding fails (with whatever error),
   the handler's effect is exactly one failure recorded for the sender; routing table, data store and
   everything else are unchanged -- whatever the handlers for decoded messages do. *)
Theorem C17_garbage_is_dropped :
  forall (Routing Store Other Addr : Type)
         (process : node_state Routing Store Other Addr -> Addr -> rawmsg -> node_state Routing Store Other Addr)
         fuel st sender data e,
  decode_datagram fuel data = inr e ->
  let st' := datagram_received Routing Store Other Addr process fuel st sender data in
  routing _ _ _ _ st' = routing _ _ _ _ st /\ store _ _ _ _ st' = store _ _ _ _ st
  /\ other _ _ _ _ st' = other _ _ _ _ st /\ failures _ _ _ _ st' = sender :: failures _ _ _ _ st.
Proof. exact garbage_dropped. Qed.
Print Assumptions C17_garbage_is_dropped.

(* ... and for every SEQUENCE of undecodable datagrams from any senders *)
Theorem C17_garbage_sequences_are_dropped :
  forall (Routing Store Other Addr : Type)
         (process : node_state Routing Store Other Addr -> Addr -> rawmsg -> node_state Routing Store Other Addr)
         fuel (l : list (Addr * bytes)) st,
  Forall (fun p => exists e, decode_datagram fuel (snd p) = inr e) l ->
  let st' := receive_all Routing Store Other Addr process fuel st l in
  routing _ _ _ _ st' = routing _ _ _ _ st /\ store _ _ _ _ st' = store _ _ _ _ st
  /\ other _ _ _ _ st' = other _ _ _ _ st /\ failures _ _ _ _ st' = rev (map fst l) ++ failures _ _ _ _ st.
Proof. exact garbage_sequence_dropped. Qed.
Print Assumptions C17_garbage_sequences_are_dropped.

(* The decoder is total and its own loop budget is never the reason for an answer: on every byte string and
   every nesting bound it returns a message or one of the seven Python error classes that the handler catches. *)
Theorem C17_decoder_total : forall fuel data,
  match decode_datagram fuel data with
  | inl _ => True
  | inr e => e <> EInternal
  end.
Proof. exact decode_never_internal. Qed.
Print Assumptions C17_decoder_total.

(* What can be accepted at all: a dictionary (first byte 'd') whose ids are byte strings of 20 and 48 bytes,
   and whose error texts are valid UTF-8. *)
Theorem C17_accepted_header : forall fuel data m,
  decode_datagram fuel data = inl m ->
  blen (raw_rpc m) = 20 /\ blen (raw_node m) = 48
  /\ match m with RErr _ _ et tx => utf8_valid et = true /\ utf8_valid tx = true | _ => True end.
Proof. exact accepted_header. Qed.
Print Assumptions C17_accepted_header.

Theorem C17_accepted_starts_with_d : forall fuel data m,
  decode_datagram fuel data = inl m -> exists rest, data = c_d :: rest.
Proof. exact accepted_first_byte. Qed.
Print Assumptions C17_accepted_starts_with_d.

(* hence every datagram that does not start with 'd' is dropped: one failure for the sender, nothing else *)
Theorem C17_non_dictionary_is_dropped :
  forall (Routing Store Other Addr : Type)
         (process : node_state Routing Store Other Addr -> Addr -> rawmsg -> node_state Routing Store Other Addr)
         fuel st sender data,
  (forall rest, data <> c_d :: rest) ->
  let st' := datagram_received Routing Store Other Addr process fuel st sender data in
  routing _ _ _ _ st' = routing _ _ _ _ st /\ store _ _ _ _ st' = store _ _ _ _ st
  /\ other _ _ _ _ st' = other _ _ _ _ st /\ failures _ _ _ _ st' = sender :: failures _ _ _ _ st.
Proof. exact non_dictionary_dropped. Qed.
Print Assumptions C17_non_dictionary_is_dropped.

(* Decodes-but-invalid requests: for ALL byte strings, own ids, nesting bounds and whatever the abstract parts of
   the node do (which addresses can be contacts, reply transport, serving of VALID requests, response/error
   handling): a datagram that cannot be decoded, or that decodes to a request that is not a valid protocol request
   (unknown method, wrong arity, wrong key / hash length, bad store arguments, our own id, ...), never changes the
   routing component (table, queued additions/removals, ping queue) or the data store, and EXACTLY one failure is
   recorded for the address the datagram came from (fix 037dcb4: not for a routing-table contact that merely
   shares the node id, and also when that address cannot be a contact). *)
Theorem C17_invalid_request_never_changes_routing :
  forall (Routing Store Other Addr : Type) (usable : Addr -> bool)
         (note_request : Other -> Addr -> Other) (error_reply : Other -> Addr -> rawmsg -> Other)
         (serve process_other : node_state Routing Store Other Addr -> Addr -> rawmsg -> node_state Routing Store Other Addr)
         own fuel st sender data,
  match decode_datagram fuel data with
  | inr _ => True
  | inl m => is_request m = true /\ request_valid own m = false
  end ->
  let st' := node_receive Routing Store Other Addr usable note_request error_reply serve process_other
                          own fuel st sender data in
  routing _ _ _ _ st' = routing _ _ _ _ st /\ store _ _ _ _ st' = store _ _ _ _ st
  /\ failures _ _ _ _ st' = sender :: failures _ _ _ _ st.
Proof. exact not_a_valid_request_leaves_routing. Qed.
Print Assumptions C17_invalid_request_never_changes_routing.

(* what is (in)valid: unknown or non-bytes method, our own node id, a key that is not 48 bytes; and every request
   the protocol's own constructors build for another node is valid *)
Theorem C17_unknown_method_invalid : forall own rpc node method args,
  bytes_eqb method s_ping = false -> bytes_eqb method s_store = false ->
  bytes_eqb method s_findNode = false -> bytes_eqb method s_findValue = false ->
  request_valid own (RReq rpc node (BStr method) args) = false.
Proof. exact unknown_method_invalid. Qed.
Print Assumptions C17_unknown_method_invalid.

Theorem C17_own_id_invalid : forall own rpc method args, request_valid own (RReq rpc own method args) = false.
Proof. exact own_id_invalid. Qed.
Print Assumptions C17_own_id_invalid.

Theorem C17_short_key_invalid : forall own rpc node key rest, blen key <> 48 ->
  request_valid own (RReq rpc node (BStr s_findNode) (BList (BStr key :: rest ++ [pv_dict]))) = false
  /\ request_valid own (RReq rpc node (BStr s_findValue) (BList (BStr key :: rest ++ [pv_dict]))) = false.
Proof. exact short_key_invalid. Qed.
Print Assumptions C17_short_key_invalid.

Theorem C17_protocol_requests_valid : forall own rpc node r,
  node <> own -> request_servable r -> request_valid own (raw_of_message (Request rpc node r)) = true.
Proof. exact protocol_requests_valid. Qed.
Print Assumptions C17_protocol_requests_valid.

(* The error reply: cutting a text after n CHARACTERS keeps it valid UTF-8 (a cut after n bytes does not), so the
   text echoed for an unknown method of any length -- 'Invalid method: <name>' cut to 256 characters -- always
   builds a decodable ErrorDatagram of at most 1024 text bytes. *)
Theorem C17_truncation_by_characters_keeps_utf8 : forall n s, utf8_valid s = true -> utf8_valid (utf8_take n s) = true.
Proof. exact utf8_take_valid. Qed.
Print Assumptions C17_truncation_by_characters_keeps_utf8.

Theorem C17_error_text_is_valid_utf8 : forall method,
  utf8_valid method = true ->
  utf8_valid (invalid_method_text method) = true
  /\ (length (invalid_method_text method) <= 1024)%nat
  /\ exists t, s_invalid_method ++ method = invalid_method_text method ++ t.
Proof. exact invalid_method_text_ok. Qed.
Print Assumptions C17_error_text_is_valid_utf8.

(* "With the sender's failure recorded" on a long-running node: the failure records live in lbry.utils.LRUCache
   (capacity CACHE_SIZE = 16384).  For every capacity and every table, however full: the key that was just set is
   present with its value; the capacity is respected; unless the oldest entry had to make room every other key
   keeps its value; hence report_failure always leaves a record (previous newest, now) for the sender. *)
Theorem C17_lru_set_keeps_the_new_entry :
  forall (K V : Type) (keqb : K -> K -> bool), (forall a b, keqb a b = true <-> a = b) ->
  forall cap (c : lru K V) k v, lru_peek K V keqb (lru_set K V keqb cap c k v) k = Some v.
Proof. exact lru_set_peek. Qed.
Print Assumptions C17_lru_set_keeps_the_new_entry.

Theorem C17_lru_capacity_respected :
  forall (K V : Type) (keqb : K -> K -> bool), (forall a b, keqb a b = true <-> a = b) ->
  forall cap (c : lru K V) k v, (1 <= cap)%nat -> (length c <= cap)%nat ->
  (length (lru_set K V keqb cap c k v) <= cap)%nat.
Proof. exact lru_set_length. Qed.
Print Assumptions C17_lru_capacity_respected.

Theorem C17_lru_other_keys_kept :
  forall (K V : Type) (keqb : K -> K -> bool), (forall a b, keqb a b = true <-> a = b) ->
  forall cap (c : lru K V) k v k', k' <> k ->
  (lru_has K V keqb c k = true \/ (length c < cap)%nat) ->
  lru_peek K V keqb (lru_set K V keqb cap c k v) k' = lru_peek K V keqb c k'.
Proof. exact lru_set_other. Qed.
Print Assumptions C17_lru_other_keys_kept.

Theorem C17_failure_recorded_in_a_full_table :
  forall (K : Type) (keqb : K -> K -> bool), (forall a b, keqb a b = true <-> a = b) ->
  forall cap (c : lru K (option N * option N)) addr now,
  lru_peek K _ keqb (report_failure keqb cap c addr now) addr
  = Some (match lru_peek K _ keqb c addr with Some (_, last) => last | None => None end, Some now).
Proof. exact report_failure_recorded. Qed.
Print Assumptions C17_failure_recorded_in_a_full_table.

Theorem C17_failure_table_bounded :
  forall (K : Type) (keqb : K -> K -> bool), (forall a b, keqb a b = true <-> a = b) ->
  forall cap (c : lru K (option N * option N)) addr now,
  (1 <= cap)%nat -> (length c <= cap)%nat -> (length (report_failure keqb cap c addr now) <= cap)%nat.
Proof. exact report_failure_bounded. Qed.
Print Assumptions C17_failure_table_bounded.

(* "Every ... response ... encodes to a datagram": the largest reply the node produces -- the first findValue page
   with K = 8 contacts (15-character addresses, 5-digit ports), 8 compact peer addresses, the token and a page count
   below 10^6 -- is at most 1328 bytes, within MSG_SIZE_LIMIT = 1400, so KademliaProtocol._send does not refuse it. *)
Theorem C17_largest_reply_fits : forall rpc node token key contacts peers pages,
  length rpc = 20%nat -> length node = 48%nat -> length token = 48%nat -> length key = 48%nat ->
  (length contacts <= 8)%nat -> Forall contact_small contacts ->
  (length peers <= 8)%nat -> Forall (fun p => length p = 54%nat) peers -> (0 <= pages < 1000000)%Z ->
  (length (encode_message (Response rpc node (find_value_payload token key contacts peers pages))) <= MSG_SIZE_LIMIT)%nat.
Proof. exact (largest_reply_fits MSG_SIZE_LIMIT reply_below_limit). Qed.
Print Assumptions C17_largest_reply_fits.

(* every ASCII text is a valid error text *)
Theorem C17_ascii_is_utf8 : forall s, Forall (fun b => N_of_byte b <= 127) s -> utf8_valid s = true.
Proof. exact ascii_utf8. Qed.
Print Assumptions C17_ascii_is_utf8.

(* the defect repaired by 774587f, on the model of the OLD validation: a list of 20 integers passed as rpc_id *)
Theorem C17_old_id_check_refuted :
  let rpc := BList (repeat (BInt 0) 20) in
  let node := BStr (repeat (byte_of_N 110) 48) in
  check_ids_old rpc node = None /\ check_ids rpc node = Err EValue.
Proof. exact (conj eq_refl eq_refl). Qed.
Print Assumptions C17_old_id_check_refuted.

(* ---- non-vacuity and the regression corpus, evaluated on the model ---- *)
Definition rpc20 : bytes := repeat (byte_of_N 114) 20.
Definition node48 : bytes := repeat (byte_of_N 110) 48.

Example C17_ex_ping : decode_datagram 10 (encode_message (Request rpc20 node48 Ping))
  = inl (RReq rpc20 node48 (BStr s_ping) (BList [pv_dict])).
Proof. vm_compute. reflexivity. Qed.
(* the last byte cut off is rejected (it decoded to the same message before fix 67aa5e2), so are two bytes *)
Example C17_ex_ping_cut1 : decode_datagram 10 (removelast (encode_message (Request rpc20 node48 Ping))) = inr EIndex.
Proof. vm_compute. reflexivity. Qed.
Example C17_ex_ping_cut2 : decode_datagram 10 (removelast (removelast (encode_message (Request rpc20 node48 Ping))))
  = inr EIndex.
Proof. vm_compute. reflexivity. Qed.
(* nested dictionaries in non-tail position round-trip: {a: {b: 1}, c: 2} and {a: [{b: 1}, 5], c: 2} *)
Definition nested1 : list (bval * bval) :=
  [(BStr (lit "a"), BDict [(BStr (lit "b"), BInt 1)]); (BStr (lit "c"), BInt 2)].
Definition nested2 : list (bval * bval) :=
  [(BStr (lit "a"), BList [BDict [(BStr (lit "b"), BInt 1)]; BInt 5]); (BStr (lit "c"), BInt 2)].
Example C17_ex_nested1 : bdecode 10 (benc (BDict nested1)) = Ok nested1. Proof. vm_compute. reflexivity. Qed.
Example C17_ex_nested2 : bdecode 10 (benc (BDict nested2)) = Ok nested2. Proof. vm_compute. reflexivity. Qed.
(* REFUTED, on the model of the decoder as it was before 67aa5e2 (dict branch returned the index OF its 'e'):
   it accepted a ping without its last byte as the same dictionary, lost key c of {a: {b: 1}, c: 2} and could not
   read {a: [{b: 1}, 5], c: 2} at all *)
Example C17_old_decoder_refuted_truncation :
  bdecode_old 10 (removelast (encode_message (Request rpc20 node48 Ping)))
  = bdecode_old 10 (encode_message (Request rpc20 node48 Ping)).
Proof. vm_compute. reflexivity. Qed.
Example C17_old_decoder_refuted_truncation_accepts :
  match bdecode_old 10 (removelast (encode_message (Request rpc20 node48 Ping))) with Ok _ => true | Err _ => false end = true.
Proof. vm_compute. reflexivity. Qed.
Example C17_old_decoder_refuted_nested1 :
  bdecode_old 10 (benc (BDict nested1)) = Ok [(BStr (lit "a"), BDict [(BStr (lit "b"), BInt 1)])].
Proof. vm_compute. reflexivity. Qed.
Example C17_old_decoder_refuted_nested2 :
  bdecode_old 10 (benc (BDict nested2)) = Err EDecode.
Proof. vm_compute. reflexivity. Qed.
(* a findValue response: the dictionary is in tail position, its values are lists of lists *)
Definition fv_payload : bval :=
  BDict [(BStr (lit "contacts"), contacts_val [(node48, lit "1.2.3.4", 4444%Z)]);
         (BStr node48, peers_val [rpc20; rpc20]);
         (BStr (lit "p"), BInt 1); (BStr (lit "protocolVersion"), BInt 1); (BStr (lit "token"), BStr node48)].
Example C17_ex_find_value : decode_datagram 10 (encode_message (Response rpc20 node48 fv_payload))
  = inl (RResp rpc20 node48 fv_payload).
Proof. vm_compute. reflexivity. Qed.
Example C17_ex_find_value_sorted : keys_sorted (match fv_payload with BDict d => d | _ => [] end) = true.
Proof. vm_compute. reflexivity. Qed.
(* design-phase reproducers (F5, f234d13) and the ones found while building this check (774587f) *)
Example C17_ex_d : decode_datagram 10 (lit "d") = inr EIndex. Proof. vm_compute. reflexivity. Qed.
Example C17_ex_de : decode_datagram 10 (lit "de") = inr EKey. Proof. vm_compute. reflexivity. Qed.
Example C17_ex_neg : decode_datagram 10 (lit "l-3:e") = inr EDecode. Proof. vm_compute. reflexivity. Qed.
Example C17_ex_deep : decode_datagram 5 (lit "llllllllll") = inr ERecursion. Proof. vm_compute. reflexivity. Qed.
Example C17_ex_id_list : decode_datagram 10
  (lit "d1:0i1e1:1l" ++ concat (repeat (lit "i0e") 20) ++ lit "e1:248:" ++ node48 ++ lit "1:34:ponge") = inr EValue.
Proof. vm_compute. reflexivity. Qed.
(* int() itself is lax (still used for the octets of an address); the datagram decoder no longer is (4abdbc1) *)
Example C17_ex_strict1 : strict_int (lit "+1") = None. Proof. vm_compute. reflexivity. Qed.
Example C17_ex_strict2 : strict_int (lit "0333") = None. Proof. vm_compute. reflexivity. Qed.
Example C17_ex_strict3 : strict_int (lit "-0") = None. Proof. vm_compute. reflexivity. Qed.
Example C17_ex_strict4 : strict_int (lit "-17") = Some (-17)%Z. Proof. vm_compute. reflexivity. Qed.
Example C17_ex_lax_int1 : py_int_of_bytes (lit " +1_0 ") = Some 10%Z. Proof. vm_compute. reflexivity. Qed.
Example C17_ex_lax_int2 : py_int_of_bytes (lit "1__0") = None. Proof. vm_compute. reflexivity. Qed.
Example C17_ex_lax_int3 : py_int_of_bytes (lit "- 1") = None. Proof. vm_compute. reflexivity. Qed.
Example C17_ex_lax_int4 : py_int_of_bytes (lit "") = None. Proof. vm_compute. reflexivity. Qed.
(* every truncation of this ping is dropped (an instance of C17_truncation_is_rejected, by computation) *)
Example C17_ex_truncations_of_ping :
  let p := encode_message (Request rpc20 node48 Ping) in
  forallb (fun k => match decode_datagram 10 (firstn k p) with inr _ => true | inl _ => false end)
          (seq 0 (length p)) = true.
Proof. vm_compute. reflexivity. Qed.
(* the seeded scenario: ping mutated to pinf *)
Example C17_ex_pinf : request_valid node48 (RReq rpc20 rpc20 (BStr (lit "pinf")) (BList [pv_dict])) = false.
Proof. vm_compute. reflexivity. Qed.
Example C17_ex_ping_valid : request_valid node48 (RReq rpc20 rpc20 (BStr s_ping) (BList [pv_dict])) = true.
Proof. vm_compute. reflexivity. Qed.
(* the byte-wise cut of the seeded change splits the 2-byte character that straddles byte 256 *)
Example C17_ex_byte_cut_invalid :
  utf8_valid (firstn 256 (s_invalid_method ++ repeat (byte_of_N 97) 239 ++ [byte_of_N 195; byte_of_N 169])) = false.
Proof. vm_compute. reflexivity. Qed.
Example C17_ex_char_cut_valid :
  utf8_valid (invalid_method_text (repeat (byte_of_N 97) 239 ++ [byte_of_N 195; byte_of_N 169; byte_of_N 195; byte_of_N 169])) = true.
Proof. vm_compute. reflexivity. Qed.
(* a full table of capacity 3: a fourth sender is recorded, the oldest record makes room; a known sender is updated *)
Example C17_ex_full_failure_table : failures_run 3 [10; 11; 12; 13; 11]
  = [(12, (None, Some 3)); (13, (None, Some 4)); (11, (Some 2, Some 5))].
Proof. vm_compute. reflexivity. Qed.
(* the bound is reached (so a limit of 1232 bytes, as in the seeded change, refuses a legitimate reply) *)
Example C17_ex_largest_reply_size :
  length (encode_message (Response rpc20 node48
            (find_value_payload node48 node48
               (repeat (node48, repeat (byte_of_N 50) 15, 65535%Z) 8) (repeat (repeat (byte_of_N 1) 54) 8) 999999%Z)))
  = 1328%nat.
Proof. vm_compute. reflexivity. Qed.
(* not bencode: underscores / sign / leading zero in an integer, bytes after the value (all served before 4abdbc1) *)
Definition ping_bytes : bytes := encode_message (Request rpc20 node48 Ping).
Example C17_ex_trailing_junk : decode_datagram 10 (ping_bytes ++ lit "garbage") = inr EDecode.
Proof. vm_compute. reflexivity. Qed.
Example C17_ex_lax_type : decode_datagram 10 (lit "di0ei+0ei1e20:" ++ rpc20 ++ lit "i2e48:" ++ node48 ++ lit "i3e4:pingi4eld15:protocolVersioni1eeee")
  = inr EDecode.
Proof. vm_compute. reflexivity. Qed.
Example C17_ex_leading_zero_length : decode_datagram 10 (lit "di0ei0ei1e020:" ++ rpc20 ++ lit "i2e48:" ++ node48 ++ lit "i3e4:pingi4eld15:protocolVersioni1eeee")
  = inr EDecode.
Proof. vm_compute. reflexivity. Qed.
