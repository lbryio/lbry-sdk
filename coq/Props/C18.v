(* C18 property theorems: statements only, each closed by [exact].
   restart s = BlobManager.setup() run on fresh memory over the disk and blob table of s  (Model/C18.v);
   every theorem below quantifies over ALL states s (any directory content, any table content), hence over
   every earlier history and crash placement; C18_history additionally walks arbitrary operation lists. *)
From Coq Require Import NArith List Bool.
From Coq.Strings Require Import Byte.
From LV Require Import Lib.Bytes Model.C18 Proofs.C18.
Import ListNotations.
Local Open Scope N_scope.

(* ===== The two headline statements of the plan (DESIGN.md section 8), each for EVERY state s: no assumption on what
   the blob directory holds (regular files, links to files, sub-directories, dangling links, junk names) or on the
   table.  "file" = is_file: a regular file or a symbolic link to one.  The finer-grained theorems follow. ===== *)

(* After a start: the directory is untouched; everything reported as completed has its file; every blob file
   present is 'finished'; every row that was 'finished' and has lost its file is 'pending'; every row that is
   'finished' now has its file. *)
Theorem C18_setup_establishes : forall s,
  disk (restart s) = disk s /\
  (forall h, In h (completed (restart s)) -> valid_name h = true /\ is_file (disk (restart s)) h = true) /\
  (forall h, valid_name h = true -> is_file (disk (restart s)) h = true ->
             db_status (db (restart s)) h = Some Finished) /\
  (forall h, db_status (db s) h = Some Finished -> is_file (disk s) h = false ->
             db_status (db (restart s)) h = Some Pending) /\
  (forall h, db_status (db (restart s)) h = Some Finished ->
             valid_name h = true /\ is_file (disk (restart s)) h = true).
Proof. exact restart_ok. Qed.
Print Assumptions C18_setup_establishes.

(* A further start with nothing changed reports exactly the blob files present and leaves the table alone. *)
Theorem C18_setup_idempotent : forall s,
  disk (restart (restart s)) = disk s /\
  (forall h, In h (completed (restart (restart s))) <-> valid_name h = true /\ is_file (disk s) h = true) /\
  (forall h, db_status (db (restart (restart s))) h = db_status (db (restart s)) h).
Proof. exact (fun s => conj (eq_trans (restart_disk (restart s)) (restart_disk s)) (conj (second_restart_exact s) (restart_db_idempotent s))). Qed.
Print Assumptions C18_setup_idempotent.

(* setup never touches the blob directory *)
Theorem C18_setup_disk_unchanged : forall s, disk (restart s) = disk s.
Proof. exact restart_disk. Qed.
Print Assumptions C18_setup_disk_unchanged.

(* Exactly which hashes are reported as completed after a start: the valid blob-hash names that are files and
   had a 'finished' row. *)
Theorem C18_completed_exact : forall s h,
  In h (completed (restart s)) <->
  valid_name h = true /\ is_file (disk s) h = true /\ db_status (db s) h = Some Finished.
Proof. exact restart_completed_In. Qed.
Print Assumptions C18_completed_exact.

(* Clause 1: every blob reported as completed has its file in the blob directory. *)
Theorem C18_completed_have_files : forall s h,
  In h (completed (restart s)) -> valid_name h = true /\ is_file (disk (restart s)) h = true.
Proof. exact (fun s => proj1 (proj2 (restart_ok s))). Qed.
Print Assumptions C18_completed_have_files.

(* Clause 2: every blob file present (regular file whose name is a blob hash) is 'finished' afterwards;
   no assumption on directory or table. *)
Theorem C18_files_finished : forall s h, valid_name h = true -> is_file (disk s) h = true ->
  db_status (db (restart s)) h = Some Finished.
Proof. exact files_finished. Qed.
Print Assumptions C18_files_finished.

(* Clause 3: every 'finished' row whose file has disappeared (nothing there, or only a directory or a dangling
   link) is 'pending' afterwards, and conversely every row that is 'finished' afterwards has its file. *)
Theorem C18_missing_downgraded : forall s h, db_status (db s) h = Some Finished ->
  is_file (disk s) h = false -> db_status (db (restart s)) h = Some Pending.
Proof. exact (fun s => proj1 (proj2 (proj2 (proj2 (restart_ok s))))). Qed.
Print Assumptions C18_missing_downgraded.

Theorem C18_finished_have_files : forall s h,
  db_status (db (restart s)) h = Some Finished -> valid_name h = true /\ is_file (disk s) h = true.
Proof. exact finished_have_files. Qed.
Print Assumptions C18_finished_have_files.

(* The whole table after a start, row by row (the three clauses above are instances). *)
Theorem C18_setup_db_exact : forall s h,
  db_status (db (restart s)) h =
  if valid_name h && is_file (disk s) h then Some Finished
  else match db_status (db s) h with Some Finished => Some Pending | x => x end.
Proof. exact restart_db_exact. Qed.
Print Assumptions C18_setup_db_exact.

(* What must NOT change: a row is invented only for a blob file that is present, and no row is deleted. *)
Theorem C18_rows_not_invented : forall s h, db_status (db s) h = None -> db_status (db (restart s)) h <> None ->
  valid_name h = true /\ is_file (disk s) h = true /\ db_status (db (restart s)) h = Some Finished.
Proof. exact rows_not_invented. Qed.
Print Assumptions C18_rows_not_invented.

Theorem C18_rows_not_deleted : forall s h, db_status (db s) h <> None -> db_status (db (restart s)) h <> None.
Proof. exact rows_not_deleted. Qed.
Print Assumptions C18_rows_not_deleted.

(* Clause 4: a further restart with nothing changed reports exactly the blob files present, leaves the table
   as it is, and every later restart reports the same set. *)
Theorem C18_second_restart_exact : forall s h,
  In h (completed (restart (restart s))) <-> valid_name h = true /\ is_file (disk s) h = true.
Proof. exact second_restart_exact. Qed.
Print Assumptions C18_second_restart_exact.

Theorem C18_restart_db_idempotent : forall s h,
  db_status (db (restart (restart s))) h = db_status (db (restart s)) h.
Proof. exact restart_db_idempotent. Qed.
Print Assumptions C18_restart_db_idempotent.

Theorem C18_restart_stable : forall s h,
  In h (completed (restart (restart (restart s)))) <-> In h (completed (restart (restart s))).
Proof. exact restart_stable. Qed.
Print Assumptions C18_restart_stable.

(* Whatever is not a (link to a) regular file -- nothing there, a sub-directory, a dangling symlink -- is not
   'finished' after a start and is reported by no start, whatever the table said before. *)
Theorem C18_second_restart_general : forall s h, is_file (disk s) h = false ->
  db_status (db (restart s)) h <> Some Finished /\
  ~ In h (completed (restart s)) /\ ~ In h (completed (restart (restart s))).
Proof. exact second_restart_general. Qed.
Print Assumptions C18_second_restart_general.

(* Histories: after ANY list of completions, unfinished downloads, publishes, API deletions, stream deletions,
   external file creation/overwrite/removal, forced table rows, process deaths between a file write and its
   database write (whole or partial file, mid-publish with any k files written and j recorded) and restarts
   (with config.save_blobs switched on or off at will)
   symlinks to regular files (relocated blobs), dangling symlinks and sub-directories planted in the blob directory
   -- in any order and number, no exclusion -- a restart establishes all clauses, and one more restart reports
   exactly the files present. *)
Theorem C18_history : forall ops,
  let s := run init ops in
  (disk (restart s) = disk s /\
   (forall h, In h (completed (restart s)) -> valid_name h = true /\ is_file (disk (restart s)) h = true) /\
   (forall h, valid_name h = true -> is_file (disk (restart s)) h = true ->
              db_status (db (restart s)) h = Some Finished) /\
   (forall h, db_status (db s) h = Some Finished -> is_file (disk s) h = false ->
              db_status (db (restart s)) h = Some Pending) /\
   (forall h, db_status (db (restart s)) h = Some Finished ->
              valid_name h = true /\ is_file (disk (restart s)) h = true)) /\
  (forall h, In h (completed (restart (restart s))) <-> valid_name h = true /\ is_file (disk s) h = true) /\
  (forall h, db_status (db (restart (restart s))) h = db_status (db (restart s)) h).
Proof. exact (fun ops => conj (restart_ok (run init ops)) (conj (second_restart_exact (run init ops)) (restart_db_idempotent (run init ops)))). Qed.
Print Assumptions C18_history.

(* Between restarts: as long as only API operations run (completions, unfinished downloads, publishes, API and
   stream deletions, restarts) -- no death, nothing behind the daemon's back -- every blob file present stays
   recorded as finished at every moment; a start establishes this from ANY state without planted directories.
   files_recorded s :=  files_only (disk s) /\ (forall h, valid_name h -> is_file (disk s) h -> status h = Finished)
                        /\ no cached in-memory blob (BlobBuffer, save_blobs off) has a file of its name. *)
Theorem C18_api_keeps_files_recorded : forall ops s, forallb is_api_op ops = true ->
  files_recorded s -> files_recorded (run s ops).
Proof. exact (run_api_inv false). Qed.
Print Assumptions C18_api_keeps_files_recorded.

Theorem C18_start_establishes_files_recorded : forall s, files_only (disk s) -> files_recorded (restart s).
Proof. exact (restart_api_inv false). Qed.
Print Assumptions C18_start_establishes_files_recorded.

(* "... reports as completed (and therefore announces and offers to peers) has its file": the work list of the DHT
   announcer, SQLiteStorage.get_blobs_to_announce(), under BOTH settings of announce_head_and_sd_only, read right
   after a start: every announced hash has its file; with "announce everything" it is exactly the files present;
   the head/sd-only list is the marked (should_announce) part of it. *)
Theorem C18_announced_have_files : forall head s h,
  In h (announce_list head (restart s)) -> valid_name h = true /\ is_file (disk (restart s)) h = true.
Proof. exact announced_have_files. Qed.
Print Assumptions C18_announced_have_files.

Theorem C18_announce_all_exact : forall s h,
  In h (announce_list false (restart s)) <-> valid_name h = true /\ is_file (disk s) h = true.
Proof. exact announce_all_exact. Qed.
Print Assumptions C18_announce_all_exact.

Theorem C18_announce_head_subset : forall s h, In h (announce_list true s) ->
  In h (announce_list false s) /\ mem h (marked s) = true.
Proof. exact announce_head_subset. Qed.
Print Assumptions C18_announce_head_subset.

(* Between restarts, since 1ed13b5 (delete_blob always un-reports): along completions, publishes, API and stream
   deletions and restarts -- no death, nothing behind the daemon's back, no download abandoned after BlobFile.__init__
   removed a file of another length (OTouch) -- everything reported as completed has its file AT EVERY MOMENT, not only
   after a start.   completed_backed s := files_recorded s /\ forall k, In k (completed s) -> is_file (disk s) k. *)
Theorem C18_api_keeps_completed_backed : forall ops s, forallb is_api_op_strict ops = true ->
  completed_backed s -> completed_backed (run s ops).
Proof. exact (run_api_inv true). Qed.
Print Assumptions C18_api_keeps_completed_backed.

Theorem C18_start_establishes_completed_backed : forall s, files_only (disk s) -> completed_backed (restart s).
Proof. exact (restart_api_inv true). Qed.
Print Assumptions C18_start_establishes_completed_backed.

(* ===== Daemon start = BlobManager.setup followed by StreamManager.initialize_from_database (model: daemon_start):
   every managed stream whose sd blob is not verified is recovered -- the sd blob file is written again, the
   stream's rows are deleted and re-inserted as 'pending' (storage.recover_streams), and THEN
   ensure_completed_blobs_status marks those that have a file 'finished' -- and every stream's sd blob is loaded.
   A stream is (sd hash, sd length, content hashes, "its sd blob file does not hold JSON"): such a damaged sd blob is
   removed by the parser and (repaired behaviour) dropped from cache, completed set and table in the same step.
   For every state s and every list L of streams such that no DIRECTORY or symlink loop sits under an sd name (a
   write there fails while its completion callbacks still run): ===== *)
Theorem C18_daemon_start_establishes : forall L s,
  (forall st, In st L -> is_dir (disk s) (st_sd st) = false) ->
  let t := daemon_start s L in
  (forall h, In h (completed t) -> is_file (disk t) h = true) /\
  (forall h, valid_name h = true -> is_file (disk t) h = true -> db_status (db t) h = Some Finished) /\
  (forall h, db_status (db t) h = Some Finished -> is_file (disk t) h = true).
Proof. exact daemon_start_ok. Qed.
Print Assumptions C18_daemon_start_establishes.

(* ... and a further start with nothing changed reports exactly the files present *)
Theorem C18_daemon_start_then_restart_exact : forall s L h,
  (forall st, In st L -> is_dir (disk s) (st_sd st) = false) ->
  (In h (completed (restart (daemon_start s L))) <->
   valid_name h = true /\ is_file (disk (daemon_start s L)) h = true).
Proof. exact (fun s L h ND => restart_exact (daemon_start s L) h (proj1 (proj2 (daemon_start_ok L s ND)))). Qed.
Print Assumptions C18_daemon_start_then_restart_exact.

Theorem C18_daemon_start_announced_have_files : forall s L head h,
  (forall st, In st L -> is_dir (disk s) (st_sd st) = false) ->
  In h (announce_list head (daemon_start s L)) -> is_file (disk (daemon_start s L)) h = true.
Proof. exact (fun s L head h ND H => proj2 (proj2 (daemon_start_ok L s ND)) h (announce_finished head (daemon_start s L) h H)). Qed.
Print Assumptions C18_daemon_start_announced_have_files.

(* the daemon start only ever adds files (re-created sd blobs); the one file it may remove is the sd blob of a
   stream whose sd blob file does not hold JSON (removed together with its row and its report, see inv3 above) *)
Theorem C18_daemon_start_keeps_files : forall s L h,
  (forall st, In st L -> st_not_json st = true -> st_sd st <> h) ->
  is_file (disk s) h = true -> is_file (disk (daemon_start s L)) h = true.
Proof. exact daemon_start_disk_grows. Qed.
Print Assumptions C18_daemon_start_keeps_files.

(* config.save_blobs (part of the state, chosen again at each restart) plays no part in what a start does; every
   theorem above quantifies over all states, hence over both settings. *)
Theorem C18_save_setting_irrelevant : forall s b,
  disk (restart_with s b) = disk (restart s) /\ db (restart_with s b) = db (restart s) /\
  completed (restart_with s b) = completed (restart s).
Proof. exact restart_with_same. Qed.
Print Assumptions C18_save_setting_irrelevant.

(* Reachable states keep the directory names, the table's primary key and the completed set duplicate-free
   (so comparing the model's lists with the implementation's sets / rows is meaningful). *)
Theorem C18_keys_unique : forall ops,
  NoDup (map fst (disk (run init ops))) /\ NoDup (map fst (db (run init ops))) /\ NoDup (completed (run init ops)).
Proof. exact reachable_keys_unique. Qed.
Print Assumptions C18_keys_unique.

(* ---------- non-vacuity and documented boundary behaviour (concrete runs of the model) ---------- *)
Definition hA : name := repeat x61 96.                      (* "aaa...a" *)
Definition hB : name := repeat x62 96.
Definition hC : name := repeat x2c 96.                      (* 96 commas: accepted by the regex [a-f,0-9] *)
Definition hN : name := repeat x63 95 ++ [x0a].             (* 95 hex digits and a trailing newline: accepted *)

Example C18_names : (valid_name hA, valid_name hC, valid_name hN, valid_name (repeat x41 96),
                     valid_name (repeat x61 95), valid_name (repeat x61 97), valid_name (repeat x61 95 ++ [x67]))
                    = (true, true, true, false, false, false, false).
Proof. vm_compute. reflexivity. Qed.

(* death between the file write and the database write; the restart records the file, the next one reports it *)
Example C18_crash_then_restart :
  let s := run init [OCrashWrite hA 5 5; ORestart] in
  (alive (run init [OCrashWrite hA 5 5]), db_status (db (run init [OCrashWrite hA 5 5])) hA,
   db_status (db s) hA, completed s, completed (restart s)) = (false, None, Some Finished, [], [hA]).
Proof. vm_compute. reflexivity. Qed.

(* a file removed behind the daemon's back *)
Example C18_removed_then_restart :
  let s := run init [OComplete hA 5; OExtRemove hA; ORestart] in
  (db_status (db (run init [OComplete hA 5])) hA, db_status (db s) hA, completed s) = (Some Finished, Some Pending, []).
Proof. vm_compute. reflexivity. Qed.

(* a death in the middle of a publish: 2 of 3 files written, 1 recorded *)
Example C18_publish_crash :
  let s := run init [OPublishCrash [(hA, 5); (hB, 6)] (hC, 7) 2 1; ORestart; ORestart] in
  (map fst (disk s), db_status (db s) hA, db_status (db s) hB, db_status (db s) hC, length (completed s))
  = ([hB; hA], Some Finished, Some Finished, None, 2%nat).
Proof. vm_compute. reflexivity. Qed.

(* deleting a published blob through the API (its BlobFile was never entered in BlobManager.blobs) removes file,
   row AND report; before 1ed13b5 (delete_blob_old) the hash stayed in completed_blob_hashes without a file *)
Example C18_delete_unreports_old_refuted :
  let s := run init [OPublish [(hA, 5)] (hB, 7)] in
  let t := run s [ODelete [hA] true] in
  let u := delete_blob_old s hA in
  ((mem hA (completed t), is_file (disk t) hA, db_status (db t) hA), (mem hA (completed u), is_file (disk u) hA))
  = ((false, false, None), (true, false)).
Proof. vm_compute. reflexivity. Qed.

(* a download onto a DIRECTORY fails (the rename cannot replace it): since 82794e2 nothing is marked or recorded;
   onto a dangling link or a symlink loop the rename replaces the link by the file *)
Example C18_failed_write_records_nothing :
  let s := run init [OExtDir hA; OExtLoop hB; OExtLink hC None] in
  (snd (step s (OComplete hA 5)), completed (fst (step s (OComplete hA 5))), db_status (db (fst (step s (OComplete hA 5)))) hA,
   snd (step s (OComplete hB 6)), is_file (disk (fst (step s (OComplete hB 6)))) hB,
   snd (step s (OComplete hC 7)), is_file (disk (fst (step s (OComplete hC 7)))) hC)
  = (RFailed, [], None, RDone, true, RDone, true).
Proof. vm_compute. reflexivity. Qed.

(* a death in the middle of writing '<hash>.tmp' (1cc6188) leaves nothing under the blob's name *)
Example C18_crash_mid_write_leaves_no_blob :
  let s := run init [OCrashWrite hA 5 3; ORestart; ORestart] in
  (is_file (disk s) hA, db_status (db s) hA, completed s) = (false, None, []).
Proof. vm_compute. reflexivity. Qed.

(* A DIRECTORY named like a blob hash is not listed by the scan (item.is_file()): a 'finished' row for it is
   downgraded and it is not reported. *)
Example C18_directory_entry_not_reported :
  let s := run init [OExtDir hA; OExtDb hA (Some Finished); ORestart] in
  (completed s, is_file (disk s) hA, db_status (db s) hA, announce_list false s) = ([], false, Some Pending, []).
Proof. vm_compute. reflexivity. Qed.

(* The scan BEFORE the repair (8ca445d) listed every blob-hash name: a relocated blob whose target was deleted (a
   dangling link) kept its 'finished' row, was reported as completed and announced although no file exists --
   the old start-up violates clauses 1 and 3 on this input; the repaired one does not. *)
Example C18_old_scan_refuted :
  let s := run init [OComplete hA 5; OExtRemove hA; OExtLink hA None] in
  (is_file (disk s) hA,
   db_status (db (restart_old s)) hA, completed (restart_old s), announce_list false (restart_old s),
   db_status (db (restart s)) hA, completed (restart s), announce_list false (restart s))
  = (false, Some Finished, [hA], [hA], Some Pending, [], []).
Proof. vm_compute. reflexivity. Qed.

(* the first start after a file appeared records it but does not yet report it (clause 4 needs the second) *)
Example C18_first_start_underreports :
  let s := run init [OExtFile hA 3; ORestart] in
  (completed s, db_status (db s) hA, completed (restart s)) = ([], Some Finished, [hA]).
Proof. vm_compute. reflexivity. Qed.

(* with save_blobs off a completed download stays in memory: a 'pending' row, no file, nothing reported;
   after a restart with save_blobs on the same download writes the file and is recorded *)
Example C18_memory_only_blob :
  let s := run init [ORestartSave false; OComplete hA 5] in
  let t := run s [ORestartSave true; OComplete hA 5] in
  (db_status (db s) hA, is_file (disk s) hA, completed s, db_status (db t) hA, is_file (disk t) hA, completed t)
  = (Some Pending, false, [], Some Finished, true, [hA]).
Proof. vm_compute. reflexivity. Qed.

(* two blobs downloaded, the file of one removed behind the daemon's back, restart: only the other is announced;
   a published stream's sd blob is the only one on the head/sd-only list, and leaves it when its file vanishes *)
Example C18_announce_after_file_removed :
  let s := run init [OComplete hA 5; OComplete hB 6; OExtRemove hA; ORestart] in
  let t := run init [OPublish [(hA, 5)] (hB, 7); ORestart] in
  let u := run t [OExtRemove hB; ORestart] in
  (announce_list false s, announce_list true s, announce_list true t, length (announce_list false t),
   announce_list true u, announce_list false u)
  = ([hB], [], [hB], 2%nat, [], [hA]).
Proof. vm_compute. reflexivity. Qed.

(* C18_files_finished holds for EVERY file size: a file above MAX_BLOB_SIZE (2 MiB) dropped into the directory
   is recorded by the next start and reported by the one after, like any other *)
Example C18_oversized_file_recorded :
  let s := run init [OExtFile hA 2097152; OExtFile hB 2097153; OExtFile hC 6291461; ORestart] in
  (db_status (db s) hA, db_status (db s) hB, db_status (db s) hC, length (completed (restart s)))
  = (Some Finished, Some Finished, Some Finished, 3%nat).
Proof. vm_compute. reflexivity. Qed.

(* a blob relocated to another volume and linked back IS a blob file present (EFile stands for a regular file or a
   link to one): recorded by the next start, reported by the one after.  A DANGLING link is no file: never
   recorded, and a 'finished' row for it is downgraded and not reported.  Re-downloading a blob whose name is a
   dangling link writes through the link: the file exists again and is recorded. *)
Example C18_symlinked_blob :
  let s := run init [OExtLink hA (Some 1000); OExtLink hB None; OExtLink hC None; OExtDb hC (Some Finished); ORestart] in
  let t := run s [OComplete hC 7] in
  (is_file (disk s) hA, db_status (db s) hA, db_status (db s) hB, is_file (disk s) hC, db_status (db s) hC,
   completed s, completed (restart s), is_file (disk t) hC, db_status (db t) hC)
  = (true, Some Finished, None, false, Some Pending, [], [hA], true, Some Finished).
Proof. vm_compute. reflexivity. Qed.

(* a managed stream (content hA, sd hB of 7 bytes) whose sd blob file vanished: the daemon start re-creates the sd
   blob file, and afterwards BOTH blob files are 'finished'; the next start reports both *)
Example C18_daemon_start_recovers_stream :
  let s := run init [OPublish [(hA, 5)] (hB, 7); OExtRemove hB] in
  let t := daemon_start s [(hB, 7, [hA], false)] in
  (is_file (disk s) hB, is_file (disk t) hB, db_status (db t) hA, db_status (db t) hB, completed t,
   length (completed (restart t)), announce_list true t)
  = (false, true, Some Finished, Some Finished, [hB; hA], 2%nat, [hB]).
Proof. vm_compute. reflexivity. Qed.

(* a symbolic link that leads back to itself under a blob-hash name (scandir lists it, is_file() raises ELOOP): not
   a file -- a 'finished' row for it is downgraded, it is not reported, and the start goes through *)
Example C18_symlink_loop_is_no_file :
  let s := run init [OComplete hA 5; OExtRemove hA; OExtLoop hA; OExtLoop hB; ORestart] in
  (is_file (disk s) hA, db_status (db s) hA, db_status (db s) hB, completed s, alive s)
  = (false, Some Pending, None, [], true).
Proof. vm_compute. reflexivity. Qed.

(* the sd blob hB of a managed stream is overwritten behind the daemon's back.
   t: with bytes that are not JSON -> the daemon start removes the file AND the report AND the row;
   u: the same under the behaviour before the repair -> the file is gone, yet hB is still reported as completed,
      recorded 'finished' and on the announce list (the old start-up breaks clauses 1 and 3);
   v: with a descriptor that is valid JSON but has the wrong stream hash -> nothing is removed. *)
Example C18_damaged_sd_old_refuted :
  let s := run init [OPublish [(hA, 5)] (hB, 7); OExtFile hB 7] in
  let t := daemon_start s [(hB, 7, [hA], true)] in
  let u := daemon_start_old s [(hB, 7, [hA], true)] in
  let v := daemon_start s [(hB, 7, [hA], false)] in
  ((is_file (disk t) hB, mem hB (completed t), db_status (db t) hB, announce_list true t),
   (is_file (disk u) hB, mem hB (completed u), db_status (db u) hB, announce_list true u),
   (is_file (disk v) hB, mem hB (completed v), db_status (db v) hB))
  = ((false, false, None, []), (false, true, Some Finished, [hB]), (true, true, Some Finished)).
Proof. vm_compute. reflexivity. Qed.
