(* C02 property theorems: statements only, each closed by [exact].
   H = SHA-384, E/D = AES-CBC+PKCS7 encrypt/decrypt, maxb = MAX_BLOB_SIZE are universally quantified; the
   only facts assumed about them are written as hypotheses of the theorem that needs them:
     D k iv (E k iv p) = Some p,   |E k iv p| = 16*(|p|/16+1),   |H x| = 48. *)
From Coq Require Import NArith ZArith List Bool.
From LV Require Import Lib.Bytes Lib.Decimal Model.C02 Proofs.C02.
Import ListNotations.

(* The pieces a file is cut into concatenate back to the file, each has 1..maxb-1 bytes, and their sizes are
   floor(|f|/(maxb-1)) full pieces plus the remainder: ceil(|f|/(maxb-1)) data blobs. *)
Theorem C02_split_concat : forall (maxb : nat) (f : bytes), (2 <= maxb)%nat -> concat (split maxb f) = f.
Proof. exact split_concat. Qed.
Print Assumptions C02_split_concat.

Theorem C02_blob_sizes : forall (maxb : nat) (f : bytes), (2 <= maxb)%nat ->
  (forall p, In p (split maxb f) -> (1 <= length p <= maxb - 1)%nat) /\
  map (@length Byte.byte) (split maxb f) =
    repeat (maxb - 1)%nat (length f / (maxb - 1)) ++
    (if Nat.eqb (length f mod (maxb - 1)) 0 then [] else [(length f mod (maxb - 1))%nat]) /\
  length (split maxb f) = ((length f + (maxb - 1) - 1) / (maxb - 1))%nat /\
  (f <> [] -> split maxb f <> []).
Proof. exact (fun maxb f Hm => conj (fun p => split_piece_size maxb f p Hm)
               (conj (split_lengths maxb f Hm) (conj (split_count maxb f Hm) (split_nonempty maxb f Hm)))). Qed.
Print Assumptions C02_blob_sizes.

(* With PKCS7 ciphertext length and 16 | maxb (2^21 is), every data blob has 16..maxb bytes. *)
Theorem C02_ciphertext_fits : forall (maxb : nat) (E : bytes -> bytes -> bytes -> bytes) (k iv p : bytes),
  (forall k iv p, length (E k iv p) = (16 * (length p / 16 + 1))%nat) ->
  (2 <= maxb)%nat -> (maxb mod 16 = 0)%nat -> (1 <= length p <= maxb - 1)%nat ->
  (16 <= length (E k iv p) <= maxb)%nat.
Proof. exact ciphertext_bound. Qed.
Print Assumptions C02_ciphertext_fits.

(* The ciphertext lengths of a published file, in N arithmetic: floor(|f|/(maxb-1)) blobs of 16*((maxb-1)/16+1) bytes
   and one of 16*(r/16+1) for the remainder r > 0 (the function the harness evaluates on true 2 MiB runs). *)
Theorem C02_ciphertext_lengths : forall H E (maxb : nat) name key ivf f,
  (forall k iv p, length (E k iv p) = (16 * (length p / 16 + 1))%nat) -> (2 <= maxb)%nat ->
  map (fun c => N.of_nat (length c)) (s_cts (build_stream H E maxb name key ivf f)) =
  expected_lengths (N.of_nat maxb) (N.of_nat (length f)).
Proof. exact ciphertext_lengths. Qed.
Print Assumptions C02_ciphertext_lengths.

(* Round trip: for every file (the empty one included), key, IV sequence and name, decrypting the data blobs in
   descriptor order with the descriptor's key and IVs gives the file back. *)
Theorem C02_roundtrip : forall H E D (maxb : nat) (name : list N) (key : bytes) (ivf : nat -> bytes) (f : bytes),
  (forall k iv p, D k iv (E k iv p) = Some p) -> (2 <= maxb)%nat ->
  decrypt_stream D (s_desc (build_stream H E maxb name key ivf f)) (s_cts (build_stream H E maxb name key ivf f)) = Some f.
Proof. exact roundtrip. Qed.
Print Assumptions C02_roundtrip.

Theorem C02_roundtrip_created : forall H E D (maxb : nat) name key ivf f s,
  (forall k iv p, D k iv (E k iv p) = Some p) -> (2 <= maxb)%nat ->
  create_stream H E maxb name key ivf f = Some s -> decrypt_stream D (s_desc s) (s_cts s) = Some f.
Proof. exact roundtrip_created. Qed.
Print Assumptions C02_roundtrip_created.

(* Blob i is the encryption of piece i under (key, iv_i), is named hex(H ciphertext_i), carries number i, its
   ciphertext length and hex(iv_i); the last entry has number n, length 0 and no hash. *)
Theorem C02_names_and_numbers : forall H E (maxb : nat) name key ivf f,
  let s := build_stream H E maxb name key ivf f in
  let n := length (split maxb f) in
  length (d_blobs (s_desc s)) = S n /\ length (s_cts s) = n /\
  (forall i p, nth_error (split maxb f) i = Some p ->
     let ct := E key (ivf i) p in
     nth_error (s_cts s) i = Some ct /\
     nth_error (d_blobs (s_desc s)) i =
       Some (mkBlob (Z.of_nat i) (Z.of_nat (length ct)) (hex (ivf i)) (Some (hex (H ct))))) /\
  nth_error (d_blobs (s_desc s)) n = Some (mkBlob (Z.of_nat n) 0 (hex (ivf n)) None).
Proof. exact names_and_numbers. Qed.
Print Assumptions C02_names_and_numbers.

(* stream_hash = hex(H(hex(name) ++ hex(key) ++ hex(suggested) ++ H(concat of H(per-blob preimage)))), the per-blob
   preimages being  hex(H ct) ++ dec(i) ++ hex(iv) ++ dec(|ct|)  and, for the terminator,  dec(n) ++ hex(iv) ++ "0";
   the sd blob is as_json of the descriptor and sd_hash = hex(H(sd blob)). *)
Theorem C02_commitments : forall H E (maxb : nat) name key ivf f,
  (forall x, length (H x) = 48%nat) -> (forall k iv p, length (E k iv p) = (16 * (length p / 16 + 1))%nat) ->
  let s := build_stream H E maxb name key ivf f in
  d_shash (s_desc s) =
    hex (H (hex (utf8_enc name) ++ hex key ++ hex (utf8_enc (sanitize name)) ++
            H (concat (map H (data_pres H E key ivf 0 (split maxb f) ++
                              [term_pre (length (split maxb f)) (ivf (length (split maxb f)))]))))) /\
  s_sd_blob s = as_json (s_desc s) /\
  s_sd_hash s = hex (H (s_sd_blob s)).
Proof. exact commitments. Qed.
Print Assumptions C02_commitments.

(* Both layouts create_stream can publish (old_sort = false / true): same descriptor and blobs, the sd blob is exactly
   the layout's JSON and the returned sd_hash is hex(H(sd blob)) -- the name under which that blob is stored. *)
Theorem C02_commitments_both_layouts : forall H E (maxb : nat) old_sort name key ivf f s,
  create_stream_layout H E maxb old_sort name key ivf f = Some s ->
  s_desc s = s_desc (build_stream H E maxb name key ivf f) /\ s_cts s = s_cts (build_stream H E maxb name key ivf f) /\
  s_sd_blob s = (if old_sort then old_sort_json (s_desc s) else as_json (s_desc s)) /\
  s_sd_hash s = hex (H (s_sd_blob s)).
Proof. exact layout_created. Qed.
Print Assumptions C02_commitments_both_layouts.

(* Republish: create_stream into a blob directory that already holds files (name, size).  Whenever a stream is
   returned it is the clean-directory stream -- every data blob named by H of the ciphertext stored for it, decrypting
   in descriptor order gives the file back -- and no data blob was adopted from a file already present under that name
   (whatever that file contains or however long it is); otherwise the publish is refused. *)
Theorem C02_republish_sound : forall H E D (maxb : nat) dir old_sort name key ivf f s,
  (forall k iv p, D k iv (E k iv p) = Some p) -> (2 <= maxb)%nat ->
  create_stream_in H E maxb dir old_sort name key ivf f = Some s ->
  s_desc s = s_desc (build_stream H E maxb name key ivf f) /\
  s_cts s = s_cts (build_stream H E maxb name key ivf f) /\
  decrypt_stream D (s_desc s) (s_cts s) = Some f /\
  (forall c, In c (s_cts s) -> blocked dir (hex (H c)) = false).
Proof. exact republish_sound. Qed.
Print Assumptions C02_republish_sound.

Theorem C02_republish_clean_dir : forall H E (maxb : nat) old_sort name key ivf f,
  create_stream_in H E maxb [] old_sort name key ivf f = create_stream_layout H E maxb old_sort name key ivf f.
Proof. exact republish_clean_dir. Qed.
Print Assumptions C02_republish_clean_dir.

(* sd_hash binds the descriptor: two descriptors whose text fields print without JSON escapes (hex does) and whose
   sd hashes are equal have the same names, key, stream hash and blob entries -- or an explicit H collision.
   (blob hashes compared through BlobInfo.as_dict, which itself identifies None and ''.)  Every descriptor that
   create_stream builds is of that kind. *)
Theorem C02_sd_hash_binding : forall H d1 d2, plain_desc d1 -> plain_desc d2 -> sd_hash H d1 = sd_hash H d2 ->
  (d_name d1 = d_name d2 /\ d_key d1 = d_key d2 /\ d_sugg d1 = d_sugg d2 /\ d_shash d1 = d_shash d2 /\
   map as_dict (d_blobs d1) = map as_dict (d_blobs d2)) \/ (exists x y : bytes, x <> y /\ H x = H y).
Proof. exact sd_hash_binding. Qed.
Print Assumptions C02_sd_hash_binding.

Theorem C02_created_plain : forall H E (maxb : nat) name key ivf f,
  (forall x, length (H x) = 48%nat) -> (forall k iv p, length (E k iv p) = (16 * (length p / 16 + 1))%nat) ->
  plain_desc (s_desc (build_stream H E maxb name key ivf f)).
Proof. exact created_plain. Qed.
Print Assumptions C02_created_plain.

(* Two descriptors with 32-character keys and IVs, 96-character blob hashes, blobs numbered by position, names of
   equal length and the same stream hash are equal -- or the proof exhibits x <> y with H x = H y. *)
Theorem C02_preimage_injective : forall H n1 k1 s1 bs1 n2 k2 s2 bs2 h,
  (forall x, length (H x) = 48%nat) ->
  length k1 = 32%nat -> length k2 = 32%nat -> length n1 = length n2 ->
  fixed_blobs 0 bs1 -> fixed_blobs 0 bs2 ->
  get_stream_hash H n1 k1 s1 bs1 = Some h -> get_stream_hash H n2 k2 s2 bs2 = Some h ->
  (n1 = n2 /\ k1 = k2 /\ s1 = s2 /\ bs1 = bs2) \/ (exists x y : bytes, x <> y /\ H x = H y).
Proof. exact stream_hash_binding. Qed.
Print Assumptions C02_preimage_injective.

(* Hence two descriptor blobs with fixed-width fields and the same stream hash that BOTH load are the same
   descriptor, or an explicit H collision: an accepted tampering of any committed field needs a collision. *)
Theorem C02_accepted_tampering_collides : forall H j1 j2 d1 d2,
  (forall x, length (H x) = 48%nat) ->
  validate H j1 = Ok d1 -> validate H j2 = Ok d2 -> widths j1 -> widths j2 ->
  length (d_name d1) = length (d_name d2) -> j_shash j1 = j_shash j2 ->
  d1 = d2 \/ (exists x y : bytes, x <> y /\ H x = H y).
Proof. exact accepted_tampering_collides. Qed.
Print Assumptions C02_accepted_tampering_collides.

(* The width / equal-name-length conditions are necessary: the preimage is a plain concatenation, so content
   can be moved between stream_name, key and suggested_file_name without changing the stream hash
   (known finding "shift:name>key>sugg"), for every H and every blob list. *)
Theorem C02_preimage_injective_needs_widths : forall H bs,
  get_stream_hash H shift_name1 shift_key1 shift_name1 bs = get_stream_hash H shift_name2 shift_key2 shift_sugg2 bs /\
  shift_key1 <> shift_key2 /\ length shift_key1 = 32%nat /\ length shift_key2 = 32%nat.
Proof. exact boundary_shift_not_bound. Qed.
Print Assumptions C02_preimage_injective_needs_widths.

(* Loading: whatever is accepted is consistent (terminator of length 0 without hash, no zero-length data blob,
   numbering by position, names are hex of valid UTF-8, stream hash = the recomputed commitment) ... *)
Theorem C02_validate_sound : forall H j d, validate H j = Ok d ->
  exists init last name sugg,
    j_blobs j = init ++ [last] /\ b_len last = 0%Z /\ b_hash last = None /\
    Forall (fun b => b_len b <> 0%Z) init /\
    (forall k b, nth_error (j_blobs j) k = Some b -> b_num b = Z.of_nat k) /\
    unhex (j_name j) = Some name /\ utf8_ok name = true /\
    unhex (j_sugg j) = Some sugg /\ utf8_ok sugg = true /\
    get_stream_hash H name (j_key j) sugg (j_blobs j) = Some (j_shash j) /\
    d = mkDesc name (j_key j) sugg (j_blobs j) (j_shash j).
Proof. exact validate_sound. Qed.
Print Assumptions C02_validate_sound.

(* ... each inconsistency class is refused with the error of the first failing check, in the code's order ... *)
Theorem C02_validate_refuses : forall H j,
  (j_blobs j = [] -> validate H j = Err EIndex) /\
  (forall init last, j_blobs j = init ++ [last] ->
     (b_len last <> 0%Z -> validate H j = Err ENoTerminator) /\
     (b_len last = 0%Z -> Exists (fun b => b_len b = 0%Z) init -> validate H j = Err EZeroData) /\
     (b_len last = 0%Z -> Forall (fun b => b_len b <> 0%Z) init ->
        (forall h, b_hash last = Some h -> validate H j = Err ETermHash) /\
        (b_hash last = None ->
           (numbered_ok 0 (j_blobs j) = false -> validate H j = Err EOrder) /\
           (numbered_ok 0 (j_blobs j) = true -> forall name sugg h,
              unhex_decode (j_name j) = Ok name -> unhex_decode (j_sugg j) = Ok sugg ->
              get_stream_hash H name (j_key j) sugg (j_blobs j) = Some h -> h <> j_shash j ->
              validate H j = Err EStreamHash)))).
Proof. exact validate_refuses. Qed.
Print Assumptions C02_validate_refuses.

(* ... and every descriptor create_stream builds is accepted when its sd blob is loaded back. *)
Theorem C02_validate_accepts_created : forall H E (maxb : nat) name key ivf f,
  (forall x, length (H x) = 48%nat) -> (forall k iv p, length (E k iv p) = (16 * (length p / 16 + 1))%nat) ->
  Forall (fun c => c < 55296 \/ (57344 <= c /\ c < 1114112))%N name ->      (* Unicode scalar values *)
  let d := s_desc (build_stream H E maxb name key ivf f) in
  validate H (to_sdj d) = Ok d.
Proof. exact validate_accepts_created. Qed.
Print Assumptions C02_validate_accepts_created.

(* For ALL names (lists of code points): the sanitised name is non-empty and none of its code points is below 32
   (so no NUL / C0 control character), outside 127..159 (DEL and the C1 controls), slash (47), backslash (92) or one of < > : double-quote | ? star. *)
Theorem C02_sanitize_safe : forall name : list N,
  sanitize name <> [] /\
  forall c, In c (sanitize name) ->
    (32 <= c /\ c <> 47 /\ c <> 92 /\ c <> 60 /\ c <> 62 /\ c <> 58 /\ c <> 34 /\ c <> 124 /\ c <> 63 /\ c <> 42 /\ (c < 127 \/ 159 < c))%N.
Proof. exact sanitize_safe_chars. Qed.
Print Assumptions C02_sanitize_safe.

(* The save-name clause at the place the daemon hands names out: for ANY suggested_file_name found in a loaded
   descriptor (other / older clients do not sanitise at publish time), ManagedStream.suggested_file_name
   (= sanitize of the stripped name) and the name save_file() picks are non-empty and free of code points below 32,
   of slash, backslash and of < > : double-quote | ? star. *)
Theorem C02_save_name_safe : forall sugg n : list N,
  suggested_save_name sugg = Some n \/ save_file_name sugg = Some n ->
  n <> [] /\ forall c, In c n ->
    (32 <= c /\ c <> 47 /\ c <> 92 /\ c <> 60 /\ c <> 62 /\ c <> 58 /\ c <> 34 /\ c <> 124 /\ c <> 63 /\ c <> 42 /\ (c < 127 \/ 159 < c))%N.
Proof. exact save_names_safe_chars. Qed.
Print Assumptions C02_save_name_safe.

(* A save that is cancelled (stop_tasks, stop, delete, second save_file, shutdown) at any point before it completed
   -- after k-1 of the n blob writes, k <= n, or after the last write but before the bookkeeping -- leaves NO file;
   only a save that ran to completion leaves one, and then it is the published file: never a truncated prefix. *)
Theorem C02_cancelled_save : forall (maxb : nat) (f : bytes) (k : nat), (2 <= maxb)%nat ->
  (save_loop [] (split maxb f) k = None /\ (k <= length (split maxb f))%nat) \/
  (save_loop [] (split maxb f) k = Some f /\ (length (split maxb f) < k)%nat).
Proof. exact cancelled_save. Qed.
Print Assumptions C02_cancelled_save.

(* A range request 'bytes=start-' (skip start/(maxb-1) blobs, drop start mod (maxb-1) bytes of the next one) serves
   the file from offset start, for every file and every start. *)
Theorem C02_range_read : forall (maxb : nat) (f : bytes) (start : nat), (2 <= maxb)%nat ->
  range_read maxb (split maxb f) start = skipn start f.
Proof. exact range_read_correct. Qed.
Print Assumptions C02_range_read.

(* The file name stored for a stream recovered from the database (sanitize of the basename) is safe for ANY
   suggested name a descriptor may carry. *)
Theorem C02_recovered_name_safe : forall sugg : list N,
  recovered_file_name sugg <> [] /\ forall c, In c (recovered_file_name sugg) ->
    (32 <= c /\ c <> 47 /\ c <> 92 /\ c <> 60 /\ c <> 62 /\ c <> 58 /\ c <> 34 /\ c <> 124 /\ c <> 63 /\ c <> 42 /\ (c < 127 \/ 159 < c))%N.
Proof. exact (fun sugg => sanitize_safe_chars (basename sugg)). Qed.
Print Assumptions C02_recovered_name_safe.

(* ---- non-vacuity: concrete instances (H = identity padded is not needed: structural facts only) ---- *)
Example C02_ex_split : split 4 (bytes_of_Ns [1; 2; 3; 4; 5; 6; 7]%N) =
  [bytes_of_Ns [1; 2; 3]%N; bytes_of_Ns [4; 5; 6]%N; bytes_of_Ns [7]%N].
Proof. vm_compute. reflexivity. Qed.
Example C02_ex_lengths : expected_lengths 2097152 4194303 = [2097152; 2097152; 16]%N.
Proof. vm_compute. reflexivity. Qed.
Example C02_ex_sanitize_con : sanitize [67; 79; 78; 46; 116; 120; 116]%N = default_name ++ [46; 116; 120; 116]%N.
Proof. vm_compute. reflexivity. Qed.
Example C02_ex_sanitize_ctrl : sanitize [97; 10; 46; 116; 1; 120; 47; 116]%N = [97; 46; 116; 120; 116]%N.
Proof. vm_compute. reflexivity. Qed.
(* a terminator-only descriptor whose stream hash is wrong is refused with the stream-hash error, a blob list
   without terminator with the terminator error *)
Example C02_ex_refuse_order : forall H,
  validate H (mkSdj [] [] [] [mkBlob 1 0 [] None] []) = Err EOrder.
Proof. reflexivity. Qed.
Example C02_ex_refuse_terminator : forall H,
  validate H (mkSdj [] [] [] [mkBlob 0 16 [] (Some [])] []) = Err ENoTerminator.
Proof. reflexivity. Qed.

(* a complete instance with toy primitives that satisfy the three hypotheses (H0 a positional checksum repeated 48
   times, E0/D0 PKCS7-style padding only): name "a/b.t\x01xt", 7-byte file, maxb = 4 *)
Example C02_ex_three_blobs : map b_len (d_blobs (s_desc ex_stream)) = [16; 16; 16; 0]%Z.
Proof. vm_compute. reflexivity. Qed.
Example C02_ex_roundtrip : decrypt_stream D0 (s_desc ex_stream) (s_cts ex_stream) = Some ex_file.
Proof. vm_compute. reflexivity. Qed.
Example C02_ex_accepts : validate H0 (to_sdj (s_desc ex_stream)) = Ok (s_desc ex_stream).
Proof. exact (validate_accepts_created H0 E0 4 ex_name ex_key ex_ivf ex_file H0_length E0_length ex_name_scalar). Qed.
Example C02_ex_refuses_tampered_key : validate H0 (tamper_key (to_sdj (s_desc ex_stream))) = Err EStreamHash.
Proof. vm_compute. reflexivity. Qed.
Example C02_ex_suggested_name : d_sugg (s_desc ex_stream) = bytes_of_Ns [97; 98; 46; 116; 120; 116]%N.
Proof. vm_compute. reflexivity. Qed.

(* The streaming read path: one decrypted-blob LRU of any capacity shared by all streams of a blob manager, keyed on
   (stream, position).  For every world of streams, every read sequence and every cache state that only holds true
   entries, each cached read returns exactly what the uncached read of that stream's own blob returns ... *)
Theorem C02_cache_transparent : forall D cap (w : list (desc * list bytes)) ops,
  run_reads D cap w [] ops = map (fun op => read_blob D w (fst op) (snd op)) ops.
Proof. exact (fun D cap w ops => cache_transparent D cap w ops [] (cache_ok_nil D w)). Qed.
Print Assumptions C02_cache_transparent.

(* ... which for a published stream is piece i of its own file. *)
Theorem C02_read_blob_created : forall H E D (maxb : nat) name key ivf f (w : list (desc * list bytes)) sid i p,
  (forall k iv p, D k iv (E k iv p) = Some p) ->
  nth_error w sid = Some (s_desc (build_stream H E maxb name key ivf f), s_cts (build_stream H E maxb name key ivf f)) ->
  nth_error (split maxb f) i = Some p ->
  read_blob D w sid i = Some p.
Proof. exact read_blob_created. Qed.
Print Assumptions C02_read_blob_created.

(* non-vacuity / necessity of the key: with the cache keyed on the position only, the second stream's blob 0 comes
   back as the first stream's plaintext *)
Example C02_ex_bynum_cache_wrong :
  snd (cached_read_bynum D0 ex_world (fst (cached_read_bynum D0 ex_world [] 0 0)) 1 0) = Some (firstn 3 ex_file).
Proof. vm_compute. reflexivity. Qed.
Example C02_ex_own_blob : read_blob D0 ex_world 1 0 = Some ex_file2.
Proof. vm_compute. reflexivity. Qed.
Example C02_ex_cached_own_blob : run_reads D0 32 ex_world [] [(0, 0); (1, 0); (0, 0); (1, 0)]%nat =
  [Some (firstn 3 ex_file); Some ex_file2; Some (firstn 3 ex_file); Some ex_file2].
Proof. vm_compute. reflexivity. Qed.

Example C02_ex_foreign_name : suggested_save_name [32; 46; 46; 47; 46; 46; 47; 120; 10; 113; 46; 109; 112; 52; 10]%N =
  Some [46; 46; 46; 46; 120; 113; 46; 109; 112; 52]%N.
Proof. vm_compute. reflexivity. Qed.
Example C02_ex_blank_name : suggested_save_name [32; 133; 9]%N = None.
Proof. vm_compute. reflexivity. Qed.
(* the range formula before the repair (start / (maxb - 2) blobs skipped) serves wrong bytes: maxb = 4, start = 2 *)
Example C02_ex_range_old_refuted : range_read_old 4 (split 4 ex_file) 2 = bytes_of_Ns [6; 7]%N.
Proof. vm_compute. reflexivity. Qed.
Example C02_ex_range_new : range_read 4 (split 4 ex_file) 2 = bytes_of_Ns [3; 4; 5; 6; 7]%N.
Proof. vm_compute. reflexivity. Qed.
Example C02_ex_cancel_mid : save_loop [] (split 4 ex_file) 3 = None.
Proof. vm_compute. reflexivity. Qed.
Example C02_ex_cancel_late : save_loop [] (split 4 ex_file) 4 = Some ex_file.
Proof. vm_compute. reflexivity. Qed.
