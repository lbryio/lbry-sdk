(* C05 property theorems: statements only, each closed by [exact]. *)
From Coq Require Import NArith ZArith List Bool.
From LV Require Import Lib.Bytes Wire.CompactSize Wire.Tx Model.C05 Proofs.C05 Model.C05Cache Proofs.C05Cache.
Import ListNotations.
Local Open Scope N_scope.

(* Every n < 2^64 written as a compact size reads back as n, whatever follows; the encoding
   has 1, 3, 5 or 9 bytes and the width is the smallest whose range holds n. *)
Theorem C05_compact_size_roundtrip : forall n rest, n < 18446744073709551616 ->
  read_cs (cs_encode n ++ rest) = ROk (Some n, rest) /\
  length (cs_encode n) = cs_width n /\
  ((cs_width n = 1%nat /\ n < 253) \/ (cs_width n = 3%nat /\ 253 <= n < 65536) \/
   (cs_width n = 5%nat /\ 65536 <= n < 4294967296) \/ (cs_width n = 9%nat /\ 4294967296 <= n)).
Proof.
  exact (fun n rest H =>
    conj (read_cs_encode n rest H) (conj (cs_encode_length n) (cs_width_minimal n H))).
Qed.
Print Assumptions C05_compact_size_roundtrip.

(* For every well-formed transaction (32-bit version/index/sequence/locktime, 64-bit amounts,
   32-byte outpoint hashes, scripts shorter than 2^63, at least one input, any number of inputs
   and outputs below 2^64) the reader applied to the written bytes -- followed by anything --
   returns exactly its fields: no None, flag 0, no witnesses. *)
Theorem C05_tx_roundtrip : forall t rest, wf_tx t -> deserialize (serialize t ++ rest) = ROk (lift t).
Proof. exact deserialize_serialize. Qed.
Print Assumptions C05_tx_roundtrip.

(* The bytes determine the transaction (also when other bytes follow). *)
Theorem C05_serialize_injective : forall t1 t2, wf_tx t1 -> wf_tx t2 ->
  serialize t1 = serialize t2 -> t1 = t2.
Proof. exact serialize_injective. Qed.
Print Assumptions C05_serialize_injective.

Theorem C05_serialize_prefix_free : forall t1 t2 r1 r2, wf_tx t1 -> wf_tx t2 ->
  serialize t1 ++ r1 = serialize t2 ++ r2 -> t1 = t2 /\ r1 = r2.
Proof. exact serialize_prefix_free. Qed.
Print Assumptions C05_serialize_prefix_free.

(* Writing what was read gives the identical bytes (the writer here is the Python-faithful one,
   which raises struct.error on None / out-of-range fields -- it does not on these). *)
Theorem C05_reserialize_identical : forall t rest, wf_tx t ->
  exists p, deserialize (serialize t ++ rest) = ROk p /\ p = lift t /\ pser p = ROk (serialize t).
Proof.
  exact (fun t rest H =>
    ex_intro _ (lift t) (conj (deserialize_serialize t rest H) (conj eq_refl (pser_lift t H)))).
Qed.
Print Assumptions C05_reserialize_identical.

(* A transaction assembled through the library serialises to [serialize t] and its id is the
   byte-reversed double hash of exactly those bytes; for every function in the place of sha256. *)
Theorem C05_built_raw_and_id : forall (sha256 : bytes -> bytes) t, wf_tx t ->
  build_raw t = ROk (serialize t) /\ build_id sha256 t = ROk (rev (sha256 (sha256 (serialize t)))).
Proof. exact build_ok. Qed.
Print Assumptions C05_built_raw_and_id.

(* Segwit: the witness-carrying encoding of (t, witnesses), any non-zero flag byte, parses to the
   fields of t (plus flag and the flattened witness items); its id is the reversed double hash of
   the LEGACY encoding of t, the same id the legacy encoding itself gets. *)
Theorem C05_segwit_txid : forall (sha256 : bytes -> bytes) t flag wits rest,
  wf_tx t -> wf_wits t wits -> 0 < flag < 256 ->
  deserialize (serialize_segwit t flag wits ++ rest) = ROk (lift_with flag (concat wits) t) /\
  txid_of_raw sha256 (serialize_segwit t flag wits ++ rest) = ROk (rev (sha256 (sha256 (serialize t)))) /\
  txid_of_raw sha256 (serialize t) = ROk (rev (sha256 (sha256 (serialize t)))).
Proof.
  exact (fun sha256 t flag wits rest H Hw Hf =>
    conj (segwit_parse t flag wits rest H Hw Hf)
         (conj (txid_segwit sha256 t flag wits rest H Hw Hf) (txid_legacy sha256 t H))).
Qed.
Print Assumptions C05_segwit_txid.

(* The reader is total: on every byte string it returns fields or one of the Python error
   classes; the model's fuel never runs out. *)
Theorem C05_deserialize_total : forall raw, deserialize raw <> RErr EOutOfFuel.
Proof. exact deserialize_total. Qed.
Print Assumptions C05_deserialize_total.

(* Soundness of the reader on ARBITRARY bytes (shorter than 2^63): whenever it returns fields with at
   least one input and the writer accepts them (no None, all in range), those fields are a
   well-formed transaction t, the writer emits exactly serialize t (which reads back as t), and the
   id is the reversed double hash of serialize t when a non-zero segwit flag was seen, of the given
   bytes otherwise. Covers non-minimal size prefixes, trailing bytes and any witness layout. *)
Theorem C05_reader_sound : forall (sha256 : bytes -> bytes) raw p b,
  N.of_nat (length raw) < MAXSIZE1 -> deserialize raw = ROk p -> p_ins p <> [] -> pser p = ROk b ->
  (exists t, wf_tx t /\ b = serialize t /\
             p_version p = Some (tx_version t) /\ p_ins p = map lift_in (tx_ins t) /\
             p_outs p = map lift_out (tx_outs t) /\ p_locktime p = Some (tx_locktime t) /\
             deserialize b = ROk (lift t)) /\
  txid_of_raw sha256 raw = ROk (rev (sha256 (sha256 (if truthy (p_flag p) then b else raw)))).
Proof. exact reader_sound. Qed.
Print Assumptions C05_reader_sound.

(* The number of bytes written is the sum of the parts (Transaction.size, base_size, Input/Output.size),
   for every transaction. *)
Theorem C05_size : forall t, length (serialize t) = tx_size t.
Proof. exact serialize_length. Qed.
Print Assumptions C05_size.

(* Serialisation caches of a Transaction object (_raw, _raw_outputs, id), for EVERY history of
   add_inputs/add_outputs, _reset, raw reads and id reads that contains no in-place field edit:
   raw is the serialisation of the fields held now and id its reversed double hash. *)
Theorem C05_cache_reads_current : forall (sha256 : bytes -> bytes) t ops,
  forallb (fun op => negb (is_edit op)) ops = true ->
  let s := fst (crun sha256 (c_init t) ops) in
  fst (read_raw s) = serialize (c_cur s) /\
  fst (read_id sha256 s) = rev (sha256 (sha256 (serialize (c_cur s)))).
Proof.
  exact (fun sha256 t ops H =>
    coherent_raw_id sha256 _ (crun_coherent sha256 ops _ H (coherent_empty sha256 t false))).
Qed.
Print Assumptions C05_cache_reads_current.

(* ... and for EVERY history whatsoever (fields edited in place, other coroutines reading raw/id in
   between, in any order) that ends with _reset(): this is the shape of Transaction.sign
   (_reset; per input: await key, write signature in place; _reset) under any interleaving. *)
Theorem C05_cache_reset_makes_current : forall (sha256 : bytes -> bytes) s ops,
  let s' := fst (crun sha256 s (ops ++ [OReset])) in
  fst (read_raw s') = serialize (c_cur s') /\
  fst (read_id sha256 s') = rev (sha256 (sha256 (serialize (c_cur s')))).
Proof.
  exact (fun sha256 s ops =>
    coherent_raw_id sha256 _ (crun_restores sha256 s ops OReset [] (or_introl eq_refl) eq_refl)).
Qed.
Print Assumptions C05_cache_reset_makes_current.

(* a PARSED transaction (the given bytes cached as _raw, segwit flag set or not, id / raw_sans_segwit
   possibly read before): after the first add_inputs / add_outputs / _reset, and as long as no field is
   edited in place without a reset afterwards, raw, raw_sans_segwit and id are those of the fields the
   object holds now -- the witness-stripped bytes cached by an earlier id read do not survive the change. *)
Theorem C05_cache_parsed_reads_current : forall (sha256 : bytes -> bytes) t raw seg before op after,
  (op = OReset \/ exists t', op = OAdd t') ->
  forallb (fun op => negb (is_edit op)) after = true ->
  let s := fst (crun sha256 (c_parsed t raw seg) (before ++ op :: after)) in
  fst (read_raw s) = serialize (c_cur s) /\ fst (read_sans s) = serialize (c_cur s) /\
  fst (read_id sha256 s) = rev (sha256 (sha256 (serialize (c_cur s)))).
Proof.
  exact (fun sha256 t raw seg before op after Hop H =>
    coherent_reads sha256 _ (crun_restores sha256 (c_parsed t raw seg) before op after Hop H)).
Qed.
Print Assumptions C05_cache_parsed_reads_current.

(* non-vacuity: the hypotheses are inhabited, and concrete instances *)
Example C05_ex_wf : wf_tx sample_tx /\ wf_wits sample_tx sample_wits.
Proof. exact sample_wf. Qed.
Example C05_ex_roundtrip : deserialize (serialize sample_tx) = ROk (lift sample_tx).
Proof. vm_compute. reflexivity. Qed.
Example C05_ex_segwit :
  deserialize (serialize_segwit sample_tx 1 sample_wits) = ROk (lift_with 1 (concat sample_wits) sample_tx).
Proof. vm_compute. reflexivity. Qed.
Example C05_ex_cs : map cs_width [0; 252; 253; 65535; 65536; 4294967295; 4294967296] = [1; 1; 3; 3; 5; 5; 9]%nat.
Proof. vm_compute. reflexivity. Qed.
(* C05_reader_sound applies to inputs that are not of the form [serialize t] *)
Example C05_ex_reader_sound :
  let raw := serialize_segwit sample_tx 1 sample_wits ++ [byte_of_N 9] in
  let p := lift_with 1 (concat sample_wits) sample_tx in
  N.of_nat (length raw) < MAXSIZE1 /\ deserialize raw = ROk p /\ p_ins p <> [] /\
  pser p = ROk (serialize sample_tx) /\ raw <> serialize sample_tx.
Proof. exact sample_reader_sound_hyps. Qed.
(* the trailing reset is needed: reset, an interleaved id read, a signature written in place, no
   reset -> raw is the pre-signature serialisation *)
Example C05_ex_sign_needs_final_reset :
  let s' := fst (crun (fun b => b) (c_init sample_tx) [OReset; OReadId; OEdit sample_tx2]) in
  fst (read_raw s') <> serialize (c_cur s').
Proof. exact sign_without_final_reset_refuted. Qed.
(* add_inputs/add_outputs whose iterable raises midway: appended items without a reset leave a stale
   raw (old _add); with the reset (OAdd, the repaired _add) raw is current *)
Example C05_ex_partial_add_needs_reset :
  let s' := fst (crun (fun b => b) (c_init sample_tx) [OReadRaw; OEdit sample_tx2]) in
  fst (read_raw s') <> serialize (c_cur s') /\
  let s'' := fst (crun (fun b => b) (c_init sample_tx) [OReadRaw; OAdd sample_tx2]) in
  fst (read_raw s'') = serialize (c_cur s'').
Proof. exact partial_add_without_reset_refuted. Qed.
(* a transaction without inputs does NOT round-trip (its bytes start with the segwit marker):
   the reason wf_tx asks for an input *)
Example C05_ex_no_input : deserialize (serialize no_input_tx) <> ROk (lift no_input_tx).
Proof. exact no_input_ambiguous. Qed.
(* parsed segwit object, id read (fills _raw_sans_segwit), fields changed: without a reset raw_sans_segwit is
   the old stripped serialisation; with add_outputs' reset it and the id are current *)
Example C05_ex_parsed_segwit_needs_sans_reset :
  let s' := fst (crun (fun b => b) (c_parsed sample_tx (serialize sample_tx) true) [OReadId; OEdit sample_tx2]) in
  fst (read_sans s') <> serialize (c_cur s') /\
  let s'' := fst (crun (fun b => b) (c_parsed sample_tx (serialize sample_tx) true) [OReadId; OAdd sample_tx2]) in
  fst (read_sans s'') = serialize (c_cur s'') /\ fst (read_id (fun b => b) s'') = rev (serialize (c_cur s'')).
Proof. exact parsed_segwit_stale_without_reset_refuted. Qed.
