(* C12 property theorems (components; the whole-network hit guarantee is NOT a theorem, see meta.json).
   Statements only, each closed by [exact]. *)
From Coq Require Import NArith ZArith List Bool Arith Permutation.
From Coq.Strings Require Import Byte.
From LV Require Import Lib.Bytes Model.C12 Proofs.C12.
Import ListNotations.

(* ---------------- data store ---------------- *)
(* For every history of announcements (DAdd) and cleanup passes (DExpire): a peer is returned for a blob at
   time [now] iff the abstract record "last announcement not since cleaned up" holds a timestamp ts with
   now < ts + 86400, and the peer is not known bad.  [a_run] is the specification-level partial map
   (key, peer) -> time; the implementation-shaped list-of-lists store refines it. *)
Theorem C12_store_visible_until_expiry : forall (ops : list dop) (k p : N) (now : Z) (bad : N -> bool),
  In p (ds_get (ds_run ops) k now bad) <->
  exists ts, a_run ops k p = Some ts /\ (now < ts + 86400)%Z /\ bad p = false.
Proof. exact store_visible_until_expiry. Qed.
Print Assumptions C12_store_visible_until_expiry.

(* refresh replaces the timestamp: right after (re-)announcing at time t, visibility depends on t alone *)
Theorem C12_store_refresh : forall (ops : list dop) (k p : N) (t now : Z) (bad : N -> bool),
  In p (ds_get (ds_run (ops ++ [DAdd k p t])) k now bad) <-> (now < t + 86400)%Z /\ bad p = false.
Proof. exact store_refresh. Qed.
Print Assumptions C12_store_refresh.

Theorem C12_store_no_duplicates : forall ops k now bad, NoDup (ds_get (ds_run ops) k now bad).
Proof. exact (fun ops k now bad => ds_get_NoDup (ds_run ops) k now bad (proj1 (store_refines ops))). Qed.
Print Assumptions C12_store_no_duplicates.

(* ---------------- paging ---------------- *)
(* One storing node holding any set of up to K*(MAX_VALUE_PAGES+1) = 264 distinct peers, shuffled in any
   way, walked by the client's page loop: every stored peer is delivered exactly once. *)
Theorem C12_paging_complete : forall (stored shuffled : list N),
  NoDup stored -> Permutation shuffled stored -> length stored <= K * (MAX_VALUE_PAGES + 1) ->
  Permutation (delivered N.eqb shuffled) stored /\ NoDup (delivered N.eqb shuffled).
Proof. exact (paging_complete_shuffled N.eqb N.eqb_eq). Qed.
Print Assumptions C12_paging_complete.

(* beyond the cap the client stops after MAX_VALUE_PAGES+1 pages: exactly 264 peers *)
Theorem C12_paging_cap : forall (l : list N),
  NoDup l -> K * (MAX_VALUE_PAGES + 1) < length l -> length (delivered N.eqb l) = K * (MAX_VALUE_PAGES + 1).
Proof. exact (paging_cap_exceeded N.eqb N.eqb_eq). Qed.
Print Assumptions C12_paging_cap.

(* the page count before commit bd444d0 (n // (K+1) + 1): complete iff n/9 + n mod 9 <= 16 *)
Theorem C12_paging_old_refuted : forall (l : list N),
  NoDup l -> (delivered_old N.eqb l = l <-> good_count_old (length l) = true).
Proof. exact (paging_old_refuted N.eqb N.eqb_eq). Qed.
Print Assumptions C12_paging_old_refuted.

(* against ANY storing node (hostile included): the capped page loop ends after at most MAX_VALUE_PAGES+1 requests *)
Theorem C12_paging_terminates_any_server : forall (srv : nat -> list N * nat) (fuel : nat),
  MAX_VALUE_PAGES + 2 <= fuel ->
  let r := walk N.eqb real_cap fuel srv {| pg := 0; disc := [] |} [] [] in
  snd r = true /\ length (snd (fst r)) <= MAX_VALUE_PAGES + 1.
Proof. exact (fun srv fuel => walk_capped_terminates N.eqb MAX_VALUE_PAGES srv fuel {| pg := 0; disc := [] |} [] [] (Nat.le_0_l MAX_VALUE_PAGES)). Qed.
Print Assumptions C12_paging_terminates_any_server.

(* the loop before commit fac7223: a fresh full page announcing one more page always makes it ask again *)
Theorem C12_uncapped_page_step_refuted : forall (st : pstate) (items : list N) (pages : nat),
  items <> [] -> NoDup items -> (forall x, In x items -> ~ In x (disc st)) ->
  K <= length items -> pg st < pages ->
  page_step N.eqb None st items pages = ({| pg := S (pg st); disc := disc st ++ items |}, true).
Proof. exact (fun st items pages _ Hnd Hfr => page_step_uncapped_again N.eqb st items pages (union_set_fresh N.eqb N.eqb_eq (disc st) items Hnd Hfr)). Qed.
Print Assumptions C12_uncapped_page_step_refuted.

(* ---------------- finder bookkeeping ---------------- *)
(* For ANY sequence of events (replies with any contacts, timeouts, errors, crashes, in any order): the number
   of probes ever scheduled is at most the id-less seeds plus (1 + MAX_VALUE_PAGES) per distinct peer ever
   mentioned.  Each probe ends within one RPC timeout (protocol.send_request), hence the time bound. *)
Theorem C12_finder_terminates : forall (prm : fparams) (evs : list fev),
  fp_cap prm = real_cap ->
  f_sched (final_state prm evs) <=
  seeds_of evs + (1 + MAX_VALUE_PAGES) * length (nodup N.eq_dec (mentioned evs)).
Proof. exact (fun prm evs => finder_probe_bound prm MAX_VALUE_PAGES evs). Qed.
Print Assumptions C12_finder_terminates.

(* node lookups (no value replies): one probe per distinct peer *)
Theorem C12_finder_terminates_node : forall (prm : fparams) (evs : list fev),
  fp_cap prm = real_cap -> forallb (fun e => negb (is_vreply e)) evs = true ->
  f_sched (final_state prm evs) <= seeds_of evs + length (nodup N.eq_dec (mentioned evs)).
Proof. exact (fun prm evs => finder_probe_bound_node prm MAX_VALUE_PAGES evs). Qed.
Print Assumptions C12_finder_terminates_node.

Theorem C12_finder_alpha : forall (prm : fparams) (evs : list fev),
  fp_cap prm = real_cap -> length (f_running (final_state prm evs)) <= ALPHA + seeds_of evs.
Proof. exact (fun prm evs => finder_alpha prm MAX_VALUE_PAGES evs). Qed.
Print Assumptions C12_finder_alpha.

(* after every search round of a reachable state: a probe is running or the end marker has been queued *)
Theorem C12_finder_progress : forall prm evs ev st' outs tag,
  fp_cap prm = real_cap ->
  (exists good, ev = EStart good) \/
  (exists p tid good, ev = EDone p tid good /\ f_on (final_state prm evs) = true) ->
  fstep prm (final_state prm evs) ev = (st', outs, tag) ->
  f_running st' <> [] \/ In OFinish outs.
Proof. exact (fun prm evs ev st' outs tag _ => round_progress prm (final_state prm evs) ev st' outs tag). Qed.
Print Assumptions C12_finder_progress.

Theorem C12_finder_contacted_grows : forall prm evs ev st' outs tag,
  fp_cap prm = real_cap -> is_vreply ev = false ->
  fstep prm (final_state prm evs) ev = (st', outs, tag) ->
  forall x, In x (f_contacted (final_state prm evs)) -> In x (f_contacted st').
Proof. exact (fun prm evs ev st' outs tag _ => contacted_monotone prm (final_state prm evs) ev st' outs tag). Qed.
Print Assumptions C12_finder_contacted_grows.

Theorem C12_finder_pages_capped : forall prm evs k v,
  fp_cap prm = real_cap -> In (k, v) (f_pages (final_state prm evs)) -> v <= MAX_VALUE_PAGES.
Proof. exact (fun prm evs k v => finder_pages_capped prm MAX_VALUE_PAGES evs k v). Qed.
Print Assumptions C12_finder_pages_capped.

(* the loop before commit fac7223: a single hostile peer drives 35 probes, above the bound 33 that the capped
   loop keeps on the same events *)
Theorem C12_uncapped_pager_refuted :
  exists evs, length (nodup N.eq_dec (mentioned evs)) = 1 /\ seeds_of evs = 0 /\
    f_sched (final_state (prm_value None) evs) > (1 + MAX_VALUE_PAGES) * 1 /\
    f_sched (final_state (prm_value real_cap) evs) <= (1 + MAX_VALUE_PAGES) * 1.
Proof. exact uncapped_pager_refuted. Qed.
Print Assumptions C12_uncapped_pager_refuted.

(* the done-callback (commit 8221320: a finished probe removes only its OWN running_probes entry): along every run in
   which each callback comes after its task's result, "no probe tracked as running" implies "no probe result
   pending" - so the end of the search (declared only when nothing is tracked) never drops a page on its way *)
Theorem C12_finder_exhaustion_sound : forall (prm : fparams) (evs : list fev),
  fp_stalepop prm = false -> run_wf prm f_init evs ->
  f_running (final_state prm evs) = [] -> f_pending (final_state prm evs) = [].
Proof. exact exhaustion_sound. Qed.
Print Assumptions C12_finder_exhaustion_sound.

(* the callback before 8221320 (pop whatever entry the peer has): on a well-formed run of six events the end is
   declared while the next page of peer 2 is pending; the repaired callback keeps it tracked on the same events *)
Theorem C12_stale_pop_refuted :
  run_wf (prm_race true) f_init race_evs /\
  f_running (final_state (prm_race true) race_evs) = [] /\
  f_pending (final_state (prm_race true) race_evs) = [(2%N, 2)] /\
  In OFinish (fst (last (snd (frun (prm_race true) f_init race_evs)) ([], 0%N))) /\
  f_running (final_state (prm_race false) race_evs) = [2%N] /\
  ~ In OFinish (fst (last (snd (frun (prm_race false) f_init race_evs)) ([], 0%N))).
Proof. exact stale_pop_refuted. Qed.
Print Assumptions C12_stale_pop_refuted.

(* ---------------- outputs ---------------- *)
(* node lookup, any state, any event: a yielded peer was reported good by the peer manager at that moment
   (it replied), was never yielded before, and its record is not the searching node *)
Theorem C12_outputs_valid_node : forall prm st ev st' outs tag ps x,
  fstep prm st ev = (st', outs, tag) -> In (OYield ps) outs -> In x ps ->
  In x (good_of ev) /\ ~ In x (f_yielded st) /\
  exists q, In q (f_active st') /\ pid q = x /\ self_id q = false.
Proof. exact (fun prm st ev st' outs tag ps x H Hin => fstep_outs prm st ev st' outs tag H (OYield ps) Hin x). Qed.
Print Assumptions C12_outputs_valid_node.

(* value lookup: a yielded address is one of the event's raw items and decodes as a well-formed public address *)
Theorem C12_outputs_valid_value : forall prm st ev st' outs tag cs c,
  fstep prm st ev = (st', outs, tag) -> In (OVYield cs) outs -> In c cs ->
  valid_compact c = true /\
  exists p sb raw pages cts chk, ev = EValueReply p sb raw pages cts chk /\ In (VB c) raw.
Proof. exact (fun prm st ev st' outs tag cs c H Hin => fstep_outs prm st ev st' outs tag H (OVYield cs) Hin c). Qed.
Print Assumptions C12_outputs_valid_value.

Theorem C12_valid_compact_spec : forall bs, valid_compact bs = true ->
  length bs = 54 /\ (1024 <= be_decode (firstn 2 (skipn 4 bs)) < 65536)%N /\
  public_ip (nthN bs 0) (nthN bs 1) (nthN bs 2) (nthN bs 3) = true.
Proof. exact (fun bs => proj1 (valid_compact_iff bs)). Qed.
Print Assumptions C12_valid_compact_spec.

(* ---------------- production lookup (Node.accumulate_peers) and reply size ---------------- *)
(* the udp port the producer pings for a peer known only by its tcp port is the peer's real udp port exactly
   for the supported layouts: one port for both protocols, or a legacy instance tcp 3333+i / udp 4444+i *)
Theorem C12_udp_guess_supported : forall udp tcp : N,
  guess_udp tcp = udp <-> port_layout_supported udp tcp.
Proof. exact guess_udp_supported. Qed.
Print Assumptions C12_udp_guess_supported.

(* a peer that is not the searcher and not known bad, on a supported layout, is handed out or pinged on its real port *)
Theorem C12_producer_reaches : forall (good : option bool) (known : option N) (udp tcp : N),
  good <> Some false -> port_layout_supported udp tcp -> (known = None \/ known = Some udp) -> udp <> 0%N ->
  producer_action false good known tcp = APut \/ producer_action false good known tcp = APing udp.
Proof. exact producer_action_reaches. Qed.
Print Assumptions C12_producer_reaches.

(* the largest first findValue page (K contacts with 15-character dotted quads and 5-digit ports, K blob peers,
   page count below 10^6) fits MSG_SIZE_LIMIT *)
Theorem C12_first_page_fits : forall (cs : list (nat * N)) (c : nat) (pages : N),
  length cs <= K -> Forall (fun x => fst x <= 15 /\ (snd x < 65536)%N) cs -> c <= K -> (pages < 1000000)%N ->
  find_value_reply_size (Some cs) (Some c) pages <= MSG_SIZE_LIMIT.
Proof. exact first_page_fits. Qed.
Print Assumptions C12_first_page_fits.

(* KademliaRPC.store (commit 0c01d02) only accepts tcp ports 1024..65535: every stored peer with a public address
   has a compact address that every searcher decodes as well-formed (no page is discarded because of it) *)
Theorem C12_stored_peer_compact_valid : forall (ip id : bytes) (port : N),
  length ip = 4 -> length id = 48 ->
  public_ip (nthN ip 0) (nthN ip 1) (nthN ip 2) (nthN ip 3) = true -> store_port_ok port = true ->
  valid_compact (mk_compact_addr ip port id) = true.
Proof. exact stored_peer_compact_valid. Qed.
Print Assumptions C12_stored_peer_compact_valid.

(* PingQueue.enqueue_maybe_ping keeps the EARLIER time: once a contact is queued for time a, whatever is enqueued
   afterwards (further requests of the same busy contact included) its verification ping is due at a or before *)
Theorem C12_ping_never_postponed : forall (ops : list (N * Z)) (q : pq) (p : N) (a : Z),
  pq_get q p = Some a ->
  exists t, pq_get (fold_left (fun s o => pq_enqueue s (fst o) (snd o)) ops q) p = Some t /\ (t <= a)%Z.
Proof. exact pq_never_postponed. Qed.
Print Assumptions C12_ping_never_postponed.

(* ---------------- non-vacuity / concrete instances ---------------- *)
(* F9 (machine-checked): 89 peers on one node, old page count: 88 delivered *)
Example C12_ex_old_89 : delivered_old N.eqb (seqN 89) = firstn 88 (seqN 89).
Proof. vm_compute. reflexivity. Qed.
Example C12_ex_new_89 : delivered N.eqb (seqN 89) = seqN 89.
Proof. vm_compute. reflexivity. Qed.
Example C12_ex_new_264 : length (delivered N.eqb (seqN 264)) = 264.
Proof. exact (delivered_seqN 264). Qed.
Example C12_ex_new_265 : length (delivered N.eqb (seqN 265)) = 264.
Proof. exact (delivered_seqN 265). Qed.
(* a stored peer is visible one second before expiry and gone at expiry; a bad peer is filtered *)
Example C12_ex_store :
  (ds_get (ds_run [DAdd 7 1 100; DAdd 7 2 200; DAdd 7 1 300]) 7 86499 (fun _ => false),
   ds_get (ds_run [DAdd 7 1 100; DAdd 7 2 200; DAdd 7 1 300]) 7 86600 (fun _ => false),
   ds_get (ds_run [DAdd 7 1 100; DAdd 7 2 200; DAdd 7 1 300]) 7 0 (fun p => N.eqb p 1),
   ds_run [DAdd 7 1 100; DAdd 7 2 200; DExpire 86501 []])
  = ([1; 2], [1], [2], [(7, [(2, 200%Z)])])%N.
Proof. vm_compute. reflexivity. Qed.
Example C12_ex_compact : (valid_compact (mk_compact 5), decode_compact [x01; x02; x03]) = (true, DCrash).
Proof. vm_compute. reflexivity. Qed.
(* a concrete node lookup: two known peers, one replies with a closer contact, the searcher itself and a known-bad
   contact; one times out; the lookup ends by exhaustion and yields the two good peers closest first *)
Definition ex_peer (i d : N) : peer := {| pid := i; pdist := d; has_id := true; self_id := false; self_addr := false |}.
Definition ex_me : peer := {| pid := 9; pdist := 0; has_id := true; self_id := true; self_addr := true |}.
Definition ex_prm : fparams := {| fp_kind := KNode; fp_key_is_self := false; fp_maxres := 16; fp_cap := real_cap; fp_stalepop := false |}.
Definition ex_evs : list fev :=
  [EInit [ex_peer 1 5; ex_peer 2 3]; EStart [];
   ENodeReply (ex_peer 2 3) false [(ex_peer 3 1, false); (ex_me, false); (ex_peer 4 7, true)] true false [];
   EDone 2 0 []; EFail 1; EDone 1 1 [];
   ENodeReply (ex_peer 3 1) false [(ex_peer 2 3, false)] true false []; EDone 3 2 [2; 3]%N]%N.
Example C12_ex_finder :
  (snd (frun ex_prm f_init ex_evs), f_sched (final_state ex_prm ex_evs), f_contacted (final_state ex_prm ex_evs))
  = ([([], 0); ([OSched 2; OSched 1], 0); ([], 0); ([OSched 3], 0); ([], 0); ([], 0); ([], 0);
      ([OYield [3; 2]; OFinish], 0)], 3%nat, [2; 1; 3])%N.
Proof. vm_compute. reflexivity. Qed.
Example C12_ex_reply_size :
  (find_value_reply_size (Some (repeat (15, 44444%N) 8)) (Some 8) 2, find_value_reply_size (Some (repeat (7, 4444%N) 8)) (Some 8) 2,
   find_value_reply_size None (Some 8) 13, guess_udp 3334, guess_udp 5000, guess_udp 3333)
  = (1323, 1243, 688, 4445%N, 5000%N, 4444%N).
Proof. vm_compute. reflexivity. Qed.
(* a port the old store rule (0 < port < 65535) let through: the whole findValue page is discarded by the searcher *)
Example C12_ex_low_port :
  (store_port_ok 80, decode_compact (mk_compact_addr [x01; x00; x00; x04] 80 (repeat x07 48)), store_port_ok 1024, store_port_ok 65535)
  = (false, DInvalid, true, true).
Proof. vm_compute. reflexivity. Qed.
